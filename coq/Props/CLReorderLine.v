(* Props/CLReorderLine.v — the property theorem and a non-vacuity example.
   At character level (ghost encoding U32),
   reorder_line returns exactly the line's characters permuted by rule L2 applied to the
   per-character L1 levels of the line; the line itself when no level is odd after L1. *)
From BidiVerif Require Import Base ModelText ModelLine Stmts5.
From BidiVerif.Proofs Require Import CLReorderLine.

Theorem cl_reorder_line : CL_reorder_line.
Proof. exact cl_reorder_line_proved. Qed.

(* non-vacuity: a line in the middle of a text, mixed levels, trailing whitespace reset by L1;
   all hypotheses of the statement hold and the line is genuinely permuted *)
Example cl_reorder_line_example :
  let cps := [65; 1488; 1489; 32; 49; 50; 32; 66; 32; 32]%N in
  let cls := [L; R; R; WS; EN; EN; WS; L; WS; WS] in
  let lv := [0; 1; 1; 1; 2; 2; 1; 2; 1; 1] in
  let pl := 1 in
  length cls = length cps /\ length lv = length cps /\ (1 <? 10) = true /\ (10 <=? length cps) = true /\
  forallb (fun l => l <=? 126) lv = true /\ (pl <=? 126) = true /\
  Spec.l1 pl (sub cls 1 10) (sub lv 1 10) = [1; 1; 1; 2; 2; 1; 2; 1; 1] /\
  reorder_line U32 false cps cls lv pl (1, 10) = Ok [32; 32; 66; 32; 49; 50; 32; 1489; 1488]%N /\
  map (fun x => nth (1 + x) cps 0%N) (Spec.l2 (Spec.l1 pl (sub cls 1 10) (sub lv 1 10)))
    = [32; 32; 66; 32; 49; 50; 32; 1489; 1488]%N.
Proof. vm_compute. repeat split. Qed.

Check cl_reorder_line : CL_reorder_line.
Print Assumptions cl_reorder_line.
