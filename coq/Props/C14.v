(* Props/C14.v — property theorem only.  The class lookup is order-independent on every sorted,
   disjoint table (halving search = first-match linear lookup), and the regenerated class table is
   sorted, disjoint, scalar-only, with the expected classes for the format characters. *)
From BidiVerif Require Import Stmts.
From BidiVerif.Proofs Require Import Tables.

Theorem C14_table_structure : C14_structure_statement.
Proof. exact C14_structure. Qed.

Check C14_table_structure : C14_structure_statement.
Print Assumptions C14_table_structure.
