(* Props/CSShortcut.v — the property theorem and a non-vacuity example.
   A paragraph at level 0 whose classes contain no R, AL,
   AN, no embedding/override initiator and no isolate initiator gets level 0 on every character from
   UAX #9 (Spec.v): the early return of compute_bidi_info_for_para is sound. *)
From BidiVerif Require Import Base Spec Stmts6.
From BidiVerif.Proofs Require Import CSShortcut.

Theorem cs_shortcut : CS_shortcut.
Proof. exact cs_shortcut_proof. Qed.

(* non-vacuity: "a 1 + 2 ( b ) BN PDF PDI , NSM TAB" with a bracket pair, a stray PDF and a stray PDI,
   removed characters, numbers with separators; the hypotheses hold for the auto direction and for
   the forced level 0, and the conclusion is computed *)
Example cs_shortcut_example :
  let cls0 := [L; WS; EN; WS; ES; WS; EN; WS; ON; L; ON; WS; BN; PDF; PDI; CS; NSM; SS] in
  let brk := [None; None; None; None; None; None; None; None; Some (40%N, true); None; Some (40%N, false);
              None; None; None; None; None; None; None] in
  length brk = length cls0 /\ forallb pure_ltr_class cls0 = true /\
  (forall i, i + 1 < length cls0 -> nth i cls0 L <> B) /\
  Spec.para_level cls0 None = 0 /\ Spec.para_level cls0 (Some 0) = 0 /\
  snd (resolve_paragraph cls0 brk None)
    = [Some 0; Some 0; Some 0; Some 0; Some 0; Some 0; Some 0; Some 0; Some 0; Some 0; Some 0; Some 0;
       None; None; Some 0; Some 0; Some 0; Some 0] /\
  fill_removed 0 (snd (resolve_paragraph cls0 brk None)) = repeat 0 18 /\
  fill_removed 0 (snd (resolve_paragraph cls0 brk (Some 0))) = repeat 0 18 /\
  (* the hypothesis on the paragraph level matters: the same classes forced to level 1 *)
  fill_removed 1 (snd (resolve_paragraph cls0 brk (Some 1))) <> repeat 1 18.
Proof.
  cbv zeta. repeat split; try (vm_compute; reflexivity).
  - intros i Hi. cbn [length] in Hi.
    do 17 (destruct i as [|i]; [cbn; discriminate|]). exfalso. lia.
  - vm_compute. discriminate.
Qed.

Check cs_shortcut : CS_shortcut.
Print Assumptions cs_shortcut.
