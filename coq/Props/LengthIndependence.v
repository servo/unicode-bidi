(* Props/LengthIndependence.v — the analysis of a text in any encoding is the per-code-unit
   expansion of the analysis of its character list (ghost encoding U32); assembled from the stage
   theorems.  With character-level totality this gives C07/C08 for the constructors. *)
From BidiVerif Require Import Stmts3 Stmts4.
From BidiVerif.Props Require Import LIInitial LIExplicit LISequences LIWeak LINeutral LIAssemble TotalAssemble Totality.

Theorem li_para : LI_para.
Proof. exact (li_para_assembly li_explicit li_sequences li_weak li_neutral li_levels). Qed.
Theorem li_bidi_info : LI_bidi_info.
Proof. exact (li_bidi_info_assembly li_initial li_para). Qed.
Theorem li_para_bidi_info : LI_para_bidi_info.
Proof. exact (li_para_bidi_info_assembly li_initial li_para). Qed.

(* for every encoding: the constructors never panic; one entry per code unit; classes and levels
   uniform inside each character; every level between its paragraph's level and 126 *)
Theorem C07_C08_constructors_thm : C07_C08_constructors.
Proof. exact (c07_c08_assembly constructors_total_char li_bidi_info li_para_bidi_info). Qed.

Check li_bidi_info : LI_bidi_info.
Check li_para_bidi_info : LI_para_bidi_info.
Check C07_C08_constructors_thm : C07_C08_constructors.
Print Assumptions li_bidi_info.
Print Assumptions li_para_bidi_info.
Print Assumptions C07_C08_constructors_thm.
