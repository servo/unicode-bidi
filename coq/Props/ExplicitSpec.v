(* Props/ExplicitSpec.v — the property theorem and a non-vacuity example.
   The explicit stage of the model (explicit.rs) agrees
   with rules X1-X8 of the specification on every character that X9 keeps, and gives class BN to the
   ones X9 removes. *)
From BidiVerif Require Import Base ModelText RefDs ModelResolve Spec Judge Stmts2.
From BidiVerif.Proofs Require Import ExplicitSpec.

Theorem explicit_agrees : explicit_agrees_statement.
Proof. exact explicit_agrees_main. Qed.

(* the hypotheses are satisfiable on a non-trivial input: "a RLO alef FSI U+10000 PDI PDF d PS" in
   UTF-8 (characters of 1, 3, 2, 3, 4, 3, 3, 1, 3 units), paragraph level 0: an override around a
   letter, around an isolate initiator (an FSI that C02 reports as LRI) and its PDI, a trailing B *)
Example explicit_agrees_hypotheses_satisfiable :
  let text := [97; 8238; 1488; 8296; 65536; 8297; 8236; 100; 8233]%N in
  let chars := view_of U8 text in
  let cls0 := map ucd16_class text in
  let lens := map snd chars in
  let oc := expand lens (reported_classes cls0) in
  (text_view U8 text chars /\ length cls0 = length chars /\
   (forall i, i + 1 < length cls0 -> nth i cls0 L <> B)) /\
  cls0 = [L; RLO; R; FSI; L; PDI; PDF; L; B] /\
  reported_classes cls0 = [L; RLO; R; LRI; L; PDI; PDF; L; B] /\
  lens = [1; 3; 2; 3; 4; 3; 3; 1; 3] /\
  explicit_compute U8 text 0 oc (repeat 0 (total lens)) oc =
    Ok ([0; 1; 1; 1; 1; 1; 1; 1; 1; 2; 2; 2; 2; 1; 1; 1; 0; 0; 0; 0; 0; 0; 0],
        [L; BN; BN; BN; R; R; R; R; R; L; L; L; L; R; R; R; BN; BN; BN; L; B; B; B],
        [(0, 4); (4, 9); (9, 13); (13, 19); (19, 23)]) /\
  explicit_levels cls0 0 =
    ([Some 0; None; Some 1; Some 1; Some 2; Some 1; None; Some 0; Some 0],
     [L; RLO; R; R; L; R; PDF; L; B]).
Proof.
  cbv zeta. split; [split; [|split] |].
  - unfold text_view. repeat apply conj; try (vm_compute; reflexivity).
    cbn [view_of map].
    repeat (apply Forall_cons; [vm_compute; split; [reflexivity | repeat constructor] |]).
    apply Forall_nil.
  - vm_compute. reflexivity.
  - intros i Hi. rewrite map_length in Hi. cbn [length] in Hi.
    do 8 (destruct i as [|i]; [vm_compute; discriminate|]). lia.
  - vm_compute. repeat split; reflexivity.
Qed.

Check explicit_agrees : explicit_agrees_statement.
Print Assumptions explicit_agrees.
