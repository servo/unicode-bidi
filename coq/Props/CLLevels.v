(* Props/CLLevels.v — the property theorem and a non-vacuity example.
   At character level (ghost encoding U32, one unit per
   character) reordered_levels and reordered_levels_per_char never panic on a line i..j-1 of whole
   characters and return the stored levels with the line's slice replaced by Spec.l1 (rule L1) of
   the line's classes and levels; everything outside the line is unchanged. *)
From BidiVerif Require Import Base ModelText ModelLine Stmts5.
From BidiVerif.Proofs Require Import CLLevels.

Theorem cl_reordered_levels : CL_reordered_levels.
Proof. exact cl_reordered_levels_main. Qed.

(* non-vacuity: 8 characters, line 2..7 holding an RLE (removed by X9: takes the preceding level), a tab (S)
   and trailing whitespace (both reset to the paragraph level); hypotheses hold, both functions return the same vector, L1 changed it inside the
   line only *)
Example cl_reordered_levels_example :
  let cps := [97; 32; 1488; 8235; 1489; 9; 32; 98]%N in
  let cls := [L; WS; R; RLE; R; SS; WS; L] in
  let lv := [2; 2; 3; 4; 3; 2; 3; 2] in
  let want := [2; 2; 3; 3; 3; 0; 0; 2] in
  length cls = length cps /\ length lv = length cps /\ 2 <= 7 /\ 7 <= length cps /\
  reordered_levels U32 false cps cls lv 0 (2, 7) = Ok want /\
  reordered_levels_per_char U32 false cps cls lv 0 (2, 7) = Ok want /\
  firstn 2 lv ++ Spec.l1 0 (sub cls 2 7) (sub lv 2 7) ++ skipn 7 lv = want.
Proof. vm_compute. repeat split; repeat constructor. Qed.

Check cl_reordered_levels : CL_reordered_levels.
Print Assumptions cl_reordered_levels.
