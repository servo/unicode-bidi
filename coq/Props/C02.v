(* Props/C02.v — the property theorem and a non-vacuity example.
   compute_initial_info (split at every B) reports the
   paragraphs of P1 with their unit ranges, the paragraph levels of P2/P3 (or the forced level), and
   the class vector in which exactly the FSIs that X5c resolves are rewritten to LRI/RLI. *)
From BidiVerif Require Import Base ModelText RefDs ModelResolve Stmts2.
From BidiVerif.Proofs Require Import InitialInfo.

Theorem C02_paragraphs_levels_fsi : C02_statement.
Proof. exact C02_proof. Qed.

(* non-vacuity: UTF-8 text  FSI SP LF | bet LRI FSI LRI b PDI alef PDI PDI 1
   paragraph 1: the FSI's first strong character (bet) comes after the separator -> it stays FSI,
                no strong character -> level 0;
   paragraph 2: starts with R -> level 1; the FSI sits inside an LRI, skips the nested LRI b PDI and
                finds alef -> reported as RLI (all 3 of its units) *)
Example C02_two_paragraphs_unresolved_and_nested_fsi :
  let text := [0x2068; 0x20; 0x0A; 0x5D1; 0x2066; 0x2068; 0x2066; 0x62; 0x2069; 0x5D0; 0x2069; 0x2069; 0x31]%N in
  let chars := view_of U8 text in
  text_view U8 text chars /\ fsi_proviso U8 ucd16_ds chars /\
  map (fun ch => ds_class ucd16_ds (fst ch)) chars
    = [FSI; WS; B; R; LRI; FSI; LRI; L; PDI; R; PDI; PDI; EN] /\
  exists ii,
    compute_initial_info U8 ucd16_ds text None true = Ok ii /\
    in_classes ii = [FSI; FSI; FSI; WS; B;
                     R; R; LRI; LRI; LRI; RLI; RLI; RLI; LRI; LRI; LRI; L; PDI; PDI; PDI; R; R;
                     PDI; PDI; PDI; PDI; PDI; PDI; EN] /\
    in_paras ii = [{| p_start := 0; p_end := 5; p_level := 0 |};
                   {| p_start := 5; p_end := 29; p_level := 1 |}] /\
    length (in_flags ii) = 2.
Proof.
  intros text chars.
  assert (Ec : chars = [(8296%N, 3); (32%N, 1); (10%N, 1); (1489%N, 2); (8294%N, 3); (8296%N, 3);
                        (8294%N, 3); (98%N, 1); (8297%N, 3); (1488%N, 2); (8297%N, 3); (8297%N, 3);
                        (49%N, 1)])
    by (vm_compute; reflexivity).
  split; [|split; [|split]].
  - unfold text_view. rewrite Ec.
    repeat split; try (vm_compute; reflexivity).
    repeat (apply Forall_cons; [vm_compute; split; [reflexivity | repeat constructor]|]).
    apply Forall_nil.
  - unfold fsi_proviso. rewrite Ec.
    repeat (apply Forall_cons;
            [vm_compute; first [intros _; reflexivity | intros X; discriminate X]|]).
    apply Forall_nil.
  - vm_compute. reflexivity.
  - eexists. split; [vm_compute; reflexivity|].
    repeat split; vm_compute; reflexivity.
Qed.

Check C02_paragraphs_levels_fsi : C02_statement.
Print Assumptions C02_paragraphs_levels_fsi.
