(* Props/Totality.v — character-level totality and bounds of the constructors, assembled from the
   stage theorems. *)
From BidiVerif Require Import Stmts4.
From BidiVerif.Props Require Import TotalSequences TotalWeak TotalNeutral TotalAssemble.

Theorem constructors_total_char : T_constructors_char.
Proof. exact (t_constructors_char_assembly t_sequences t_weak t_neutral t_levels). Qed.

Check constructors_total_char : T_constructors_char.
Print Assumptions constructors_total_char.
