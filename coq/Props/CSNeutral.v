(* Props/CSNeutral.v — the property theorem and a non-vacuity example.
   implicit::resolve_neutral (BD16 bracket pairs, N0, N1, N2;
   X9-removed characters kept inside the index ranges) computes on the live characters of an isolating
   run sequence exactly UAX #9's N0 over the BD16 pairs followed by N1/N2 (Spec.v). *)
From BidiVerif Require Import Base ModelText RefDs ModelResolve Spec StageRel Stmts4 Stmts6.
From BidiVerif.Proofs Require Import CSNeutral.

Theorem cs_neutral : CS_neutral.
Proof. exact cs_neutral_proof. Qed.

(* non-vacuity:  a ( SHY alef SHY ) grave SHY space bet  at level 0 (sos L, eos R): two runs, three
   removed BNs (one inside the pair, one before the closing bracket, one after the NSM), a pair that
   encloses only the opposite direction with L context, an original NSM (ON after W1) after the
   closing bracket, and a neutral between L and R *)
Example cs_neutral_example :
  let cps := [97; 40; 173; 1488; 173; 41; 768; 173; 32; 1489]%N in
  let sq := {| irs_runs := [(0, 3); (3, 10)]; irs_sos := L; irs_eos := R |} in
  let oc := map ucd16_class cps in
  let pc1 := [L; ON; BN; R; BN; ON; ON; BN; WS; R] in
  let lv := repeat 0 10 in
  length pc1 = length cps /\ length oc = length cps /\ length lv = length cps /\
  seq_wf (length cps) sq /\
  Forall (fun c => is_ni c = true \/ strong_dir c <> None) (at_ BN pc1 (live_idx oc sq)) /\
  transparent oc pc1 sq = true /\
  live_idx oc sq = [0; 1; 3; 5; 6; 8; 9] /\
  resolve_neutral U32 ucd16_ds cps sq lv oc pc1 = Ok [L; L; L; R; L; L; L; L; L; R] /\
  sq_neutral_spec ucd16_ds cps oc lv pc1 sq = [L; L; R; L; L; L; R].
Proof.
  intros cps sq oc pc1 lv.
  repeat split; try (vm_compute; reflexivity); try (vm_compute; lia).
  - vm_compute. discriminate.
  - vm_compute. repeat constructor.
  - vm_compute. left; reflexivity.
  - vm_compute. right; reflexivity.
  - vm_compute. repeat (apply Forall_cons; [(left; reflexivity) || (right; discriminate)|]). apply Forall_nil.
Qed.

Check cs_neutral : CS_neutral.
Print Assumptions cs_neutral.
