(* Props/C13Final.v — the property theorem and a non-vacuity example on two cases defined here.
   C13 ("isolates isolate") in final (judge) form: for two
   valid cases of the same encoding, data source and base direction whose texts are
   P ++ [I] ++ X1 ++ [Q] ++ S and P ++ [I] ++ X2 ++ [Q] ++ S (I an LRI/RLI that is pushed when reached,
   Q its PDI, contents B-free and isolate-balanced, each text one paragraph), the model's two
   observations agree outside the pair: the levels of the first pu units (prefix and initiator) and of
   the last su units (PDI and suffix) and the paragraph levels, for BidiInfo and for ParagraphBidiInfo.
   Assembled from C01 at character level, C02 in final form, length independence and C13 at the level
   of the specification (c13_full). *)
From BidiVerif Require Import Base ModelText RefDs ModelResolve Obs Judge Stmts2 Stmts5 Stmts7.
From BidiVerif.Proofs Require Import C09Final C13Final.
From BidiVerif.Props Require Import C01 Finals C13.

Theorem c13_final : C13_final.
Proof. exact (c13_final_from c01_char c02_final c13_full). Qed.

(* non-vacuity: two UTF-8 texts with multi-byte characters,
     alef SP ( RLI  a               PDI ) SP b       (9 characters, 14 units)
     alef SP ( RLI  bet LRI 1 PDI   PDI ) SP b       (12 characters, 22 units)
   prefix alef SP ( = 4 units, the initiator RLI = 3 units (pu = 7); the PDI = 3 units, the suffix
   ) SP b = 3 units (su = 6).  The bracket pair ( ... ) encloses the isolate.  Both cases are valid,
   they form an iso_pair (all hypotheses proved), and the judge holds; the level vectors are shown:
   they differ inside the pair only. *)
Definition c13_ex1 : tcase :=
  {| tc_enc := U8; tc_ds := ucd16_ds;
     tc_text := [0x5D0; 0x20; 0x28; 0x2067; 0x61; 0x2069; 0x29; 0x20; 0x62]%N;
     tc_dir := None; tc_lines := [] |}.
Definition c13_ex2 : tcase :=
  {| tc_enc := U8; tc_ds := ucd16_ds;
     tc_text := [0x5D0; 0x20; 0x28; 0x2067; 0x5D1; 0x2066; 0x31; 0x2069; 0x2069; 0x29; 0x20; 0x62]%N;
     tc_dir := None; tc_lines := [] |}.

Example c13_final_example :
  valid_case c13_ex1 /\ valid_case c13_ex2 /\ iso_pair c13_ex1 c13_ex2 7 6 /\
  map snd (case_chars c13_ex1) = [2; 1; 1; 3; 1; 3; 1; 1; 1] /\
  map snd (case_chars c13_ex2) = [2; 1; 1; 3; 2; 3; 1; 3; 3; 1; 1; 1] /\
  map (fun ch => ds_class ucd16_ds (fst ch)) (case_chars c13_ex1) = [R; WS; ON; RLI; L; PDI; ON; WS; L] /\
  map (fun ch => ds_class ucd16_ds (fst ch)) (case_chars c13_ex2)
    = [R; WS; ON; RLI; R; LRI; EN; PDI; PDI; ON; WS; L] /\
  C13_judge 7 6 (model_obs false c13_ex1) (model_obs false c13_ex2) = true /\
  to_bi (model_obs false c13_ex1)
    = Ok {| bi_classes := [R; R; WS; ON; RLI; RLI; RLI; L; PDI; PDI; PDI; ON; WS; L];
            bi_levels := [1; 1; 1; 1; 1; 1; 1; 4; 1; 1; 1; 1; 1; 2];
            bi_paras := [{| p_start := 0; p_end := 14; p_level := 1 |}] |} /\
  to_bi (model_obs false c13_ex2)
    = Ok {| bi_classes := [R; R; WS; ON; RLI; RLI; RLI; R; R; LRI; LRI; LRI; EN; PDI; PDI; PDI; PDI; PDI; PDI;
                           ON; WS; L];
            bi_levels := [1; 1; 1; 1; 1; 1; 1; 3; 3; 3; 3; 3; 4; 3; 3; 3; 1; 1; 1; 1; 1; 2];
            bi_paras := [{| p_start := 0; p_end := 22; p_level := 1 |}] |} /\
  okb (to_pi (model_obs false c13_ex1))
      (fun p => nat_list_eqb (pb_levels p) [1; 1; 1; 1; 1; 1; 1; 4; 1; 1; 1; 1; 1; 2] && (pb_level p =? 1)) = true /\
  okb (to_pi (model_obs false c13_ex2))
      (fun p => nat_list_eqb (pb_levels p) [1; 1; 1; 1; 1; 1; 1; 3; 3; 3; 3; 3; 4; 3; 3; 3; 1; 1; 1; 1; 1; 2]
                && (pb_level p =? 1)) = true.
Proof.
  assert (NoFSI1 : fsi_proviso U8 ucd16_ds (case_chars c13_ex1)).
  { apply fsi_proviso_no_fsi9. vm_compute. reflexivity. }
  assert (NoFSI2 : fsi_proviso U8 ucd16_ds (case_chars c13_ex2)).
  { apply fsi_proviso_no_fsi9. vm_compute. reflexivity. }
  split; [|split; [|split]].
  - unfold valid_case. split; [left; reflexivity|]. split; [exact I|].
    split; [exact NoFSI1|]. split; [left; reflexivity|]. apply Forall_nil.
  - unfold valid_case. split; [left; reflexivity|]. split; [exact I|].
    split; [exact NoFSI2|]. split; [left; reflexivity|]. apply Forall_nil.
  - (* the pair *)
    unfold iso_pair. split; [reflexivity|]. split; [reflexivity|]. split; [reflexivity|].
    exists [(0x5D0%N, 2); (0x20%N, 1); (0x28%N, 1)], [(0x29%N, 1); (0x20%N, 1); (0x62%N, 1)],
           [(0x61%N, 1)], [(0x5D1%N, 2); (0x2066%N, 3); (0x31%N, 1); (0x2069%N, 3)],
           (0x2067%N, 3), (0x2069%N, 3).
    split; [vm_compute; reflexivity|]. split; [vm_compute; reflexivity|].
    split; [vm_compute; reflexivity|]. split; [vm_compute; reflexivity|].
    cbv zeta. split; [vm_compute; reflexivity|].
    unfold c13_hyps.
    split; [right; vm_compute; reflexivity|].
    split; [vm_compute; reflexivity|]. split; [vm_compute; reflexivity|].
    split; [vm_compute; repeat constructor; discriminate|].
    split; [vm_compute; repeat constructor; discriminate|].
    split; [apply single_para_nob_f; vm_compute; reflexivity|].
    split; [apply single_para_nob_f; vm_compute; reflexivity|].
    split; [vm_compute; reflexivity|]. split; [vm_compute; reflexivity|].
    split; [vm_compute; reflexivity|]. split; [vm_compute; reflexivity|].
    split; [left; reflexivity|].
    unfold initiator_valid. vm_compute. repeat split; lia.
  - repeat split; vm_compute; reflexivity.
Qed.

Check c13_final : C13_final.
Print Assumptions c13_final.
