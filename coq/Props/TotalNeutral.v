(* Props/TotalNeutral.v — the property theorem and a non-vacuity example.
   implicit::resolve_neutral (with
   identify_bracket_pairs) at character level never panics on a well-formed isolating run sequence,
   keeps the vector length and leaves every position outside the sequence's runs untouched. *)
From BidiVerif Require Import Base ModelText RefDs ModelResolve Stmts4.
From BidiVerif.Proofs Require Import TotalNeutral.

Theorem t_neutral : T_neutral.
Proof. exact t_neutral_proof. Qed.

(* non-vacuity:  a ( SHY alef ) space bet  at level 1; the sequence has two runs (the removed BN
   at index 2 lies between them), a bracket pair spanning both runs, and a trailing neutral *)
Example t_neutral_example :
  let cps := [97; 40; 173; 1488; 41; 32; 1489]%N in
  let sq := {| irs_runs := [(0, 2); (3, 7)]; irs_sos := R; irs_eos := R |} in
  let pc := [L; ON; BN; R; ON; WS; R] in
  let lv := repeat 1 7 in
  length pc = length cps /\ length pc = length cps /\ length lv = length cps /\
  seq_wf (length cps) sq /\
  map ucd16_class cps = pc /\
  identify_bracket_pairs U32 ucd16_ds cps sq pc pc =
    Ok [{| bp_start := 1; bp_end := 4; bp_start_run := 0; bp_end_run := 1 |}] /\
  resolve_neutral U32 ucd16_ds cps sq lv pc pc = Ok [L; R; BN; R; R; R; R].
Proof.
  intros cps sq pc lv.
  repeat split; try (vm_compute; reflexivity); try (vm_compute; lia).
  - vm_compute. discriminate.
  - vm_compute. repeat constructor.
  - vm_compute. right; reflexivity.
  - vm_compute. right; reflexivity.
Qed.

Check t_neutral : T_neutral.
Print Assumptions t_neutral.
