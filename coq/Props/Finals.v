(* Props/Finals.v — the FINAL-FORM property theorems (Stmts5.v): for EVERY valid case, the judge
   (the boolean predicate that is also extracted and applied to the real crate's outputs) holds on
   the model's observation of that case.
   The `_from` forms have the statements LL_reorder_line2 / C10_statement (Stmts6.v) as hypotheses:
   length independence of reorder_line and paragraph independence of BidiInfo::new.  Both are
   theorems (Props/LLReorderLine.v, Props/C10.v), and each `_from` form is followed by the theorem
   without hypotheses.  A non-vacuity example on a case defined here closes the file. *)
From BidiVerif Require Import Base ModelText RefDs ModelResolve Obs Judge Stmts Stmts2 Stmts5 Stmts6.
From BidiVerif.Proofs Require Import Finals1 Finals2 Finals3 Finals4 Finals5 Finals6.
From BidiVerif.Props Require Import LLReorderLine C10.

(* reorder_visual on every line = rule L2; visual runs *)
Theorem c04_final : C04_final.
Proof. exact c04_final_proof. Qed.
Theorem c05_final : C05_final.
Proof. exact c05_final_proof. Qed.

(* reordered_levels / reordered_levels_per_char = rule L1 on the line's characters *)
Theorem c03_final : C03_final.
Proof. exact c03_final_proof. Qed.

(* base direction; summary queries *)
Theorem c16_final : C16_final.
Proof. exact c16_final_proof. Qed.
Theorem c17_final : C17_final.
Proof. exact c17_final_proof. Qed.

(* paragraphs, paragraph levels, reported classes *)
Theorem c02_final_from : C10_statement -> C02_final.
Proof. exact c02_final_from_proof. Qed.
Theorem c02_final : C02_final.
Proof. exact (c02_final_from C10_paragraph_independence). Qed.

(* vector shapes and bounds *)
Theorem c08_final : C08_final.
Proof. exact c08_final_proof. Qed.

(* reorder_line; nothing panics *)
Theorem c06_final : C06_final.
Proof. exact c06_final_proof. Qed.
Theorem c06_final_from : LL_reorder_line2 -> C06_final.
Proof. intros _. exact c06_final_proof. Qed.
Theorem c07_final_from : LL_reorder_line2 -> C10_statement -> C07_final.
Proof. intros _. exact c07_final_from_proof. Qed.
Theorem c07_final : C07_final.
Proof. exact (c07_final_from ll_reorder_line2 C10_paragraph_independence). Qed.

(* paragraph independence, agreement of the single-paragraph type *)
Theorem c10_final_from : C10_statement -> C10_final.
Proof. exact c10_final_from_proof. Qed.
Theorem c10_final : C10_final.
Proof. exact (c10_final_from C10_paragraph_independence). Qed.

(* non-vacuity: a UTF-16 case   alef U+10401 SP a SP LF | b SP bet gimel   (11 units, 10 characters,
   one surrogate pair, two paragraphs: levels 1 and 0) with three lines: units 0..4 (ends in a space
   that L1 resets from level 2 to the paragraph level 1), 4..7 (ends in the separator), 7..11 (the
   second paragraph).  [valid_case] is proved; every judge evaluates to true on the model's
   observation. *)
Definition finals_example : tcase :=
  {| tc_enc := U16; tc_ds := ucd16_ds;
     tc_text := [0x5D0; 0xD801; 0xDC01; 0x20; 0x61; 0x20; 0x0A; 0x62; 0x20; 0x5D1; 0x5D2]%N;
     tc_dir := None;
     tc_lines := [(0, 4); (4, 7); (7, 11)] |}.

Example finals_example_valid : valid_case finals_example.
Proof.
  unfold valid_case.
  assert (Ec : case_chars finals_example
               = [(1488%N, 1); (66561%N, 2); (32%N, 1); (97%N, 1); (32%N, 1); (10%N, 1);
                  (98%N, 1); (32%N, 1); (1489%N, 1); (1490%N, 1)]) by (vm_compute; reflexivity).
  rewrite Ec.
  split; [right; reflexivity|].
  split; [unfold valid_text, finals_example, tc_enc, tc_text, is_u16; repeat (constructor; try reflexivity)|].
  split.
  { unfold fsi_proviso.
    repeat (apply Forall_cons; [vm_compute; first [intros _; reflexivity | intros X; discriminate X]|]).
    apply Forall_nil. }
  split; [left; reflexivity|].
  unfold finals_example, tc_lines.
  repeat apply Forall_cons; try apply Forall_nil; unfold valid_line.
  - exists 0, 3. vm_compute. repeat split; repeat constructor.
  - exists 3, 6. vm_compute. repeat split; repeat constructor.
  - exists 6, 10. vm_compute. repeat split; repeat constructor.
Qed.

Example finals_example_judges :
  let o := model_obs false finals_example in
  to_bi o = Ok {| bi_classes := [R; L; L; WS; L; WS; B; L; WS; R; R];
                  bi_levels := [1; 2; 2; 2; 2; 1; 1; 0; 0; 1; 1];
                  bi_paras := [{| p_start := 0; p_end := 7; p_level := 1 |};
                               {| p_start := 7; p_end := 11; p_level := 0 |}] |} /\
  map lo_rl (to_bi_lines o) = [Ok [1; 2; 2; 1; 2; 1; 1; 0; 0; 1; 1];
                               Ok [1; 2; 2; 2; 2; 1; 1; 0; 0; 1; 1];
                               Ok [1; 2; 2; 2; 2; 1; 1; 0; 0; 1; 1]] /\
  map lo_ro (to_bi_lines o) = [Ok [0x20; 0xD801; 0xDC01; 0x5D0]%N; Ok [0x0A; 0x20; 0x61]%N;
                               Ok [0x62; 0x20; 0x5D2; 0x5D1]%N] /\
  C01_judge finals_example o = true /\ C02_judge finals_example o = true /\
  C03_judge finals_example o = true /\ C04_judge finals_example o = true /\
  C05_judge finals_example o = true /\ C06_judge finals_example o = true /\
  C07_judge finals_example o = true /\ C08_judge finals_example o = true /\
  C10_judge finals_example o = true /\ C11_judge finals_example o = true /\
  C16_judge finals_example o = true /\ C17_judge finals_example o = true.
Proof. vm_compute. repeat split. Qed.

Check c04_final : C04_final.
Check c05_final : C05_final.
Check c03_final : C03_final.
Check c16_final : C16_final.
Check c17_final : C17_final.
Check c02_final_from : C10_statement -> C02_final.
Check c02_final : C02_final.
Check c08_final : C08_final.
Check c06_final_from : LL_reorder_line2 -> C06_final.
Check c06_final : C06_final.
Check c07_final_from : LL_reorder_line2 -> C10_statement -> C07_final.
Check c07_final : C07_final.
Check c10_final_from : C10_statement -> C10_final.
Check c10_final : C10_final.
Print Assumptions c04_final.
Print Assumptions c05_final.
Print Assumptions c03_final.
Print Assumptions c16_final.
Print Assumptions c17_final.
Print Assumptions c02_final_from.
Print Assumptions c02_final.
Print Assumptions c08_final.
Print Assumptions c06_final_from.
Print Assumptions c06_final.
Print Assumptions c07_final_from.
Print Assumptions c07_final.
Print Assumptions c10_final_from.
Print Assumptions c10_final.
