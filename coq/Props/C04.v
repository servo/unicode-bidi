(* Props/C04.v — the property theorem and a non-vacuity example.
   reorder_visual is total on levels <= 126, returns a
   permutation of the indices, agrees with rule L2, and is the identity on all-even levels. *)
From BidiVerif Require Import Base ModelLine Stmts.
From BidiVerif.Proofs Require Import ReorderVisual.

Theorem C04_reorder_visual : C04_statement.
Proof. exact reorder_visual_correct. Qed.

(* non-vacuity: the documentation example, a case where the implementation runs passes below the
   lowest odd level, an all-even non-constant case, and the top level 126 *)
Example C04_instances :
  reorder_visual [0;0;0;1;1;1;2;2] = Ok [0;1;2;6;7;5;4;3] /\
  Spec.l2 [0;0;0;1;1;1;2;2] = [0;1;2;6;7;5;4;3] /\
  reorder_visual [0;2;2;3;4;2;0;6;5] = Ok [0;1;2;4;3;5;6;8;7] /\
  reorder_visual [0;2;2;4;2;0;6] = Ok [0;1;2;3;4;5;6] /\
  reorder_visual [126;126;125;2] = Ok [2;0;1;3].
Proof. vm_compute. repeat split. Qed.

Check C04_reorder_visual : C04_statement.
Print Assumptions C04_reorder_visual.
