(* Props/C09.v — the property theorem and a non-vacuity example on two cases defined here.
   C09 in final (judge) form: for a UTF-16 case and the UTF-8
   case of the same characters (lone surrogates read as U+FFFD) with corresponding lines, the model's
   two observations agree character for character: classes, levels, paragraphs, summary queries, and
   per line L1 levels, visual runs and the reordered line (after lossy decoding; exactly the UTF-16
   encoding of the UTF-8 result when the UTF-16 text is well formed), and the base direction.
   Both observations are expansions of ONE character-level (U32) observation. *)
From BidiVerif Require Import Base ModelText RefDs Obs Judge Stmts Stmts2 Stmts5.
From BidiVerif.Proofs Require Import C09Final.

Theorem c09_final : C09_final.
Proof. exact c09_final_proof. Qed.

(* non-vacuity: an ILL-FORMED UTF-16 text
     a <lone D800> SP <D83D DE00 = U+1F600> alef bet LF | bet SP 1
   11 units, 10 characters, two paragraphs (levels 0 and 1), two lines = the two paragraphs; the lone
   surrogate is read as U+FFFD.  Its UTF-8 twin has 18 units.  Both cases are valid, they are twins,
   the text is not unpaired-free, the paired judge holds; the reordered lines are shown in both
   encodings: line 1 contains an RTL run, so it is emitted from decoded characters and the lone
   surrogate comes out as U+FFFD, the surrogate pair D83D DE00 stays in order. *)
Definition c09_ex16 : tcase :=
  {| tc_enc := U16; tc_ds := ucd16_ds;
     tc_text := [0x61; 0xD800; 0x20; 0xD83D; 0xDE00; 0x5D0; 0x5D1; 0x0A; 0x5D1; 0x20; 0x31]%N;
     tc_dir := None; tc_lines := [(0, 8); (8, 11)] |}.
Definition c09_ex8 : tcase :=
  {| tc_enc := U8; tc_ds := ucd16_ds;
     tc_text := [0x61; 0xFFFD; 0x20; 0x1F600; 0x5D0; 0x5D1; 0x0A; 0x5D1; 0x20; 0x31]%N;
     tc_dir := None; tc_lines := [(0, 14); (14, 18)] |}.

Example c09_final_example :
  twin_cases c09_ex16 c09_ex8 /\ valid_case c09_ex16 /\ valid_case c09_ex8 /\
  map snd (case_chars c09_ex16) = [1; 1; 1; 2; 1; 1; 1; 1; 1; 1] /\
  map snd (case_chars c09_ex8) = [1; 3; 1; 4; 2; 2; 1; 2; 1; 1] /\
  unpaired_free c09_ex16 = false /\
  C09_judge c09_ex16 (model_obs false c09_ex16) c09_ex8 (model_obs false c09_ex8) = true /\
  map lo_ro (to_bi_lines (model_obs false c09_ex16))
    = [Ok [0x61; 0xFFFD; 0x20; 0xD83D; 0xDE00; 0x5D1; 0x5D0; 0x0A]%N; Ok [0x31; 0x20; 0x5D1]%N] /\
  map lo_ro (to_bi_lines (model_obs false c09_ex8))
    = [Ok [0x61; 0xFFFD; 0x20; 0x1F600; 0x5D1; 0x5D0; 0x0A]%N; Ok [0x31; 0x20; 0x5D1]%N].
Proof.
  assert (NoFSI16 : fsi_proviso U16 ucd16_ds (case_chars c09_ex16)).
  { apply fsi_proviso_no_fsi9. vm_compute. reflexivity. }
  assert (NoFSI8 : fsi_proviso U8 ucd16_ds (case_chars c09_ex8)).
  { apply fsi_proviso_no_fsi9. vm_compute. reflexivity. }
  split; [|split; [|split]].
  - (* twins *)
    unfold twin_cases. repeat (split; [reflexivity|]).
    exists [(0, 7); (7, 10)]. split; vm_compute; reflexivity.
  - (* the UTF-16 case is valid *)
    unfold valid_case. split; [right; reflexivity|].
    split; [cbn [c09_ex16 tc_enc tc_text valid_text]; unfold is_u16; repeat (constructor; try reflexivity)|].
    split; [exact NoFSI16|]. split; [left; reflexivity|].
    repeat apply Forall_cons; try apply Forall_nil.
    + exists 0, 7. repeat split; vm_compute; repeat constructor.
    + exists 7, 10. repeat split; vm_compute; repeat constructor.
  - (* the UTF-8 case is valid *)
    unfold valid_case. split; [left; reflexivity|]. split; [exact I|].
    split; [exact NoFSI8|]. split; [left; reflexivity|].
    repeat apply Forall_cons; try apply Forall_nil.
    + exists 0, 7. repeat split; vm_compute; repeat constructor.
    + exists 7, 10. repeat split; vm_compute; repeat constructor.
  - split; [vm_compute; reflexivity|]. split; [vm_compute; reflexivity|].
    split; [vm_compute; reflexivity|]. split; [vm_compute; reflexivity|].
    split; vm_compute; reflexivity.
Qed.

Check c09_final : C09_final.
Print Assumptions c09_final.
