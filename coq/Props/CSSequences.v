(* Props/CSSequences.v — the property theorem and a non-vacuity example.  The general path of
   prepare::isolating_run_sequences (a stack of pending sequences; a run that starts with PDI
   continues the sequence on top of the stack, a run that ends with an isolate initiator is left
   pending) yields, up to order and up to sequences without a character that X9 keeps, exactly the
   isolating run sequences of BD13 (matching PDI of BD9) with the sos/eos of X10.
   The clause "only the first run can start at a removed character" of StageRel.runs_bd7 is needed
   (without it the hypotheses allow a tiling in which a later run starts at a removed
   character, e.g. classes LRI L BN PDI with runs (0,1) (1,2) (2,4), and the implementation reads the
   class at the run start); the clause is true of the runs explicit_compute produces (CS_runs).
   CS_sequences_alt states the same with that fact as a separate hypothesis. *)
From BidiVerif Require Import Base ModelResolve Spec StageRel Stmts6.
From BidiVerif.Proofs Require Import CSSequences.

Theorem cs_sequences : CS_sequences.
Proof. exact cs_sequences_proof. Qed.

Theorem cs_sequences_alt : CS_sequences_alt.
Proof. exact cs_sequences_alt_proof. Qed.

(* non-vacuity: nested isolates with removed characters; the level-0 runs around the outer isolate
   and the level-1 runs around the inner one are joined *)
Example cs_sequences_alt_instance :
  let cls0 := [L; RLI; R; BN; LRI; L; PDI; BN; R; PDI; L] in
  let lv := [0; 0; 1; 1; 1; 2; 1; 1; 1; 0; 0] in
  let runs := [(0, 2); (2, 5); (5, 6); (6, 9); (9, 11)] in
  let oc := reported_classes cls0 in
  cs_sequences_hyps cls0 0 lv runs /\
  forallb (fun r => live oc (fst r)) (tl runs) = true /\
  isolating_run_sequences 0 oc lv runs true =
    Ok [ {| irs_runs := [(5, 6)]; irs_sos := L; irs_eos := L |};
         {| irs_runs := [(2, 5); (6, 9)]; irs_sos := R; irs_eos := R |};
         {| irs_runs := [(0, 2); (9, 11)]; irs_sos := L; irs_eos := L |} ] /\
  spec_seq3 cls0 (fst (explicit_levels cls0 0)) 0 =
    [([0; 1; 9; 10], L, L); ([2; 4; 6; 8], R, R); ([5], L, L)].
Proof.
  cbv zeta. unfold cs_sequences_hyps. cbv zeta.
  split; [|split; [|split]]; try (vm_compute; reflexivity).
  split; [lia|]. split.
  { intros i Hi. cbn [length] in Hi. do 10 (destruct i as [|i]; [discriminate|]). lia. }
  split; [reflexivity|]. split; [cbn; lia|]. split; [cbn; lia|]. split; [|vm_compute; reflexivity].
  cbn [length]. intros i Hi Hl.
  do 11 (destruct i as [|i]; [first [reflexivity | discriminate Hl]|]). lia.
Qed.

Check cs_sequences : CS_sequences.
Check cs_sequences_alt : CS_sequences_alt.
Print Assumptions cs_sequences.
Print Assumptions cs_sequences_alt.
