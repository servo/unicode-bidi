(* Props/TotalWeak.v — the property theorem and a non-vacuity example.
   Totality, length preservation and frame property of
   implicit::resolve_weak at character level (ghost encoding U32). *)
From BidiVerif Require Import Base ModelText ModelResolve Stmts4.
From BidiVerif.Proofs Require Import TotalWeak.

Theorem t_weak : T_weak.
Proof. exact t_weak_main. Qed.

(* the hypotheses are satisfiable: "1+2<alef><LRI>$<shy>3,4<acute><PDI>%", the two-run sequence
   around the isolate and the one-run sequence inside it; W1-W7 all fire, the frame is untouched *)
Example t_weak_example :
  let cps := [49; 43; 50; 1575; 8294; 36; 173; 51; 44; 52; 769; 8297; 37]%N in
  let pc := [EN; ES; EN; AL; LRI; ET; BN; EN; CS; EN; NSM; PDI; ET] in
  let outer := {| irs_runs := [(0, 5); (11, 13)]; irs_sos := L; irs_eos := R |} in
  let inner := {| irs_runs := [(5, 11)]; irs_sos := R; irs_eos := L |} in
  length pc = length cps /\ seq_wf (length cps) outer /\ seq_wf (length cps) inner /\
  resolve_weak U32 cps outer pc = Ok [L; L; L; R; LRI; ET; BN; EN; CS; EN; NSM; PDI; ON] /\
  resolve_weak U32 cps inner pc = Ok [EN; ES; EN; AL; LRI; EN; BN; EN; EN; EN; EN; PDI; ET].
Proof.
  vm_compute.
  repeat match goal with
         | |- _ /\ _ => split
         | |- Forall _ _ => constructor
         | |- _ <= _ => repeat constructor
         | |- _ -> False => discriminate
         | |- _ \/ _ => (left; reflexivity) || (right; reflexivity)
         | |- _ => reflexivity || exact I
         end.
Qed.

Check t_weak : T_weak.
Print Assumptions t_weak.
