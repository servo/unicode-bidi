(* Props/LIWeak.v — the property theorem and a non-vacuity example.
   Length independence of implicit::resolve_weak: the weak
   rules W1-W7 run on the code units of a text are the expansion of the same rules run on its
   characters (ghost encoding U32). *)
From BidiVerif Require Import Base ModelText ModelResolve Judge Stmts Stmts2 Stmts3.
From BidiVerif.Proofs Require Import LIWeak.

Theorem li_weak : LI_weak.
Proof. exact li_weak_proved. Qed.

(* UTF-8: euro sign (3 units, ET), '1', e-acute (2 units, taken as CS), '2', U+1F600 (4 units, NSM),
   a 2-unit BN, alef (2 units, AL), '3', 'A', '4', '+' (ES), U+066A (2 units, ET); two level runs in one
   sequence, sos = R, eos = L.  W1 (NSM), W2 (EN after AL), W3, W4 (CS between EN, mid-character
   units copy the first), W5 (ET before EN), W6 (ES, ET to ON) and W7 (EN after L) all fire.
   UTF-16: the same classes over a text with surrogate pairs and a lone surrogate. *)
Example li_weak_example :
  let t8 := [8364; 49; 233; 50; 128512; 173; 1488; 51; 65; 52; 43; 1642]%N in
  let t16 := [8364; 49; 55357; 56832; 50; 55297; 56321; 55296; 1488; 51; 65; 52; 55357; 56833; 1642]%N in
  let pc := [ET; EN; CS; EN; NSM; BN; AL; EN; L; EN; ES; ET] in
  let sq := {| irs_runs := [(0, 6); (6, 12)]; irs_sos := R; irs_eos := L |} in
  let out' := [EN; EN; EN; EN; EN; BN; R; AN; L; L; ON; ON] in
  let lens8 := map snd (view_of U8 t8) in
  let lens16 := map snd (view_of U16 t16) in
  (valid_text U8 t8 /\ length pc = length (view_of U8 t8) /\ seq_in (length (view_of U8 t8)) sq /\
   lens8 = [3; 1; 2; 1; 4; 2; 2; 1; 1; 1; 1; 2] /\
   useq lens8 sq = {| irs_runs := [(0, 13); (13, 21)]; irs_sos := R; irs_eos := L |} /\
   resolve_weak U32 (map fst (view_of U8 t8)) sq pc = Ok out' /\
   resolve_weak U8 t8 (useq lens8 sq) (expand lens8 pc) = Ok (expand lens8 out')) /\
  (valid_text U16 t16 /\ length pc = length (view_of U16 t16) /\ seq_in (length (view_of U16 t16)) sq /\
   lens16 = [1; 1; 2; 1; 2; 1; 1; 1; 1; 1; 2; 1] /\
   useq lens16 sq = {| irs_runs := [(0, 8); (8, 15)]; irs_sos := R; irs_eos := L |} /\
   resolve_weak U32 (map fst (view_of U16 t16)) sq pc = Ok out' /\
   resolve_weak U16 t16 (useq lens16 sq) (expand lens16 pc) = Ok (expand lens16 out') /\
   expand lens16 out' = [EN; EN; EN; EN; EN; EN; EN; BN; R; AN; L; L; ON; ON; ON]).
Proof.
  cbv zeta. repeat split;
    match goal with
    | |- valid_text _ _ => unfold valid_text, is_u16; repeat (constructor; try reflexivity)
    | |- seq_in _ _ => vm_compute; repeat constructor
    | |- _ = _ => vm_compute; reflexivity
    end.
Qed.

Check li_weak : LI_weak.
Print Assumptions li_weak.
