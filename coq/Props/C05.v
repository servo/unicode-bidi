(* Props/C05.v — the property theorem and a non-vacuity example.
   visual_runs_for_line / deprecated::visual_runs return the
   maximal level runs of the line, tiling it, in the visual order of rule L2. *)
From BidiVerif Require Import Base ModelLine Stmts.
From BidiVerif.Proofs Require Import VisualRuns.

Theorem C05_visual_runs : C05_statement.
Proof. exact C05_proved. Qed.

(* non-vacuity: a line in the middle of a paragraph, nested levels *)
Example C05_example :
  visual_runs_for_line false [0;1;1;2;0;3;3;1] (1, 7)
  = Ok ([0;1;1;2;0;3;3;1], [(3,4); (1,3); (4,5); (5,7)]).
Proof. vm_compute. reflexivity. Qed.

Check C05_visual_runs : C05_statement.
Print Assumptions C05_visual_runs.
