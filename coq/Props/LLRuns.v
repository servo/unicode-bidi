(* Props/LLRuns.v — the property theorem and a non-vacuity example.
   Length independence of visual_runs_for_line: on the
   per-unit expansion of a per-character level vector, with the line mapped to its unit range, the
   routine returns the character-level visual runs mapped to unit ranges. *)
From BidiVerif Require Import Base ModelText ModelLine Judge Stmts Stmts2 Stmts3 Stmts5.
From BidiVerif.Proofs Require Import LLRuns.

Theorem ll_visual_runs : LL_visual_runs.
Proof. exact ll_visual_runs_main. Qed.

(* non-vacuity: UTF-16 text  a U+10401 alef U+1F600 1 2 U+10402 bet b  (9 characters, 12 units; three
   surrogate pairs), levels 0 0 1 1 2 2 2 1 0, line = characters 1..9 (units 1..12).  Five level
   runs; rule L2 reverses the level-2 run inside the level>=1 stretch, so the visual order of the
   runs is (1,2) (7,8) (4,7) (2,4) (8,9); the unit-level result is the same list through [urun]. *)
Example ll_visual_runs_example :
  let text := [0x61; 0xD801; 0xDC01; 0x5D0; 0xD83D; 0xDE00; 0x31; 0x32; 0xD801; 0xDC02; 0x5D1; 0x62]%N in
  let chars := view_of U16 text in
  let lens := map snd chars in
  let k := length chars in
  let lv := [0; 0; 1; 1; 2; 2; 2; 1; 0] in
  let runs' := [(1, 2); (7, 8); (4, 7); (2, 4); (8, 9)] in
  valid_text U16 text /\
  lens = [1; 2; 1; 2; 1; 1; 2; 1; 1] /\
  length lv = k /\ 1 < 9 /\ 9 <= k /\
  visual_runs_for_line false lv (1, 9) = Ok (lv, runs') /\
  (ustart lens 1, ustart lens 9) = (1, 12) /\
  expand lens lv = [0; 0; 0; 1; 1; 1; 2; 2; 2; 2; 1; 0] /\
  map (urun lens) runs' = [(1, 3); (10, 11); (6, 10); (3, 6); (11, 12)] /\
  visual_runs_for_line false (expand lens lv) (ustart lens 1, ustart lens 9)
    = Ok (expand lens lv, map (urun lens) runs').
Proof.
  cbv zeta. repeat split;
    match goal with
    | |- valid_text _ _ => unfold valid_text, is_u16; repeat (constructor; try reflexivity)
    | |- _ <= _ => vm_compute; repeat constructor
    | |- _ < _ => vm_compute; repeat constructor
    | |- _ = _ => vm_compute; reflexivity
    end.
Qed.

Check ll_visual_runs : LL_visual_runs.
Print Assumptions ll_visual_runs.
