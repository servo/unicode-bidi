(* Props/TotalSequences.v — the property theorem and a non-vacuity example.
   prepare::isolating_run_sequences (fast path and
   BD13 general path) is total on runs that tile [0,k): no panic, every sequence is well formed
   (non-empty, runs inside [0,k), ascending, sos/eos in {L,R}) and the runs of all sequences are a
   permutation of the input runs. *)
From BidiVerif Require Import Base ModelResolve Stmts2 Stmts4.
From BidiVerif.Proofs Require Import TotalSequences.

Theorem t_sequences : T_sequences.
Proof. exact sequences_total_proved. Qed.

(* non-vacuity: the hypotheses hold on a paragraph with an isolate (runs tile [0,5)); the general
   path joins the two level-0 runs around the isolate, the fast path keeps one sequence per run *)
Example t_sequences_instance :
  let cls := [L; RLI; R; PDI; L] in
  let lv := [0; 0; 1; 0; 0] in
  let runs := [(0, 2); (2, 3); (3, 5)] in
  length cls = 5 /\ length lv = 5 /\ 0 < 5 /\ tile_from 0 5 runs /\
  isolating_run_sequences 0 cls lv runs true =
    Ok [ {| irs_runs := [(2, 3)]; irs_sos := R; irs_eos := R |};
         {| irs_runs := [(0, 2); (3, 5)]; irs_sos := L; irs_eos := L |} ] /\
  isolating_run_sequences 0 cls lv runs false =
    Ok [ {| irs_runs := [(0, 2)]; irs_sos := L; irs_eos := R |};
         {| irs_runs := [(2, 3)]; irs_sos := R; irs_eos := R |};
         {| irs_runs := [(3, 5)]; irs_sos := R; irs_eos := L |} ].
Proof. vm_compute. repeat split; auto. Qed.

Check t_sequences : T_sequences.
Print Assumptions t_sequences.
