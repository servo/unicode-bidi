(* Props/C19.v — the statement C19_statement, its proof from the lemmas of LevelOps, and an example.
   Level keeps its numeric invariants under every operation. *)
From BidiVerif Require Import Base ModelText.
From BidiVerif.Proofs Require Import LevelOps.

Definition C19_statement : Prop :=
  (* construction accepts exactly 0..=126 (0..=125 explicit) *)
  (forall n, level_new n = if n <=? 126 then Some n else None) /\
  (forall n, level_new_explicit n = if n <=? 125 then Some n else None) /\
  (* raise / raise_explicit / lower succeed exactly when the exact result stays in range; on failure
     the model returns None = "self untouched"; u8 wrap-around (l + a > 255) is just another failure *)
  (forall l a, level_raise l a = if l + a <=? 126 then Some (l + a) else None) /\
  (forall l a, level_raise_explicit l a = if l + a <=? 125 then Some (l + a) else None) /\
  (forall l a, level_lower l a = if a <=? l then Some (l - a) else None) /\
  (* next LTR / next RTL: the least greater even / odd level, failing beyond 125 *)
  (forall l r, level_next_ltr l = Some r <->
               (l < r /\ r mod 2 = 0 /\ r <= 125 /\ forall m, l < m -> m mod 2 = 0 -> r <= m)) /\
  (forall l r, level_next_rtl l = Some r <->
               (l < r /\ r mod 2 = 1 /\ r <= 125 /\ forall m, l < m -> m mod 2 = 1 -> r <= m)) /\
  (* lowest odd level >= l; fails only for 126 *)
  (forall l r, l <= 126 -> (level_lowest_ge_rtl l = Some r <->
               (l <= r /\ r mod 2 = 1 /\ r <= 126 /\ forall m, l <= m -> m mod 2 = 1 -> r <= m))) /\
  (forall l, l <= 126 -> (level_lowest_ge_rtl l = None <-> l = 126)) /\
  (* parity queries, class of a level, has_rtl on a slice *)
  (forall l, is_ltr l = Nat.even l) /\ (forall l, is_rtl l = Nat.odd l) /\
  (forall l, level_class l = if Nat.odd l then R else L) /\
  (forall ls, levels_has_rtl ls = true <-> exists l, In l ls /\ Nat.odd l = true).

Theorem C19_level_invariants : C19_statement.
Proof.
  unfold C19_statement.
  split; [exact new_spec|]. split; [exact new_explicit_spec|]. split; [exact raise_spec|].
  split; [exact raise_explicit_spec|]. split; [exact lower_spec|]. split; [exact next_ltr_spec|].
  split; [exact next_rtl_spec|]. split; [exact lowest_ge_rtl_spec|]. split; [exact lowest_ge_rtl_fails_iff|].
  split; [exact is_ltr_even|]. split; [exact is_rtl_odd|]. split; [exact level_class_spec|].
  exact has_rtl_spec.
Qed.

(* non-vacuity: the interesting boundary cases are instances *)
Example C19_boundaries :
  level_raise 126 1 = None /\ level_raise 100 200 = None /\ level_raise 124 2 = Some 126 /\
  level_raise_explicit 124 2 = None /\ level_lower 3 4 = None /\ level_next_ltr 124 = None /\
  level_next_rtl 124 = Some 125 /\ level_next_rtl 125 = None /\ level_lowest_ge_rtl 126 = None /\
  level_lowest_ge_rtl 124 = Some 125.
Proof. vm_compute. repeat split. Qed.

Check C19_level_invariants : C19_statement.
Print Assumptions C19_level_invariants.
