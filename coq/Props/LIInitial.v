(* Props/LIInitial.v — the property theorem and a non-vacuity example.
   LENGTH INDEPENDENCE of compute_initial_info: the scan of
   a text in any encoding (classes, paragraph ranges, levels, flags) is the per-code-unit expansion
   of the scan of its character list in the ghost encoding U32 (one unit per character). *)
From BidiVerif Require Import Base ModelText RefDs ModelResolve Stmts Stmts2 Stmts3.
From BidiVerif.Proofs Require Import LIInitial.

Theorem li_initial : LI_initial.
Proof. exact li_initial_main. Qed.

(* non-vacuity: UTF-16 units  FSI U+10000(surrogate pair, class L) LF | alef LRI FSI bet PDI lone-high-surrogate
   8 characters in 10 units; paragraph 1: the FSI (1 unit) is resolved to LRI by the 2-unit L;
   paragraph 2 (level 1): the nested FSI is resolved to RLI; the hypotheses of the statement hold and
   the unit-level result is the expansion of the character-level one. *)
Example li_initial_utf16_two_paragraphs :
  let e := U16 in
  let text := [0x2068; 0xD800; 0xDC00; 0x0A; 0x5D0; 0x2066; 0x2068; 0x5D1; 0x2069; 0xD800]%N in
  let chars := view_of e text in
  let cps := map fst chars in
  let lens := map snd chars in
  valid_text e text /\ fsi_proviso e ucd16_ds chars /\
  lens = [1; 2; 1; 1; 1; 1; 1; 1; 1] /\
  exists ii',
    compute_initial_info U32 ucd16_ds cps None true = Ok ii' /\
    in_classes ii' = [LRI; L; B; R; LRI; RLI; R; PDI; ON] /\
    in_paras ii' = [{| p_start := 0; p_end := 3; p_level := 0 |};
                    {| p_start := 3; p_end := 9; p_level := 1 |}] /\
    compute_initial_info e ucd16_ds text None true =
      Ok {| in_classes := [LRI; L; L; B; R; LRI; RLI; R; PDI; ON]; in_level := 1;
            in_pure := false; in_iso := true;
            in_paras := [{| p_start := 0; p_end := 4; p_level := 0 |};
                         {| p_start := 4; p_end := 10; p_level := 1 |}];
            in_flags := in_flags ii' |}.
Proof.
  intros e text chars cps lens.
  assert (Ec : chars = [(8296%N, 1); (65536%N, 2); (10%N, 1); (1488%N, 1); (8294%N, 1); (8296%N, 1);
                        (1489%N, 1); (8297%N, 1); (65533%N, 1)])
    by (vm_compute; reflexivity).
  split; [|split; [|split]].
  - unfold valid_text, e, text, is_u16.
    repeat (apply Forall_cons; [vm_compute; reflexivity|]). apply Forall_nil.
  - unfold fsi_proviso. rewrite Ec.
    repeat (apply Forall_cons;
            [vm_compute; first [intros _; reflexivity | intros X; discriminate X]|]).
    apply Forall_nil.
  - vm_compute. reflexivity.
  - eexists. split; [vm_compute; reflexivity|].
    repeat split; vm_compute; reflexivity.
Qed.

Check li_initial : LI_initial.
Print Assumptions li_initial.
