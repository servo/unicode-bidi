(* Props/CSWeak.v — the property theorem, a non-vacuity example, and a counterexample showing that a
   hypothesis of the statement is needed.  W1-W7: the fused single pass of implicit::resolve_weak with
   BN skipping computes, on the live characters of an isolating run sequence, the seven passes of
   the specification, and leaves the removed positions transparent.

   [CS_weak] (Stmts6.v) has the hypothesis that the LIVE positions hold a working class that X9 does not
   remove.  [CS_weak_original] below is the statement without that hypothesis; it is false
   ([cs_weak_original_refuted]):
   [bn_exact] only says "BN exactly at the removed positions", so a live position could carry
   LRE/RLE/LRO/RLO/PDF as working class, which the model's W4 look-ahead (find not_removed_by_x9) skips
   and the specification does not. *)
From BidiVerif Require Import Base ModelText ModelResolve StageRel Stmts3 Stmts4 Stmts6.
From BidiVerif.Proofs Require Import CSWeak.

Theorem cs_weak : CS_weak.
Proof. exact cs_weak_proof. Qed.

(* Two level runs in one sequence, sos = R, eos = L; removed characters at 1, 5, 9, 15, 18.
   W1 (NSM after EN), W2 (EN after AL), W3, W4 (CS between ENs across a removed LRE; ES between ENs
   across a removed PDF), W5 (ET BN ET before EN: the BN becomes EN; ET RLE ET after L: all L by W7),
   W6 (ES before a BN: both ON) and W7 all fire; the removed positions end up EN (1), BN (5, 18),
   ON (9) and L (15). *)
Example cs_weak_example :
  let cps := repeat 65%N 21 in
  let oc := [ET; BN; ET; EN; CS; LRE; EN; NSM; ES; BN; ET; AL; EN; L; ET; RLE; ET; EN; PDF; ES; EN] in
  let pc := [ET; BN; ET; EN; CS; BN; EN; NSM; ES; BN; ET; AL; EN; L; ET; BN; ET; EN; BN; ES; EN] in
  let sq := {| irs_runs := [(0, 9); (9, 21)]; irs_sos := R; irs_eos := L |} in
  let out := [EN; EN; EN; EN; EN; BN; EN; EN; ON; ON; ON; R; AN; L; L; L; L; L; BN; L; L] in
  length pc = length cps /\ length oc = length cps /\ seq_wf (length cps) sq /\
  bn_exact oc pc sq = true /\
  Forall (fun c => not_removed_by_x9 c = true) (at_ BN pc (live_idx oc sq)) /\
  resolve_weak U32 cps sq pc = Ok out /\
  live_idx oc sq = [0; 2; 3; 4; 6; 7; 8; 10; 11; 12; 13; 14; 16; 17; 19; 20] /\
  at_ BN out (live_idx oc sq) = [EN; EN; EN; EN; EN; EN; ON; ON; R; AN; L; L; L; L; L; L] /\
  sq_weak_spec oc pc sq = [EN; EN; EN; EN; EN; EN; ON; ON; R; AN; L; L; L; L; L; L] /\
  transparent oc out sq = true.
Proof.
  cbv zeta. repeat split;
    match goal with
    | |- _ <> _ => discriminate
    | |- seq_in _ _ => repeat constructor; cbn; lia
    | |- runs_ascending _ _ => cbn; lia
    | |- _ <= _ => cbn; lia
    | |- _ < _ => cbn; lia
    | |- True => exact I
    | |- _ \/ _ => (left; reflexivity) || (right; reflexivity)
    | |- Forall _ _ => vm_compute; repeat constructor
    | |- _ = _ => vm_compute; reflexivity
    end.
Qed.

Definition CS_weak_original : Prop :=
  forall cps oc sq pc out,
    length pc = length cps -> length oc = length cps -> seq_wf (length cps) sq ->
    bn_exact oc pc sq = true ->
    resolve_weak U32 cps sq pc = Ok out ->
    at_ BN out (live_idx oc sq) = sq_weak_spec oc pc sq /\
    transparent oc out sq = true.

Example cs_weak_original_refuted : ~ CS_weak_original.
Proof.
  intros H.
  set (sq := {| irs_runs := [(0, 4)]; irs_sos := L; irs_eos := L |}).
  assert (Hwf : seq_wf 4 sq).
  { split; [discriminate|]. split; [repeat constructor; cbn; lia|]. split; [cbn; lia|].
    split; left; reflexivity. }
  assert (Hbn : bn_exact [EN; ES; L; EN] [EN; ES; LRE; EN] sq = true) by reflexivity.
  assert (Hr : resolve_weak U32 [48; 43; 65; 48]%N sq [EN; ES; LRE; EN] = Ok [L; L; LRE; L])
    by (vm_compute; reflexivity).
  destruct (H [48; 43; 65; 48]%N [EN; ES; L; EN] sq [EN; ES; LRE; EN] [L; L; LRE; L]
              eq_refl eq_refl Hwf Hbn Hr) as [E _].
  vm_compute in E. discriminate.
Qed.

Check cs_weak : CS_weak.
Print Assumptions cs_weak.
