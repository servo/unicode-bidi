(* Props/CSSequencesFast.v — the property theorem and a non-vacuity example.
   A paragraph without isolate initiators: the
   fast path of prepare::isolating_run_sequences (every level run is its own sequence) yields exactly
   the isolating run sequences of BD13 (= the level runs of BD7) with the sos/eos of X10; runs
   without a character that X9 keeps are dropped on both sides. *)
From BidiVerif Require Import Base ModelResolve Spec StageRel Stmts6.
From BidiVerif.Proofs Require CSSequences.

Theorem cs_sequences_fast : CS_sequences_fast.
Proof. exact CSSequences.cs_sequences_fast_proof. Qed.

(* non-vacuity: an embedding with removed characters inside and at the borders of the runs *)
Example cs_sequences_fast_instance :
  let cls0 := [BN; L; RLE; R; BN; EN; PDF; L; B] in
  let lv := [0; 0; 1; 1; 1; 1; 1; 0; 0] in
  let runs := [(0, 3); (3, 7); (7, 9)] in
  let oc := reported_classes cls0 in
  cs_sequences_hyps cls0 0 lv runs /\
  forallb (fun c => negb (is_isolate_init c)) oc = true /\
  isolating_run_sequences 0 oc lv runs false =
    Ok [ {| irs_runs := [(0, 3)]; irs_sos := L; irs_eos := R |};
         {| irs_runs := [(3, 7)]; irs_sos := R; irs_eos := R |};
         {| irs_runs := [(7, 9)]; irs_sos := R; irs_eos := L |} ] /\
  spec_seq3 cls0 (fst (explicit_levels cls0 0)) 0 = [([1], L, R); ([3; 5], R, R); ([7; 8], R, L)].
Proof.
  cbv zeta. unfold cs_sequences_hyps. cbv zeta.
  split; [|split; [|split]]; try (vm_compute; reflexivity).
  split; [lia|]. split.
  { intros i Hi. cbn [length] in Hi. do 8 (destruct i as [|i]; [discriminate|]). lia. }
  split; [reflexivity|]. split; [cbn; lia|]. split; [cbn; lia|]. split; [|vm_compute; reflexivity].
  cbn [length]. intros i Hi Hl.
  do 9 (destruct i as [|i]; [first [reflexivity | discriminate Hl]|]). lia.
Qed.

Check cs_sequences_fast : CS_sequences_fast.
Print Assumptions cs_sequences_fast.
