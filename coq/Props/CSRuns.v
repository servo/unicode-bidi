(* Props/CSRuns.v — the property theorem and a non-vacuity example.
   BD7 at character level (U32): the level runs found by
   explicit_compute on one paragraph, with the X9-removed positions dropped (and empty results dropped),
   are Spec.level_runs of the remaining characters; every live position of a run has the level stored at
   the run's first position.  Third conjunct of runs_bd7: only the first run can start at a removed character. *)
From BidiVerif Require Import Base ModelText ModelResolve Spec StageRel Stmts6.
From BidiVerif.Proofs Require Import CSRuns.

Theorem cs_runs : CS_runs.
Proof. exact cs_runs_pinned. Qed.

(* non-vacuity: 12 characters BN L RLE R PDF BN L RLI R PDI LRE B at paragraph level 0; the hypotheses hold;
   the model finds the runs 0..3, 3..6, 6..8, 8..9, 9..12 (the first starts at a removed character, the
   RLE at 2 carries level 1 inside the level-0 run 0..3, the trailing LRE level 2 inside 9..12); their live
   positions are the specification's level runs [1] [3] [6;7] [8] [9;11] *)
Example cs_runs_example :
  let cls0 := [BN; L; RLE; R; PDF; BN; L; RLI; R; PDI; LRE; B] in
  let cps := [1; 2; 3; 4; 5; 6; 7; 8; 9; 10; 11; 12]%N in
  let oc := reported_classes cls0 in
  let lv := [0; 0; 1; 1; 0; 0; 0; 0; 1; 0; 2; 0] in
  let runs := [(0, 3); (3, 6); (6, 8); (8, 9); (9, 12)] in
  length cls0 = length cps /\ 0 <= 1 /\ single_para cls0 /\
  explicit_compute U32 cps 0 oc (repeat 0 (length cps)) oc
    = Ok (lv, [BN; L; BN; R; BN; BN; L; RLI; R; PDI; BN; B], runs) /\
  runs_live oc runs = [[1]; [3]; [6; 7]; [8]; [9; 11]] /\
  level_runs (fst (explicit_levels cls0 0)) (remaining cls0) = [[1]; [3]; [6; 7]; [8]; [9; 11]] /\
  runs_bd7 cls0 (fst (explicit_levels cls0 0)) oc lv runs = true /\
  runs_bd7' cls0 (fst (explicit_levels cls0 0)) oc lv runs = true.
Proof.
  cbv zeta. split; [reflexivity|]. split; [repeat constructor|]. split.
  { intros i Hi. cbn [length] in Hi.
    do 11 (destruct i as [|i]; [cbn; discriminate|]). exfalso. lia. }
  repeat split; vm_compute; reflexivity.
Qed.

Check cs_runs : CS_runs.
Print Assumptions cs_runs.
