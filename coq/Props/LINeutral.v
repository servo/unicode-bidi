(* Props/LINeutral.v — the property theorem and a non-vacuity example.
   LENGTH INDEPENDENCE of implicit::resolve_neutral
   (identify_bracket_pairs, N0, N1/N2): the stage run on a text in any encoding is the per-code-unit
   expansion of the stage run on its character list in the ghost encoding U32. *)
From BidiVerif Require Import Base ModelText RefDs ModelResolve Judge Stmts2 Stmts3.
From BidiVerif.Proofs Require Import LINeutral.

Theorem li_neutral : LI_neutral.
Proof. exact li_neutral_main. Qed.

(* the hypotheses are satisfiable on a non-trivial input: "alef ZWSP U+3008 a U+3009 U+0300 SP bet"
   in UTF-8 (characters of 2, 3, 3, 1, 3, 2, 1, 2 units), embedding level 1, a sequence of two level
   runs [0,3) [3,8) (the bracket pair spans both): the pair encloses only an L, so N0 gives both
   brackets the preceding strong class R, the BN before the opening bracket and the (original) NSM
   after the closing bracket follow, and N1 resolves the space between R and R; the same input as
   UTF-16 with U+10000 (two units) in place of "a" *)
Example li_neutral_hypotheses_satisfiable :
  let text := [1488; 8203; 12296; 97; 12297; 768; 32; 1489]%N in
  let chars := view_of U8 text in
  let cps := map fst chars in
  let lens := map snd chars in
  let sq := {| irs_runs := [(0, 3); (3, 8)]; irs_sos := R; irs_eos := R |} in
  let lv := repeat 1 8 in
  let oc := [R; BN; ON; L; ON; NSM; WS; R] in
  let pc := [R; BN; ON; L; ON; ON; WS; R] in
  let text16 := [1488; 8203; 12296; 55296; 56320; 12297; 768; 32; 1489]%N in
  let lens16 := map snd (view_of U16 text16) in
  let cps16 := map fst (view_of U16 text16) in
  (valid_text U8 text /\ length pc = length chars /\ length oc = length chars /\
   length lv = length chars /\ seq_in (length chars) sq) /\
  lens = [2; 3; 3; 1; 3; 2; 1; 2] /\
  oc = map ucd16_class text /\
  resolve_neutral U32 ucd16_ds cps sq lv oc pc = Ok [R; R; R; L; R; R; R; R] /\
  identify_bracket_pairs U8 ucd16_ds text (useq lens sq) (expand lens oc) (expand lens pc)
    = Ok [{| bp_start := 5; bp_end := 9; bp_start_run := 0; bp_end_run := 1 |}] /\
  resolve_neutral U8 ucd16_ds text (useq lens sq) (expand lens lv) (expand lens oc) (expand lens pc)
    = Ok [R; R; R; R; R; R; R; R; L; R; R; R; R; R; R; R; R] /\
  (valid_text U16 text16 /\ lens16 = [1; 1; 1; 2; 1; 1; 1; 1] /\
   resolve_neutral U32 ucd16_ds cps16 sq lv oc pc = Ok [R; R; R; L; R; R; R; R] /\
   resolve_neutral U16 ucd16_ds text16 (useq lens16 sq) (expand lens16 lv) (expand lens16 oc)
                   (expand lens16 pc)
     = Ok [R; R; R; L; L; R; R; R; R]).
Proof.
  cbv zeta. split; [|split; [|split; [|split; [|split; [|split]]]]].
  - split; [exact I|]. split; [reflexivity|]. split; [reflexivity|]. split; [reflexivity|].
    repeat constructor.
  - vm_compute. reflexivity.
  - vm_compute. reflexivity.
  - vm_compute. reflexivity.
  - vm_compute. reflexivity.
  - vm_compute. reflexivity.
  - split; [|split; [|split]].
    + repeat constructor.
    + vm_compute. reflexivity.
    + vm_compute. reflexivity.
    + vm_compute. reflexivity.
Qed.

Check li_neutral : LI_neutral.
Print Assumptions li_neutral.
