(* Props/C12.v — the property theorem and a non-vacuity example.
   Extensionality of the model in the data source. *)
From Coq Require Import List.
Import ListNotations.
From BidiVerif Require Import Base ModelText ModelResolve ModelLine Stmts2.
From BidiVerif.Proofs Require Import DataSource.

Theorem C12_data_source_extensional : C12_statement.
Proof. exact C12_main. Qed.

(* two syntactically different custom sources that answer alike (ex_ds_ext), on a two-paragraph text
   with an R run, a bracket pair, a number and an RLI..PDI isolate: same (non-trivial) results, which
   differ from what the built-in source gives *)
Example C12_custom_sources :
  ds_ext ex_d1 ex_d2 /\
  bidi_info_new U8 ex_d1 ex_text None = bidi_info_new U8 ex_d2 ex_text None /\
  bidi_info_new U8 ex_d1 ex_text None =
    Ok {| bi_classes := [L; L; R; ON; L; ON; EN; B; L; RLI; R; L; ON; EN; ON; PDI; L];
          bi_levels := [0; 0; 1; 0; 0; 0; 0; 0; 0; 0; 1; 2; 2; 2; 2; 0; 0];
          bi_paras := [{| p_start := 0; p_end := 8; p_level := 0 |};
                       {| p_start := 8; p_end := 17; p_level := 0 |}] |} /\
  bidi_info_new U16 ex_d1 ex_text None = bidi_info_new U16 ex_d2 ex_text None /\
  para_bidi_info_new U8 ex_d1 ex_text (Some 1) = para_bidi_info_new U8 ex_d2 ex_text (Some 1) /\
  option_map pb_levels (match para_bidi_info_new U8 ex_d1 ex_text (Some 1) with Ok x => Some x | Panic _ => None end)
    = Some [2; 2; 1; 1; 2; 1; 2; 2; 2; 2; 3; 4; 4; 4; 4; 2; 2] /\
  get_base_direction U8 ex_d1 false ex_text = get_base_direction U8 ex_d2 false ex_text /\
  option_map bi_levels (match bidi_info_new U8 hardcoded_ds ex_text None with Ok x => Some x | Panic _ => None end)
    = Some (repeat 0 17).
Proof. split; [exact ex_ds_ext | vm_compute; repeat split; reflexivity]. Qed.

Check C12_data_source_extensional : C12_statement.
Print Assumptions C12_data_source_extensional.
