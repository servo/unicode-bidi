(* Props/LISequences.v — the property theorem and a non-vacuity example.  Length independence of
   prepare::isolating_run_sequences: run on the per-unit expansions of per-character class / level
   vectors with the level runs mapped to unit ranges, the stage returns the character-level
   sequences mapped to unit ranges (same sos / eos). *)
From BidiVerif Require Import Base ModelText RefDs ModelResolve Judge Stmts Stmts2 Stmts3.
From BidiVerif.Proofs Require Import LISequences.

Theorem li_sequences : LI_sequences.
Proof. exact li_sequences_main. Qed.

(* non-vacuity: UTF-16 text  alef RLI U+10401 PDF PDI U+1F600 a  (7 characters, 9 units; two
   surrogate pairs).  Level runs (0,2) (2,4) (4,6) (6,7): with isolate controls the runs (0,2) and
   (4,6) are joined across the isolate (BD13), the run (2,4) ends in a character removed by X9 whose
   predecessor is two units long; without them every run is its own sequence.  The unit-level
   results are the character-level ones mapped through [urun]. *)
Example li_sequences_example :
  let text := [0x5D0; 0x2067; 0xD801; 0xDC01; 0x202C; 0x2069; 0xD83D; 0xDE00; 0x61]%N in
  let chars := view_of U16 text in
  let lens := map snd chars in
  let k := length chars in
  let cls := map (ds_class ucd16_ds) (map fst chars) in
  let lv := [1; 1; 2; 2; 1; 1; 0] in
  let runs := [(0, 2); (2, 4); (4, 6); (6, 7)] in
  let seqs_iso := [{| irs_runs := [(2, 4)]; irs_sos := L; irs_eos := L |};
                   {| irs_runs := [(0, 2); (4, 6)]; irs_sos := R; irs_eos := R |};
                   {| irs_runs := [(6, 7)]; irs_sos := R; irs_eos := R |}] in
  let seqs_fast := [{| irs_runs := [(0, 2)]; irs_sos := R; irs_eos := L |};
                    {| irs_runs := [(2, 4)]; irs_sos := L; irs_eos := L |};
                    {| irs_runs := [(4, 6)]; irs_sos := L; irs_eos := R |};
                    {| irs_runs := [(6, 7)]; irs_sos := R; irs_eos := R |}] in
  valid_text U16 text /\
  lens = [1; 1; 2; 1; 1; 2; 1] /\ cls = [R; RLI; L; PDF; PDI; ON; L] /\
  length cls = k /\ length lv = k /\ Forall (run_in k) runs /\
  isolating_run_sequences 1 cls lv runs true = Ok seqs_iso /\
  isolating_run_sequences 1 cls lv runs false = Ok seqs_fast /\
  map (urun lens) runs = [(0, 2); (2, 5); (5, 8); (8, 9)] /\
  isolating_run_sequences 1 (expand lens cls) (expand lens lv) (map (urun lens) runs) true
    = Ok (map (useq lens) seqs_iso) /\
  isolating_run_sequences 1 (expand lens cls) (expand lens lv) (map (urun lens) runs) false
    = Ok (map (useq lens) seqs_fast) /\
  map (useq lens) seqs_iso = [{| irs_runs := [(2, 5)]; irs_sos := L; irs_eos := L |};
                              {| irs_runs := [(0, 2); (5, 8)]; irs_sos := R; irs_eos := R |};
                              {| irs_runs := [(8, 9)]; irs_sos := R; irs_eos := R |}].
Proof.
  cbv zeta. repeat split;
    match goal with
    | |- valid_text _ _ => unfold valid_text, is_u16; repeat (constructor; try reflexivity)
    | |- Forall _ _ => vm_compute; repeat constructor
    | |- _ = _ => vm_compute; reflexivity
    end.
Qed.

Check li_sequences : LI_sequences.
Print Assumptions li_sequences.
