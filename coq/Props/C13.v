(* Props/C13.v — the property theorems and a non-vacuity example.
   C13 "isolates isolate", at the level of the specification
   (Spec.v): replacing the content of a matched, valid LRI/RLI ... PDI pair by any other B-free,
   isolate-balanced content changes neither the paragraph level nor the explicit level / class
   (c13_explicit) nor the resolved level (c13_full) of any character outside the pair, the initiator and
   the PDI included. *)
From BidiVerif Require Import Base Spec Stmts7.
From BidiVerif.Proofs Require Import C13Spec.

Theorem c13_explicit : C13_explicit.
Proof. exact c13_explicit_proof. Qed.

Theorem c13_full : C13_full.
Proof. exact c13_full_proof. Qed.

(* non-vacuity.  The pair RLI ... PDI sits inside an RLE embedding and inside a bracket pair "(" ... ")"
   (the ONs at prefix position 2 and suffix position 1, bracket data Some (40, true/false)), with NSMs
   next to it.  Content 1 is [L; EN]; content 2 contains nested isolates (RLI (LRI PDI) PDI and FSI PDI),
   an NSM and an embedding LRE that is left open.  The hypotheses are proved, and the conclusions are
   computed: the 13 outside positions (prefix, initiator, PDI, suffix) have the same explicit levels,
   classes and resolved levels in both texts, although the texts have 15 and 26 characters. *)
Example c13_example :
  let prefix := [L; RLE; ON; AL; NSM] in
  let ini := RLI in
  let c1 := [L; EN] in
  let c2 := [R; RLI; AL; LRI; L; PDI; NSM; PDI; LRE; EN; FSI; PDI; ON] in
  let suffix := [NSM; ON; EN; PDF; L; AN] in
  let bp : list (option (N * bool)) := [None; None; Some (40%N, true); None; None] in
  let bs : list (option (N * bool)) := [None; Some (40%N, false); None; None; None; None] in
  let b1 : list (option (N * bool)) := [None; None] in
  let b2 : list (option (N * bool)) := map (fun _ => None) c2 in
  let dir : option nat := None in
  let t1 := prefix ++ [ini] ++ c1 ++ [PDI] ++ suffix in
  let t2 := prefix ++ [ini] ++ c2 ++ [PDI] ++ suffix in
  let k1 := bp ++ [None] ++ b1 ++ [None] ++ bs in
  let k2 := bp ++ [None] ++ b2 ++ [None] ++ bs in
  let out1 := map (outside1 prefix c1) (seq 0 13) in
  let out2 := map (outside2 prefix c2) (seq 0 13) in
  c13_hyps prefix suffix c1 c2 ini bp bs b1 b2 dir /\
  para_level t1 dir = 0 /\ para_level t2 dir = 0 /\
  out1 = [0; 1; 2; 3; 4; 5; 8; 9; 10; 11; 12; 13; 14] /\
  out2 = [0; 1; 2; 3; 4; 5; 19; 20; 21; 22; 23; 24; 25] /\
  (* explicit levels and classes outside *)
  map (fun i => nth i (fst (explicit_levels t1 0)) None) out1
    = [Some 0; None; Some 1; Some 1; Some 1; Some 1; Some 1; Some 1; Some 1; Some 1; None; Some 0; Some 0] /\
  map (fun i => nth i (fst (explicit_levels t2 0)) None) out2
    = [Some 0; None; Some 1; Some 1; Some 1; Some 1; Some 1; Some 1; Some 1; Some 1; None; Some 0; Some 0] /\
  map (fun i => nth i (snd (explicit_levels t1 0)) ON) out1 = [L; RLE; ON; AL; NSM; RLI; PDI; NSM; ON; EN; PDF; L; AN] /\
  map (fun i => nth i (snd (explicit_levels t2 0)) ON) out2 = [L; RLE; ON; AL; NSM; RLI; PDI; NSM; ON; EN; PDF; L; AN] /\
  (* resolved levels: all of them, then the outside ones *)
  snd (resolve_paragraph t1 k1 dir)
    = [Some 0; None; Some 1; Some 1; Some 1; Some 1; Some 4; Some 4; Some 1; Some 1; Some 1; Some 2; None;
       Some 0; Some 2] /\
  snd (resolve_paragraph t2 k2 dir)
    = [Some 0; None; Some 1; Some 1; Some 1; Some 1; Some 3; Some 3; Some 5; Some 5; Some 6; Some 5; Some 5;
       Some 3; None; Some 4; Some 4; Some 4; Some 4; Some 1; Some 1; Some 1; Some 2; None; Some 0; Some 2] /\
  map (fun i => nth i (snd (resolve_paragraph t1 k1 dir)) None) out1
    = [Some 0; None; Some 1; Some 1; Some 1; Some 1; Some 1; Some 1; Some 1; Some 2; None; Some 0; Some 2] /\
  map (fun i => nth i (snd (resolve_paragraph t2 k2 dir)) None) out2
    = [Some 0; None; Some 1; Some 1; Some 1; Some 1; Some 1; Some 1; Some 1; Some 2; None; Some 0; Some 2].
Proof.
  cbv zeta. split.
  - (* the hypotheses *)
    unfold c13_hyps.
    split; [right; reflexivity|].
    split; [reflexivity|]. split; [reflexivity|].
    split; [repeat constructor; discriminate|]. split; [repeat constructor; discriminate|].
    split; [intros i Hi; do 15 (destruct i as [|i]; [discriminate|]); cbn [length app] in Hi; lia|].
    split; [intros i Hi; do 26 (destruct i as [|i]; [discriminate|]); cbn [length app] in Hi; lia|].
    split; [reflexivity|]. split; [reflexivity|]. split; [reflexivity|]. split; [reflexivity|].
    split; [left; reflexivity|].
    unfold initiator_valid. vm_compute. repeat split; lia.
  - vm_compute. repeat split; reflexivity.
Qed.

Check c13_explicit : C13_explicit.
Check c13_full : C13_full.
Print Assumptions c13_explicit.
Print Assumptions c13_full.
