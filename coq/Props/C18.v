(* Props/C18.v — the property theorems and a non-vacuity example.
   UTF-16 / UTF-8 text access against the lossy decoding. *)
From BidiVerif Require Import Base ModelText Spec Judge Stmts.
From BidiVerif.Proofs Require Import Utf16.

Theorem C18_utf16_text_access : C18_statement.
Proof. exact utf16_text_access. Qed.

Theorem C18_utf8_text_access : C18_utf8_statement.
Proof. exact utf8_text_access. Qed.

(* an ill-formed text (pair, lone high, lone low, reversed pair at the end) under a mixed
   next / next_back program that runs past exhaustion *)
Example C18_mixed_program :
  let t := [65; 55297; 56321; 32; 55296; 32; 57343; 32; 56320; 55296]%N in
  let ops := [true; false; false; true; true; false; true; false; false; true; false; true; false] in
  iter16_program false t ops = Ok (deque_run (map fst (decode16 t)) ops) /\
  iter16_program false t ops =
    Ok [Some 65; Some 65533; Some 65533; Some 66561; Some 32; Some 32; Some 65533; Some 65533;
        Some 32; None; None; None; None]%N /\
  chars16_rev t = Ok (rev (map fst (decode16 t))).
Proof. vm_compute. repeat split; reflexivity. Qed.

Check C18_utf16_text_access : C18_statement.
Check C18_utf8_text_access : C18_utf8_statement.
Print Assumptions C18_utf16_text_access.
Print Assumptions C18_utf8_text_access.
