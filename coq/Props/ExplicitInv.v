(* Props/ExplicitInv.v — the property theorem and a non-vacuity example.
   explicit::compute on a text seen through its
   characters: never panics; vectors keep their length, levels stay in [para level, 125], both vectors
   are uniform inside every character, and the level runs tile the paragraph, are non-empty and start
   on character boundaries. *)
From BidiVerif Require Import Base ModelText ModelResolve Judge Stmts2.
From BidiVerif.Proofs Require Import ExplicitInv.

Theorem explicit_invariants : explicit_invariants_statement.
Proof. exact explicit_invariants_proof. Qed.

(* non-vacuity: UTF-8, multi-unit characters, an RLE ... PDF and an LRI ... PDI:
   a  RLE(3 units)  alef(2)  PDF(3)  LRI(3)  b  PDI(3)  U+10000(4) *)
Example explicit_invariants_example :
  let t := [97; 8235; 1488; 8236; 8294; 98; 8297; 65536]%N in
  let chars := map (fun c => (c, len_utf8 c)) t in
  let cls := [L; RLE; R; PDF; LRI; L; PDI; L] in
  let lens := map snd chars in
  text_view U8 t chars /\ length cls = length chars /\ 0 <= 1 /\
  lens = [1; 3; 2; 3; 3; 1; 3; 4] /\
  explicit_compute U8 t 0 (expand lens cls) (repeat 0 (total lens)) (expand lens cls) =
    Ok ([0; 1; 1; 1; 1; 1; 0; 0; 0; 0; 0; 0; 2; 0; 0; 0; 0; 0; 0; 0],
        [L; BN; BN; BN; R; R; BN; BN; BN; LRI; LRI; LRI; L; PDI; PDI; PDI; L; L; L; L],
        [(0, 4); (4, 9); (9, 12); (12, 13); (13, 20)]).
Proof.
  intros t chars cls lens.
  split.
  { unfold text_view. repeat split; try (vm_compute; reflexivity).
    unfold chars, t; cbn [map].
    repeat (apply Forall_cons; [split; vm_compute; repeat constructor|]). apply Forall_nil. }
  repeat split; try (vm_compute; reflexivity). repeat constructor.
Qed.

Check explicit_invariants : explicit_invariants_statement.
Print Assumptions explicit_invariants.
