(* Props/C15.v — property theorem only.  The bracket-pair table has no repeated character, the
   lookup is membership (a [find]), keys are distinct up to the canonical 2329/232A ~ 3008/3009
   equivalence, and every bracket character has class ON. *)
From BidiVerif Require Import Stmts.
From BidiVerif.Proofs Require Import Tables.

Theorem C15_bracket_table : C15_structure_statement.
Proof. exact C15_structure. Qed.

Check C15_bracket_table : C15_structure_statement.
Print Assumptions C15_bracket_table.
