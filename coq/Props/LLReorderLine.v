(* Props/LLReorderLine.v — the property theorems and three worked lines (closed by the local tactic crunch).
   Length independence of reorder_line:
   on a text of any encoding (ill-formed UTF-16 included), with per-unit class / level vectors that are
   expansions of per-character vectors and a line made of whole characters, reorder_line succeeds and
   its output decodes to the character-level result; for well-formed text it is exactly the encoding
   of the character-level result. *)
From BidiVerif Require Import Base ModelText ModelLine Judge Stmts Stmts2 Stmts3 Stmts5 Stmts6.
From BidiVerif.Proofs Require Import LLReorderLine.

Theorem ll_reorder_line2 : LL_reorder_line2.
Proof. exact ll_reorder_line2_proof. Qed.

Theorem ll_reorder_line : LL_reorder_line.
Proof. exact ll_reorder_line_proof. Qed.

Local Ltac crunch :=
  cbv zeta; repeat split;
    match goal with
    | |- valid_text _ _ => unfold valid_text, is_u16; repeat (constructor; try reflexivity)
    | |- _ <= _ => vm_compute; repeat constructor
    | |- _ < _ => vm_compute; repeat constructor
    | |- _ <> _ => vm_compute; discriminate
    | |- _ = _ => vm_compute; reflexivity
    end.

(* non-vacuity 1: an ILL-FORMED UTF-16 text   a alef <lone D800> bet b <lone DC00>   (6 units, 6 characters;
   both lone surrogates read as U+FFFD), character levels 0 1 1 1 0 0, line = everything.  The RTL run
   alef U+FFFD bet is reversed; emit_runs writes decoded characters, so the lone surrogates come out as
   U+FFFD; the output is valid, decodes to the character-level result, and the text is not well formed. *)
Example ll_reorder_line2_illformed :
  let text := [0x61; 0x5D0; 0xD800; 0x5D1; 0x62; 0xDC00]%N in
  let chars := view_of U16 text in
  let cps := map fst chars in
  let lens := map snd chars in
  let cls := [L; R; ON; R; L; ON] in
  let lv := [0; 1; 1; 1; 0; 0] in
  let out' := [0x61; 0x5D1; 0xFFFD; 0x5D0; 0x62; 0xFFFD]%N in
  valid_text U16 text /\
  cps = [0x61; 0x5D0; 0xFFFD; 0x5D1; 0x62; 0xFFFD]%N /\
  lens = [1; 1; 1; 1; 1; 1] /\
  encode_chars U16 cps <> text /\                                        (* not well formed *)
  reorder_line U32 false cps cls lv 0 (0, 6) = Ok out' /\
  reorder_line U16 false text (expand lens cls) (expand lens lv) 0 (ustart lens 0, ustart lens 6)
    = Ok out' /\
  map fst (view_of U16 out') = out'.
Proof. crunch. Qed.

(* non-vacuity 1b: the same ill-formed text, line = characters 4..6 (b <lone DC00>), all levels even:
   the raw units are returned (the lone surrogate stays), and they still decode to the character-level
   result  b U+FFFD;  the output differs from the encoding of the character-level result *)
Example ll_reorder_line2_illformed_raw :
  let text := [0x61; 0x5D0; 0xD800; 0x5D1; 0x62; 0xDC00]%N in
  let chars := view_of U16 text in
  let cps := map fst chars in
  let lens := map snd chars in
  let cls := [L; R; ON; R; L; ON] in
  let lv := [0; 1; 1; 1; 0; 0] in
  reorder_line U32 false cps cls lv 0 (4, 6) = Ok [0x62; 0xFFFD]%N /\
  reorder_line U16 false text (expand lens cls) (expand lens lv) 0 (ustart lens 4, ustart lens 6)
    = Ok [0x62; 0xDC00]%N /\
  map fst (view_of U16 [0x62; 0xDC00]%N) = [0x62; 0xFFFD]%N /\
  [0x62; 0xDC00]%N <> encode_chars U16 [0x62; 0xFFFD]%N.
Proof. crunch. Qed.

(* non-vacuity 2: a WELL-FORMED UTF-16 text   a alef U+10401 bet b   (6 units, 5 characters; one surrogate
   pair), character levels 0 1 1 1 0.  The RTL run alef U+10401 bet is reversed as characters: the
   surrogate pair stays in order D801 DC01; the result is the encoding of the character-level result. *)
Example ll_reorder_line_wellformed :
  let text := [0x61; 0x5D0; 0xD801; 0xDC01; 0x5D1; 0x62]%N in
  let chars := view_of U16 text in
  let cps := map fst chars in
  let lens := map snd chars in
  let k := length chars in
  let cls := [L; R; L; R; L] in
  let lv := [0; 1; 1; 1; 0] in
  let out' := [0x61; 0x5D1; 0x10401; 0x5D0; 0x62]%N in
  valid_text U16 text /\ well_formed U16 text /\
  cps = [0x61; 0x5D0; 0x10401; 0x5D1; 0x62]%N /\
  lens = [1; 1; 2; 1; 1] /\
  length cls = k /\ length lv = k /\ 0 < 5 /\ 5 <= k /\
  expand lens lv = [0; 1; 1; 1; 1; 0] /\
  (ustart lens 0, ustart lens 5) = (0, 6) /\
  reorder_line U32 false cps cls lv 0 (0, 5) = Ok out' /\
  encode_chars U16 out' = [0x61; 0x5D1; 0xD801; 0xDC01; 0x5D0; 0x62]%N /\
  reorder_line U16 false text (expand lens cls) (expand lens lv) 0 (ustart lens 0, ustart lens 5)
    = Ok (encode_chars U16 out').
Proof. crunch. Qed.

Check ll_reorder_line2 : LL_reorder_line2.
Check ll_reorder_line : LL_reorder_line.
Print Assumptions ll_reorder_line2.
Print Assumptions ll_reorder_line.
