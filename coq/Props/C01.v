(* Props/C01.v — property theorems only.  C01: the resolved levels follow UAX #9, for every text of
   every encoding, every data source and every base-direction choice — assembled from the stage
   theorems (X1-X8, BD7, BD13/X10, W1-W7, BD16/N0-N2, I1/I2, the shortcut, the flags) at character
   level and lifted by length independence.  C11's judge-form statement follows. *)
From BidiVerif Require Import Stmts5 Stmts6.
From BidiVerif.Props Require Import CSRuns CSSequences CSWeak CSNeutral CSLevels CSShortcut CSFlags CSAssemble.

Theorem cs_para : CS_para.
Proof. exact (cs_para_assembly_mixed cs_runs cs_sequences cs_weak cs_neutral cs_levels cs_shortcut). Qed.

Theorem c01_char : C01_char.
Proof. exact (c01_char_assembly cs_para cs_flags). Qed.

Theorem c01_final : C01_final.
Proof. exact (c01_final_assembly c01_char). Qed.

Theorem c11_final : C11_final.
Proof. exact (c11_final_assembly c01_final). Qed.

Check cs_para : CS_para.
Check c01_char : C01_char.
Check c01_final : C01_final.
Check c11_final : C11_final.
Print Assumptions cs_para.
Print Assumptions c01_final.
Print Assumptions c11_final.
