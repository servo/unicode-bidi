(* Props/TotalAssemble.v — the property theorems and three non-vacuity examples.
   t_levels: resolve_levels and assign_levels_to_removed_chars never panic, keep the vector length and
   keep levels within bounds (raise by at most 2 from <= 125 stays <= 126; removed characters copy the
   previous value or the paragraph level).
   The ASSEMBLY, as implications:
   t_constructors_char_assembly: from the totality statements of the stages (T_sequences, T_weak,
   T_neutral, T_levels; Stmts4.v), the two constructors are total at character level (ghost encoding
   U32), vectors have one entry per character, paragraph level <= level <= 126;
   c07_c08_assembly: from that and length independence (LI_bidi_info, LI_para_bidi_info), the same for
   every encoding, one entry per code unit, uniform inside each character. *)
From BidiVerif Require Import Base ModelText RefDs ModelResolve Judge Stmts Stmts2 Stmts3 Stmts4.
From BidiVerif.Proofs Require Import TotalAssemble.

Theorem t_levels : T_levels.
Proof. exact t_levels_proof. Qed.

Theorem t_constructors_char_assembly :
  T_sequences -> T_weak -> T_neutral -> T_levels -> T_constructors_char.
Proof. exact t_constructors_char_from. Qed.

Theorem c07_c08_assembly :
  T_constructors_char -> LI_bidi_info -> LI_para_bidi_info -> C07_C08_constructors.
Proof. exact c07_c08_from. Qed.

(* non-vacuity of T_levels: every branch of I1/I2 (even and odd levels, L/R/EN/AN/ON), the limits
   (125 -> 126 for EN on an odd level, 124 -> 126 for EN on an even level), and removed characters
   at the start (paragraph level) and in the middle (previous value) *)
Example t_levels_example :
  let pc := [L; R; EN; AN; L; EN; AN; ON; R; EN; EN] in
  let lv := [0; 0; 0; 0; 1; 1; 1; 1; 124; 125; 124] in
  length pc = length lv /\ Forall (fun l => l <= 125) lv /\
  resolve_levels pc lv = Ok [0; 1; 2; 2; 2; 2; 2; 1; 125; 126; 126] /\
  let oc := [RLE; L; BN; R; PDF; ON] in
  let lv2 := [9; 2; 9; 3; 7; 1] in
  length oc = length lv2 /\
  assign_levels_to_removed_chars 1 oc lv2 = Ok [1; 2; 2; 3; 3; 1].
Proof.
  intros pc lv. split; [reflexivity|]. split; [repeat constructor|].
  split; [vm_compute; reflexivity|]. intros oc lv2. split; vm_compute; reflexivity.
Qed.

(* non-vacuity of the assembly, character level: two paragraphs (LTR then RTL), an embedding, an
   isolate, a bracket pair and a supplementary character:
   a RLE alef 1 PDF LRI b PDI LF | alef ( a ) U+10000 *)
Example t_constructors_char_example :
  let cps := [97; 8235; 1488; 49; 8236; 8294; 98; 8297; 10; 1488; 40; 97; 41; 65536]%N in
  dir3 None /\ dir3 (Some 1) /\
  (exists b, bidi_info_new U32 ucd16_ds cps None = Ok b /\
             bi_levels b = [0; 0; 1; 2; 2; 0; 2; 0; 0; 1; 1; 2; 1; 2] /\
             map p_level (bi_paras b) = [0; 1] /\
             length (bi_levels b) = length cps /\ length (bi_classes b) = length cps /\
             levels_bounded (bi_paras b) (bi_levels b) = true) /\
  (exists p, para_bidi_info_new U32 ucd16_ds cps (Some 1) = Ok p /\
             pb_levels p = [2; 2; 3; 4; 4; 1; 2; 1; 1; 1; 1; 2; 1; 2] /\ pb_level p = 1 /\
             length (pb_levels p) = length cps /\ length (pb_classes p) = length cps /\
             forallb (fun l => (pb_level p <=? l) && (l <=? 126)) (pb_levels p) = true).
Proof.
  intros cps. split; [left; reflexivity|]. split; [right; right; reflexivity|].
  split; (eexists; split; [vm_compute; reflexivity | vm_compute; repeat split]).
Qed.

(* non-vacuity of the assembly, every encoding: the same text in UTF-16 followed by a lone low
   surrogate (the supplementary character is a surrogate pair: 2 units), and in UTF-8 (lengths
   1, 3, 2, 1, 3, 3, 1, 3, 1, 2, 1, 1, 1, 4) *)
Example c07_c08_example :
  let t16 := [97; 8235; 1488; 49; 8236; 8294; 98; 8297; 10; 1488; 40; 97; 41; 55296; 56320; 56320]%N in
  let t8 := [97; 8235; 1488; 49; 8236; 8294; 98; 8297; 10; 1488; 40; 97; 41; 65536]%N in
  valid_text U16 t16 /\ fsi_proviso U16 ucd16_ds (view_of U16 t16) /\
  valid_text U8 t8 /\ fsi_proviso U8 ucd16_ds (view_of U8 t8) /\
  map snd (view_of U16 t16) = [1; 1; 1; 1; 1; 1; 1; 1; 1; 1; 1; 1; 1; 2; 1] /\
  map snd (view_of U8 t8) = [1; 3; 2; 1; 3; 3; 1; 3; 1; 2; 1; 1; 1; 4] /\
  (exists b, bidi_info_new U16 ucd16_ds t16 None = Ok b /\
             bi_levels b = [0; 0; 1; 2; 2; 0; 2; 0; 0; 1; 1; 2; 1; 2; 2; 1] /\
             uniform ceq (map snd (view_of U16 t16)) (bi_classes b) = true /\
             uniform Nat.eqb (map snd (view_of U16 t16)) (bi_levels b) = true /\
             levels_bounded (bi_paras b) (bi_levels b) = true) /\
  (exists b, bidi_info_new U8 ucd16_ds t8 None = Ok b /\
             bi_levels b = [0; 0; 0; 0; 1; 1; 2; 2; 2; 2; 0; 0; 0; 2; 0; 0; 0; 0; 1; 1; 1; 2; 1; 2; 2; 2; 2] /\
             map (fun q => (p_start q, p_end q, p_level q)) (bi_paras b) = [(0, 18, 0); (18, 27, 1)] /\
             uniform ceq (map snd (view_of U8 t8)) (bi_classes b) = true /\
             uniform Nat.eqb (map snd (view_of U8 t8)) (bi_levels b) = true /\
             levels_bounded (bi_paras b) (bi_levels b) = true) /\
  (exists p, para_bidi_info_new U8 ucd16_ds t8 (Some 1) = Ok p /\
             length (pb_levels p) = 27 /\ pb_level p = 1 /\
             uniform Nat.eqb (map snd (view_of U8 t8)) (pb_levels p) = true /\
             forallb (fun l => (pb_level p <=? l) && (l <=? 126)) (pb_levels p) = true).
Proof.
  intros t16 t8.
  split; [unfold valid_text, is_u16, t16; repeat (constructor; [reflexivity|]); constructor|].
  split.
  { unfold fsi_proviso. apply Forall_forall. intros ch Hin. vm_compute in Hin.
    repeat (destruct Hin as [<-|Hin]; [vm_compute; intros H; try discriminate H; reflexivity|]).
    contradiction. }
  split; [exact I|].
  split.
  { unfold fsi_proviso. apply Forall_forall. intros ch Hin. vm_compute in Hin.
    repeat (destruct Hin as [<-|Hin]; [vm_compute; intros H; try discriminate H; reflexivity|]).
    contradiction. }
  split; [vm_compute; reflexivity|]. split; [vm_compute; reflexivity|].
  split; [|split]; (eexists; split; [vm_compute; reflexivity | vm_compute; repeat split]).
Qed.

Check t_levels : T_levels.
Check t_constructors_char_assembly :
  T_sequences -> T_weak -> T_neutral -> T_levels -> T_constructors_char.
Check c07_c08_assembly :
  T_constructors_char -> LI_bidi_info -> LI_para_bidi_info -> C07_C08_constructors.
Check t_constructors_char_from :
  T_sequences -> T_weak -> T_neutral -> T_levels -> T_constructors_char.
Check c07_c08_from :
  T_constructors_char -> LI_bidi_info -> LI_para_bidi_info -> C07_C08_constructors.
Print Assumptions t_levels.
Print Assumptions t_constructors_char_assembly.
Print Assumptions c07_c08_assembly.
