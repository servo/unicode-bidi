(* Props/C03.v — the property theorem and a non-vacuity example.
   reorder_levels (repaired code) is rule L1: on a line seen as
   characters (scalar, unit length), with classes replicated per unit and levels uniform per
   character, the model never panics and returns the per-character Spec.l1 expanded to units. *)
From BidiVerif Require Import Base ModelText ModelLine Judge Stmts.
From BidiVerif.Proofs Require Import L1.

Theorem C03_reorder_levels_is_L1 : C03_statement.
Proof. exact reorder_levels_is_L1. Qed.

(* non-vacuity: a line with a separator, a 3-unit X9-removed character (U+200B, BN) and trailing
   whitespace; hypotheses hold and both sides evaluate to the same vector *)
Example C03_example :
  let chars := [(97%N, 1); (32%N, 1); (9%N, 1); (8203%N, 3); (98%N, 1); (32%N, 1)] in
  let cls := [L; WS; SS; BN; L; WS] in
  let lv := [2; 2; 2; 3; 3; 3; 2; 2] in
  t_char_indices U8 (map fst chars)
    = map (fun x : nat * N * nat => (fst (fst x), snd (fst x))) (positions 0 chars) /\
  forallb (fun ch : N * nat => (snd ch =? char_len U8 (fst ch)) && (0 <? snd ch)) chars = true /\
  length lv = total (map snd chars) /\
  uniform Nat.eqb (map snd chars) lv = true /\
  reorder_levels U8 false (expand (map snd chars) cls) lv (map fst chars) 1
    = Ok [2; 1; 1; 1; 1; 1; 2; 1] /\
  expand (map snd chars)
         (Spec.l1 1 cls (map (fun x => match x with Some l => l | None => 0 end)
                             (at_starts (map snd chars) lv)))
    = [2; 1; 1; 1; 1; 1; 2; 1].
Proof. vm_compute. repeat split. Qed.

Check C03_reorder_levels_is_L1 : C03_statement.
Print Assumptions C03_reorder_levels_is_L1.
