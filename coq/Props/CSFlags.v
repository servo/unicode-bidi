(* Props/CSFlags.v — the property theorem and a non-vacuity example.
   The two flags computed by compute_initial_info at character
   level (U32): per paragraph of Spec.split_paragraphs in split mode, for the whole text otherwise:
   pure-LTR = no character of class R, AL, AN, LRE, RLE, LRO, RLO, RLI, LRI, FSI; has-isolate = some
   RLI/LRI/FSI. *)
From BidiVerif Require Import Base ModelText RefDs ModelResolve Spec Stmts6.
From BidiVerif.Proofs Require Import CSFlags.

Theorem cs_flags : CS_flags.
Proof. exact cs_flags_proof. Qed.

(* non-vacuity: "a LF alef RLI LF b 1" (classes L B | R RLI B | L EN): three paragraphs in split mode with
   flags (pure, no isolate), (not pure, isolate), (pure, no isolate); as one text: not pure, isolate *)
Example cs_flags_example :
  let cps := [97; 10; 1488; 8295; 10; 98; 49]%N in
  let cls := map (ds_class ucd16_ds) cps in
  cls = [L; B; R; RLI; B; L; EN] /\
  split_paragraphs (fun c : bclass => c) cls = [[L; B]; [R; RLI; B]; [L; EN]] /\
  (exists ii, compute_initial_info U32 ucd16_ds cps None true = Ok ii /\
     in_flags ii = [{| f_pure_ltr := true; f_has_isolate := false |};
                    {| f_pure_ltr := false; f_has_isolate := true |};
                    {| f_pure_ltr := true; f_has_isolate := false |}]) /\
  (exists ii, compute_initial_info U32 ucd16_ds cps None false = Ok ii /\
     in_pure ii = false /\ in_iso ii = true /\
     forallb pure_ltr_class cls = false /\ existsb is_isolate_init cls = true).
Proof.
  cbv zeta. split; [vm_compute; reflexivity|]. split; [vm_compute; reflexivity|].
  split; eexists; (split; [vm_compute; reflexivity|]); vm_compute; repeat split.
Qed.

Check cs_flags : CS_flags.
Print Assumptions cs_flags.
