(* Props/LLLevels.v — the property theorem and a non-vacuity example.
   Length independence of the line-level L1 API:
   reordered_levels / reordered_levels_per_char on a text in any encoding, on a line of whole
   characters, are the per-unit expansion / the per-character vector computed by the character-level
   (ghost encoding U32) model. *)
From BidiVerif Require Import Base ModelText ModelLine Judge Stmts Stmts2 Stmts3 Stmts5.
From BidiVerif.Proofs Require Import LLLevels.

Theorem ll_reordered_levels : LL_reordered_levels.
Proof. exact ll_reordered_levels_proved. Qed.

(* an ill-formed UTF-16 text: A, a surrogate pair (U+10401), alef, a lone low surrogate, a second
   pair (U+E0001, class BN), space, tab, B — 8 characters in 10 units.  The line is characters 1..5
   (units 1..8): it starts on a pair and ends with BN, WS (reset to the paragraph level by L1 at the
   end of the line); the tab after the line keeps its level. *)
Example ll_reordered_levels_example :
  let e := U16 in
  let text := [65; 55297; 56321; 1488; 56320; 56128; 56321; 32; 9; 66]%N in
  let chars := view_of e text in
  let cps := map fst chars in
  let lens := map snd chars in
  let cls := [L; L; R; ON; BN; WS; SS; L] in
  let lv := [0; 2; 1; 1; 1; 1; 1; 0] in
  let pl := 0 in
  let i := 1 in
  let j := 6 in
  let out' := [0; 2; 1; 1; 0; 0; 1; 0] in
  valid_text e text /\
  chars = [(65%N, 1); (66561%N, 2); (1488%N, 1); (65533%N, 1); (917505%N, 2); (32%N, 1); (9%N, 1); (66%N, 1)] /\
  length cls = length chars /\ length lv = length chars /\ i <= j /\ j <= length chars /\
  reordered_levels U32 false cps cls lv pl (i, j) = Ok out' /\
  (ustart lens i, ustart lens j) = (1, 8) /\
  reordered_levels e false text (expand lens cls) (expand lens lv) pl (ustart lens i, ustart lens j)
    = Ok [0; 2; 2; 1; 1; 0; 0; 0; 1; 0] /\
  reordered_levels_per_char e false text (expand lens cls) (expand lens lv) pl (ustart lens i, ustart lens j)
    = Ok out'.
Proof.
  cbv zeta. repeat split;
    match goal with
    | |- valid_text _ _ => unfold valid_text, is_u16; repeat (constructor; try reflexivity)
    | |- _ <= _ => vm_compute; repeat constructor
    | |- _ = _ => vm_compute; reflexivity
    end.
Qed.

Check ll_reordered_levels : LL_reordered_levels.
Print Assumptions ll_reordered_levels.
