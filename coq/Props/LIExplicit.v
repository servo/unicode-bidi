(* Props/LIExplicit.v — the property theorem and a non-vacuity example.
   LENGTH INDEPENDENCE of explicit::compute: on a text in
   any encoding the stage returns the per-code-unit expansion of what it returns on the character list
   (ghost encoding U32): levels and classes expanded, level runs mapped to unit ranges. *)
From BidiVerif Require Import Base ModelText ModelResolve Judge Stmts Stmts2 Stmts3.
From BidiVerif.Proofs Require Import LIExplicit.

Theorem li_explicit : LI_explicit.
Proof. exact li_explicit_main. Qed.

(* non-vacuity: UTF-16 with a surrogate pair (2 units) and a lone high surrogate (decoded lossily, 1
   unit), and UTF-8 with 1/2/3/4-unit characters; RLE ... PDF, RLI ... PDI, a paragraph separator.
   The hypotheses hold, the character-level run is Ok, and the unit-level run is its expansion. *)
Example li_explicit_example :
  let t16 := [97; 8235; 55297; 56320; 8236; 8295; 55296; 1489; 8297; 10; 98]%N in
  let t8 := [65; 1488; 8235; 66000; 8236; 8295; 1489; 8297; 10; 97]%N in
  let cls16 := [L; RLE; AL; PDF; RLI; ON; R; PDI; B; L] in
  let cls8 := [L; R; RLE; AL; PDF; RLI; R; PDI; B; L] in
  let lens16 := map snd (view_of U16 t16) in
  let lens8 := map snd (view_of U8 t8) in
  (valid_text U16 t16 /\ valid_text U8 t8) /\
  lens16 = [1; 1; 2; 1; 1; 1; 1; 1; 1; 1] /\ lens8 = [1; 2; 3; 4; 3; 3; 2; 3; 1; 1] /\
  length cls16 = length (view_of U16 t16) /\ length cls8 = length (view_of U8 t8) /\
  explicit_compute U32 (map fst (view_of U16 t16)) 1 cls16 (repeat 1 10) cls16 =
    Ok ([1; 3; 3; 1; 1; 3; 3; 1; 1; 1],
        [L; BN; AL; BN; RLI; ON; R; PDI; B; L],
        [(0, 2); (2, 4); (4, 5); (5, 7); (7, 10)]) /\
  explicit_compute U16 t16 1 (expand lens16 cls16) (repeat 1 (total lens16)) (expand lens16 cls16) =
    Ok ([1; 3; 3; 3; 1; 1; 3; 3; 1; 1; 1],
        [L; BN; AL; AL; BN; RLI; ON; R; PDI; B; L],
        [(0, 2); (2, 5); (5, 6); (6, 8); (8, 11)]) /\
  explicit_compute U32 (map fst (view_of U8 t8)) 0 cls8 (repeat 0 10) cls8 =
    Ok ([0; 0; 1; 1; 0; 0; 1; 0; 0; 0],
        [L; R; BN; AL; BN; RLI; R; PDI; B; L],
        [(0, 3); (3, 5); (5, 6); (6, 7); (7, 10)]) /\
  explicit_compute U8 t8 0 (expand lens8 cls8) (repeat 0 (total lens8)) (expand lens8 cls8) =
    Ok (expand lens8 [0; 0; 1; 1; 0; 0; 1; 0; 0; 0],
        expand lens8 [L; R; BN; AL; BN; RLI; R; PDI; B; L],
        map (urun lens8) [(0, 3); (3, 5); (5, 6); (6, 7); (7, 10)]).
Proof.
  intros t16 t8 cls16 cls8 lens16 lens8.
  split.
  { split; [|exact I]. unfold valid_text, is_u16, t16. repeat constructor. }
  vm_compute. repeat split; reflexivity.
Qed.

Check li_explicit : LI_explicit.
Print Assumptions li_explicit.
