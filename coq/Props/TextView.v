(* Props/TextView.v — the property theorems and a non-vacuity example.
   The concrete character view of a text ([view_of])
   is a [text_view] for both encodings; `subrange` on character boundaries is the text of those
   characters. *)
From BidiVerif Require Import Base ModelText Judge Stmts Stmts2.
From BidiVerif.Proofs Require Import TextView.

Theorem view_of_ok : view_of_statement.
Proof. exact view_of_proved. Qed.

Theorem subrange_view_ok : subrange_view_statement.
Proof. exact subrange_view_proved. Qed.

Theorem text_view_exists : text_view_exists_statement.
Proof. exact text_view_exists_proved. Qed.

(* an ill-formed UTF-16 text: A, a surrogate pair (U+10401), a lone high surrogate, a space, a lone
   low surrogate, alef, a second pair (U+1F600), B.  The sub-range of characters 1..6 (units 1..9)
   starts and ends on a pair and contains both lone surrogates. *)
Example subrange_view_example :
  let t := [65; 55297; 56321; 55296; 32; 56320; 1488; 55357; 56832; 66]%N in
  let i := 1 in
  let j := 7 in
  let lens := map snd (view_of U16 t) in
  let sub := [55297; 56321; 55296; 32; 56320; 1488; 55357; 56832]%N in
  valid_text U16 t /\ i <= j /\ j <= length (view_of U16 t) /\
  view_of U16 t = [(65%N, 1); (66561%N, 2); (65533%N, 1); (32%N, 1); (65533%N, 1); (1488%N, 1); (128512%N, 2); (66%N, 1)] /\
  (total (firstn i lens), total (firstn j lens)) = (1, 9) /\
  t_subrange 0 U16 t (total (firstn i lens)) (total (firstn j lens)) = Ok sub /\
  view_of U16 sub = firstn (j - i) (skipn i (view_of U16 t)) /\
  view_of U16 sub = [(66561%N, 2); (65533%N, 1); (32%N, 1); (65533%N, 1); (1488%N, 1); (128512%N, 2)] /\
  valid_text U16 sub /\
  t_char_indices U16 t = [(0, 65%N); (1, 66561%N); (3, 65533%N); (4, 32%N); (5, 65533%N); (6, 1488%N); (7, 128512%N); (9, 66%N)] /\
  t_len U16 t = total lens.
Proof.
  cbv zeta. repeat split;
    match goal with
    | |- valid_text _ _ => unfold valid_text, is_u16; repeat (constructor; try reflexivity)
    | |- _ <= _ => vm_compute; repeat constructor
    | |- _ = _ => vm_compute; reflexivity
    end.
Qed.

Check view_of_ok : view_of_statement.
Check subrange_view_ok : subrange_view_statement.
Check text_view_exists : text_view_exists_statement.
Print Assumptions view_of_ok.
Print Assumptions subrange_view_ok.
Print Assumptions text_view_exists.
