(* Props/C10.v — the property theorem and a non-vacuity example.
   BidiInfo::new analyses every paragraph independently:
   running it on the sub-range of one paragraph gives that paragraph's slice of the classes and
   levels and the same paragraph level; on a text that is one paragraph ParagraphBidiInfo::new
   reports the same classes, levels and paragraph level. *)
From BidiVerif Require Import Base ModelText RefDs ModelResolve Stmts Stmts2 Stmts6.
From BidiVerif.Proofs Require Import ParaIndep.
From BidiVerif.Props Require Import LengthIndependence.

Theorem C10_paragraph_independence : C10_statement.
Proof. exact (c10_assembly C07_C08_constructors_thm). Qed.

(* non-vacuity: UTF-8 text   FSI alef PDI a LF | RLE b alef PS | alef bet 1
   paragraph 1 (units 0..10):  the FSI (3 units) finds alef and is reported as RLI; level 0 (a);
   paragraph 2 (units 10..19): the embedding opened by RLE is still open at the separator U+2029
                               (3 units); level 0 (b);
   paragraph 3 (units 19..24): starts with alef -> level 1; no trailing separator.
   Every paragraph analysed on its own sub-range gives the corresponding slices; the third paragraph
   as a text of its own is a single paragraph and ParagraphBidiInfo agrees on it.  Sub-ranges off a
   character boundary panic. *)
Example C10_three_paragraphs :
  let text := [0x2068; 0x5D0; 0x2069; 0x61; 0x0A; 0x202B; 0x62; 0x5D0; 0x2029; 0x5D0; 0x5D1; 0x31]%N in
  valid_text U8 text /\ fsi_proviso U8 ucd16_ds (view_of U8 text) /\ dir3 None /\
  map (fun ch => ds_class ucd16_ds (fst ch)) (view_of U8 text)
    = [FSI; R; PDI; L; B; RLE; L; R; B; R; R; EN] /\
  t_subrange 4 U8 text 10 20 = Panic 4 /\
  exists b,
    bidi_info_new U8 ucd16_ds text None = Ok b /\
    bi_classes b = [RLI; RLI; RLI; R; R; PDI; PDI; PDI; L; B;
                    RLE; RLE; RLE; L; R; R; B; B; B;
                    R; R; R; R; EN] /\
    bi_levels b = [0; 0; 0; 1; 1; 0; 0; 0; 0; 0;
                   0; 0; 0; 2; 1; 1; 0; 0; 0;
                   1; 1; 1; 1; 2] /\
    bi_paras b = [{| p_start := 0; p_end := 10; p_level := 0 |};
                  {| p_start := 10; p_end := 19; p_level := 0 |};
                  {| p_start := 19; p_end := 24; p_level := 1 |}] /\
    (* the conclusion of C10, first part *)
    Forall (fun p =>
              exists sub sb,
                t_subrange 4 U8 text (p_start p) (p_end p) = Ok sub /\
                bidi_info_new U8 ucd16_ds sub None = Ok sb /\
                bi_classes sb = firstn (p_end p - p_start p) (skipn (p_start p) (bi_classes b)) /\
                bi_levels sb = firstn (p_end p - p_start p) (skipn (p_start p) (bi_levels b)) /\
                bi_paras sb = [{| p_start := 0; p_end := p_end p - p_start p; p_level := p_level p |}])
           (bi_paras b) /\
    (* second part, on the third paragraph as a text of its own *)
    exists sub3 b3 pb,
      t_subrange 4 U8 text 19 24 = Ok sub3 /\ sub3 = [0x5D0; 0x5D1; 0x31]%N /\
      bidi_info_new U8 ucd16_ds sub3 None = Ok b3 /\ length (bi_paras b3) <= 1 /\
      para_bidi_info_new U8 ucd16_ds sub3 None = Ok pb /\
      pb_classes pb = bi_classes b3 /\ pb_levels pb = bi_levels b3 /\
      pb_classes pb = [R; R; R; R; EN] /\ pb_levels pb = [1; 1; 1; 1; 2] /\
      match bi_paras b3 with [q] => pb_level pb = p_level q /\ pb_level pb = 1 | _ => False end.
Proof.
  intros text.
  split; [exact I|].
  split.
  { unfold fsi_proviso.
    assert (Ec : view_of U8 text = [(8296%N, 3); (1488%N, 2); (8297%N, 3); (97%N, 1); (10%N, 1);
                                    (8235%N, 3); (98%N, 1); (1488%N, 2); (8233%N, 3);
                                    (1488%N, 2); (1489%N, 2); (49%N, 1)])
      by (vm_compute; reflexivity).
    rewrite Ec.
    repeat (apply Forall_cons;
            [vm_compute; first [intros _; reflexivity | intros X; discriminate X]|]).
    apply Forall_nil. }
  split; [left; reflexivity|].
  split; [vm_compute; reflexivity|].
  split; [vm_compute; reflexivity|].
  eexists. split; [vm_compute; reflexivity|].
  cbn [bi_classes bi_levels bi_paras].
  split; [reflexivity|]. split; [reflexivity|]. split; [reflexivity|].
  split.
  - repeat (apply Forall_cons;
            [eexists; eexists; split; [vm_compute; reflexivity|];
             split; [vm_compute; reflexivity|];
             repeat split; vm_compute; reflexivity|]).
    apply Forall_nil.
  - eexists. eexists. eexists.
    split; [vm_compute; reflexivity|]. split; [reflexivity|].
    split; [vm_compute; reflexivity|]. split; [vm_compute; repeat constructor|].
    split; [vm_compute; reflexivity|].
    repeat split; vm_compute; reflexivity.
Qed.

Check C10_paragraph_independence : C10_statement.
Print Assumptions C10_paragraph_independence.
