(* Props/CSAssemble.v — the assembly theorems and examples on a text defined here:
   the ASSEMBLY of C01 (resolved levels follow UAX #9)
   from the per-stage statements of Stmts6.v, as implications between pinned Props.
     cs_para_assembly   : the stage statements give CS_para (one paragraph, character level);
     c01_char_assembly  : CS_para and CS_flags give C01 for both constructors at character level;
     c01_final_assembly : with (proved) length independence, C01 in judge form for every encoding;
     c11_final_assembly : with (proved) C07/C08, C11 in judge form.
   CS_runs', CS_sequences', CS_weak', CS_neutral' (Proofs/CSAssemble.v) spell out three clauses of the
   statements of Stmts6.v (third conjunct of runs_bd7; live positions hold no X9-removed class on entry
   to the weak stage; the neutral stage meets only NI classes and L, R, EN, AN at live positions).
   CS_weak' and CS_neutral' are convertible with CS_weak and CS_neutral, and runs_bd7x extra3 equals
   runs_bd7 (CSAssemble.runs_bd7_extra3), so cs_para_assembly, cs_para_assembly_mixed and
   cs_para_assembly_pinned differ only in how their hypotheses are written. *)
From BidiVerif Require Import Base ConstsGen ModelText RefDs ModelResolve Spec Obs Judge StageRel Stmts Stmts2 Stmts5 Stmts6.
From BidiVerif.Proofs Require Import CSAssemble C01Assemble.

Theorem cs_para_assembly :
  CS_runs' -> CS_sequences' -> CS_weak' -> CS_neutral' -> CS_levels -> CS_shortcut -> CS_para.
Proof. exact cs_para_from. Qed.

Theorem cs_para_assembly_pinned :
  CS_runs -> CS_sequences -> CS_weak -> CS_neutral -> CS_levels -> CS_shortcut -> CS_para.
Proof. exact cs_para_from_pinned. Qed.

Theorem cs_para_assembly_mixed :
  CS_runs -> CS_sequences -> CS_weak' -> CS_neutral' -> CS_levels -> CS_shortcut -> CS_para.
Proof. exact cs_para_from_mixed. Qed.

Theorem c01_char_assembly : CS_para -> CS_flags -> C01_char.
Proof. exact c01_char_from. Qed.

Theorem c01_final_assembly : C01_char -> C01_final.
Proof. exact c01_final_from. Qed.

Theorem c11_final_assembly : C01_final -> C11_final.
Proof. exact c11_final_from. Qed.

(* two paragraphs:   a RLE alef 1 PDF sp LRI ( bet ) sp 2 PDI LF | alef sp RLI ( b ) 1 2 PDI a
   paragraph 1 (level 0): an embedding (RLE .. PDF, removed by X9), an isolate containing a bracket
   pair around an R character and a number; paragraph 2 (level 1): an RLI with a bracket pair around
   an L character and a number *)
Definition ex_cps : list N :=
  [97; 8235; 1488; 49; 8236; 32; 8294; 40; 1489; 41; 32; 50; 8297; 10;
   1488; 32; 8295; 40; 98; 41; 49; 50; 8297; 97]%N.
Definition ex_q1 : list N := firstn 14 ex_cps.
Definition ex_q2 : list N := skipn 14 ex_cps.

(* the hypotheses of cs_para_assembly on this input: every stage of the model agrees with the
   specification's stage (StageRel.stage_check_para evaluates the conclusions of CS_runs, CS_sequences,
   CS_weak, CS_neutral, CS_levels on the paragraph), and the conclusion of CS_para: model = spec *)
Example cs_para_example :
  map (ds_class ucd16_ds) ex_cps
    = [L; RLE; R; EN; PDF; WS; LRI; ON; R; ON; WS; EN; PDI; B; R; WS; RLI; ON; L; ON; EN; EN; PDI; L] /\
  stage_check_para ucd16_ds ex_q1 None = 0 /\ stage_check_para ucd16_ds ex_q2 None = 0 /\
  let cls1 := map (ds_class ucd16_ds) ex_q1 in
  let brk1 := map (ds_bracket ucd16_ds) ex_q1 in
  let cls2 := map (ds_class ucd16_ds) ex_q2 in
  let brk2 := map (ds_bracket ucd16_ds) ex_q2 in
  single_para cls1 /\ single_para cls2 /\
  Spec.para_level cls1 None = 0 /\ Spec.para_level cls2 None = 1 /\
  snd (resolve_paragraph cls1 brk1 None)
    = [Some 0; None; Some 1; Some 2; None; Some 0; Some 0; Some 2; Some 3; Some 2; Some 2; Some 4; Some 0; Some 0] /\
  compute_bidi_info_for_para U32 ucd16_ds 0 (forallb pure_ltr_class cls1) (existsb is_isolate_init cls1)
                             ex_q1 (reported_classes cls1)
    = Ok [0; 0; 1; 2; 2; 0; 0; 2; 3; 2; 2; 4; 0; 0] /\
  fill_removed 0 (snd (resolve_paragraph cls1 brk1 None)) = [0; 0; 1; 2; 2; 0; 0; 2; 3; 2; 2; 4; 0; 0] /\
  compute_bidi_info_for_para U32 ucd16_ds 1 (forallb pure_ltr_class cls2) (existsb is_isolate_init cls2)
                             ex_q2 (reported_classes cls2)
    = Ok [1; 1; 1; 3; 4; 3; 4; 4; 1; 2] /\
  fill_removed 1 (snd (resolve_paragraph cls2 brk2 None)) = [1; 1; 1; 3; 4; 3; 4; 4; 1; 2].
Proof.
  split; [vm_compute; reflexivity|]. split; [vm_compute; reflexivity|]. split; [vm_compute; reflexivity|].
  intros cls1 brk1 cls2 brk2.
  split.
  { intros i Hi. assert (E : length cls1 = 14) by (vm_compute; reflexivity). rewrite E in Hi.
    do 13 (destruct i as [|i]; [vm_compute; discriminate|]). exfalso. lia. }
  split.
  { intros i Hi. assert (E : length cls2 = 10) by (vm_compute; reflexivity). rewrite E in Hi.
    do 9 (destruct i as [|i]; [vm_compute; discriminate|]). exfalso. lia. }
  vm_compute; repeat split.
Qed.

(* C01 at character level on the whole text: model levels = specification levels, for BidiInfo and
   (second paragraph alone, forced LTR) for ParagraphBidiInfo *)
Definition ex_c : tcase :=
  {| tc_enc := U32; tc_ds := ucd16_ds; tc_text := ex_cps; tc_dir := None; tc_lines := [] |}.
Definition ex_c2 : tcase :=
  {| tc_enc := U32; tc_ds := ucd16_ds; tc_text := ex_q2; tc_dir := Some 0; tc_lines := [] |}.

Example c01_char_example :
  dir3 None /\ dir3 (Some 0) /\
  (exists b, bidi_info_new U32 ucd16_ds ex_cps None = Ok b /\
             bi_levels b = [0; 0; 1; 2; 2; 0; 0; 2; 3; 2; 2; 4; 0; 0; 1; 1; 1; 3; 4; 3; 4; 4; 1; 2] /\
             flat_map sp_levels (spec_text ex_c) = bi_levels b /\
             map (fun p => (p_start p, p_end p, p_level p)) (bi_paras b) = [(0, 14, 0); (14, 24, 1)] /\
             levels_follow_spec (spec_text ex_c) (bi_levels b) = true) /\
  is_single_paragraph ex_c = false /\ is_single_paragraph ex_c2 = true /\
  (exists p, para_bidi_info_new U32 ucd16_ds ex_q2 (Some 0) = Ok p /\
             pb_levels p = [1; 0; 0; 1; 2; 1; 2; 2; 0; 0] /\
             flat_map sp_levels (spec_single ex_c2) = pb_levels p /\
             levels_follow_spec (spec_single ex_c2) (pb_levels p) = true).
Proof.
  split; [left; reflexivity|]. split; [right; left; reflexivity|].
  split; [eexists; split; [vm_compute; reflexivity | vm_compute; repeat split]|].
  split; [vm_compute; reflexivity|]. split; [vm_compute; reflexivity|].
  eexists; split; [vm_compute; reflexivity | vm_compute; repeat split].
Qed.

(* the final judge form on the same text in UTF-8 (RLE, PDF, LRI, RLI, PDI take 3 units, alef and
   bet 2), and on a text that reaches the depth limit (70 nested RLE: overflow counters non-zero) *)
Definition ex_c8 : tcase :=
  {| tc_enc := U8; tc_ds := ucd16_ds; tc_text := ex_cps; tc_dir := None; tc_lines := [] |}.
Definition ex_deep : tcase :=
  {| tc_enc := U8; tc_ds := ucd16_ds; tc_text := repeat 8235%N 70 ++ [1488; 49; 97]%N;
     tc_dir := None; tc_lines := [] |}.

Example c01_c11_final_example :
  valid_case ex_c8 /\ valid_case ex_deep /\
  (exists b, bidi_info_new U8 ucd16_ds ex_cps None = Ok b /\
             bi_levels b = [0; 0; 0; 0; 1; 1; 2; 2; 2; 2; 0; 0; 0; 0; 2; 3; 3; 2; 2; 4; 0; 0; 0; 0;
                            1; 1; 1; 1; 1; 1; 3; 4; 3; 4; 4; 1; 1; 1; 2]) /\
  C01_judge ex_c8 (model_obs false ex_c8) = true /\ C11_judge ex_c8 (model_obs false ex_c8) = true /\
  case_reaches_limits ex_c8 = false /\ case_reaches_limits ex_deep = true /\
  C01_judge ex_deep (model_obs false ex_deep) = true /\ C11_judge ex_deep (model_obs false ex_deep) = true.
Proof.
  assert (V : forall t, fsi_proviso U8 ucd16_ds (map (fun c => (c, len_utf8 c)) t) ->
                        valid_case {| tc_enc := U8; tc_ds := ucd16_ds; tc_text := t;
                                      tc_dir := None; tc_lines := [] |}).
  { intros t Hf. unfold valid_case. cbn [tc_enc tc_text tc_ds tc_dir tc_lines].
    split; [left; reflexivity|]. split; [exact I|]. split; [exact Hf|].
    split; [left; reflexivity | constructor]. }
  assert (P : forall t, forallb (fun ch : N * nat =>
                          negb (ds_class ucd16_ds (fst ch) =c FSI) || (snd ch =? char_len U8 fc_FSI))
                        (map (fun c => (c, len_utf8 c)) t) = true ->
                        fsi_proviso U8 ucd16_ds (map (fun c => (c, len_utf8 c)) t)).
  { intros t H. unfold fsi_proviso. apply Forall_forall. intros ch Hin.
    rewrite forallb_forall in H. specialize (H ch Hin). intros E. rewrite E in H.
    cbn [ceq bclass_beq negb orb] in H. apply Nat.eqb_eq. exact H. }
  split; [apply (V ex_cps), P; vm_compute; reflexivity|].
  split; [apply (V (repeat 8235%N 70 ++ [1488; 49; 97]%N)), P; vm_compute; reflexivity|].
  split; [eexists; split; vm_compute; reflexivity|].
  vm_compute; repeat split.
Qed.

Check cs_para_from :
  CS_runs' -> CS_sequences' -> CS_weak' -> CS_neutral' -> CS_levels -> CS_shortcut -> CS_para.
Check cs_para_from_pinned :
  CS_runs -> CS_sequences -> CS_weak -> CS_neutral -> CS_levels -> CS_shortcut -> CS_para.
Check cs_para_from_mixed :
  CS_runs -> CS_sequences -> CS_weak' -> CS_neutral' -> CS_levels -> CS_shortcut -> CS_para.
Check c01_char_from : CS_para -> CS_flags -> C01_char.
Check c01_final_from : C01_char -> C01_final.
Check c11_final_from : C01_final -> C11_final.
Check cs_para_assembly :
  CS_runs' -> CS_sequences' -> CS_weak' -> CS_neutral' -> CS_levels -> CS_shortcut -> CS_para.
Check c01_char_assembly : CS_para -> CS_flags -> C01_char.
Check c01_final_assembly : C01_char -> C01_final.
Check c11_final_assembly : C01_final -> C11_final.
Print Assumptions cs_para_assembly.
Print Assumptions cs_para_assembly_pinned.
Print Assumptions cs_para_assembly_mixed.
Print Assumptions c01_char_assembly.
Print Assumptions c01_final_assembly.
Print Assumptions c11_final_assembly.
