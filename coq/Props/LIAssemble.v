(* Props/LIAssemble.v — the property theorems and a non-vacuity example.  LENGTH INDEPENDENCE:
   (a) [li_levels]: implicit::resolve_levels and assign_levels_to_removed_chars on the per-unit
       expansion of character-level vectors give the expansion of the character-level result;
   (b) the ASSEMBLY of the stage statements: one paragraph from its five stages, and the two
       constructors from compute_initial_info and one paragraph. *)
From BidiVerif Require Import Base ModelText RefDs ModelResolve Judge Stmts2 Stmts3.
From BidiVerif.Proofs Require Import LIAssemble.

Theorem li_levels : LI_levels.
Proof. exact li_levels_proof. Qed.

Theorem li_para_assembly :
  LI_explicit -> LI_sequences -> LI_weak -> LI_neutral -> LI_levels -> LI_para.
Proof. exact li_para_from_stages. Qed.

Theorem li_bidi_info_assembly : LI_initial -> LI_para -> LI_bidi_info.
Proof. exact li_bidi_info_from. Qed.

Theorem li_para_bidi_info_assembly : LI_initial -> LI_para -> LI_para_bidi_info.
Proof. exact li_para_bidi_info_from. Qed.

(* non-vacuity: UTF-8 text with characters of 1, 2, 3 and 4 units, two paragraphs, an embedding, an
   isolate, a bracket pair, an NSM and a number with a separator:
   a RLE alef 1 PDF LF | LRI ( b ) PDI U+10000 beh U+0300 2 + 3
   The hypotheses of LI_levels (both conjuncts), of LI_para_bidi_info and of LI_bidi_info hold, and
   the conclusions are checked by computation on this input. *)
Example li_assemble_example :
  let t := [97; 8235; 1488; 49; 8236; 10; 8294; 40; 98; 41; 8297; 65536; 1576; 768; 50; 43; 51]%N in
  let chars := view_of U8 t in
  let cps := map fst chars in
  let lens := map snd chars in
  let pc := [L; BN; R; EN; BN; B; LRI; ON; L; ON; PDI; L; R; R; AN; ES; AN] in
  let oc := [L; RLE; R; EN; PDF; B; LRI; ON; L; ON; PDI; L; AL; NSM; EN; ES; EN] in
  let lv := [0; 0; 1; 1; 1; 0; 0; 2; 2; 2; 0; 0; 0; 0; 0; 0; 0] in
  valid_text U8 t /\ lens = [1; 3; 2; 1; 3; 1; 3; 1; 1; 1; 3; 4; 2; 2; 1; 1; 1] /\
  length pc = length chars /\ length oc = length chars /\ length lv = length chars /\
  resolve_levels pc lv = Ok [0; 0; 1; 2; 1; 0; 0; 2; 2; 2; 0; 0; 1; 1; 2; 0; 2] /\
  resolve_levels (expand lens pc) (expand lens lv) =
    Ok (expand lens [0; 0; 1; 2; 1; 0; 0; 2; 2; 2; 0; 0; 1; 1; 2; 0; 2]) /\
  assign_levels_to_removed_chars 0 oc [0; 0; 1; 2; 1; 0; 0; 2; 2; 2; 0; 0; 1; 1; 2; 0; 2] =
    Ok [0; 0; 1; 2; 2; 0; 0; 2; 2; 2; 0; 0; 1; 1; 2; 0; 2] /\
  assign_levels_to_removed_chars 0 (expand lens oc)
      (expand lens [0; 0; 1; 2; 1; 0; 0; 2; 2; 2; 0; 0; 1; 1; 2; 0; 2]) =
    Ok (expand lens [0; 0; 1; 2; 2; 0; 0; 2; 2; 2; 0; 0; 1; 1; 2; 0; 2]) /\
  bidi_info_new U32 ucd16_ds cps None =
    Ok {| bi_classes := oc;
          bi_levels := [0; 0; 1; 2; 2; 0; 0; 2; 2; 2; 0; 0; 1; 1; 2; 1; 2];
          bi_paras := [{| p_start := 0; p_end := 6; p_level := 0 |};
                       {| p_start := 6; p_end := 17; p_level := 0 |}] |} /\
  bidi_info_new U8 ucd16_ds t None =
    Ok {| bi_classes := expand lens oc;
          bi_levels := expand lens [0; 0; 1; 2; 2; 0; 0; 2; 2; 2; 0; 0; 1; 1; 2; 1; 2];
          bi_paras := map (upara lens) [{| p_start := 0; p_end := 6; p_level := 0 |};
                                        {| p_start := 6; p_end := 17; p_level := 0 |}] |} /\
  para_bidi_info_new U32 ucd16_ds cps (Some 1) =
    Ok {| pb_classes := oc;
          pb_levels := [2; 2; 3; 4; 4; 1; 1; 2; 2; 2; 1; 2; 1; 1; 2; 1; 2];
          pb_level := 1; pb_pure := false |} /\
  para_bidi_info_new U8 ucd16_ds t (Some 1) =
    Ok {| pb_classes := expand lens oc;
          pb_levels := expand lens [2; 2; 3; 4; 4; 1; 1; 2; 2; 2; 1; 2; 1; 1; 2; 1; 2];
          pb_level := 1; pb_pure := false |}.
Proof. vm_compute. repeat split. Qed.

Check li_levels : LI_levels.
Check li_para_assembly : LI_explicit -> LI_sequences -> LI_weak -> LI_neutral -> LI_levels -> LI_para.
Check li_bidi_info_assembly : LI_initial -> LI_para -> LI_bidi_info.
Check li_para_bidi_info_assembly : LI_initial -> LI_para -> LI_para_bidi_info.
Print Assumptions li_levels.
Print Assumptions li_para_assembly.
Print Assumptions li_bidi_info_assembly.
Print Assumptions li_para_bidi_info_assembly.
