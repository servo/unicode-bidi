(* Props/CSLevels.v — the property theorem and a non-vacuity example.
   Rules I1/I2 and the treatment of X9-removed characters:
   resolve_levels equals the pointwise Spec.implicit_level when every level is <= 125 (the explicit
   maximum), and assign_levels_to_removed_chars equals Spec.fill_removed of the level list with the
   removed positions masked. *)
From BidiVerif Require Import Base ModelResolve Spec StageRel Stmts6.
From BidiVerif.Proofs Require Import CSLevels.

Theorem cs_levels : CS_levels.
Proof. exact cs_levels_proof. Qed.

(* non-vacuity: 7 positions with levels 0,1,1,2,125,124,0 (all <= 125); I1/I2 raise R at an even level by
   one, EN/AN at an even level by two, L/EN/AN at an odd level by one (125 -> 126, 124 -> 126); then the
   removed positions (RLE, BN, PDF) take the level of the preceding character, the first the paragraph
   level *)
Example cs_levels_example :
  let pc := [R; L; EN; AN; AN; EN; ON] in
  let lv := [0; 1; 1; 2; 125; 124; 0] in
  let oc := [RLE; L; BN; AN; AN; PDF; ON] in
  let lv2 := [1; 2; 2; 4; 126; 126; 0] in
  length pc = length lv /\ Forall (fun l => l <= 125) lv /\ length oc = length lv2 /\
  resolve_levels pc lv = Ok lv2 /\ map2_implicit lv pc = lv2 /\
  assign_levels_to_removed_chars 1 oc lv2 = Ok [1; 2; 2; 4; 126; 126; 0] /\
  fill_removed 1 (map (fun p => if removed_by_x9 (fst p) then None else Some (snd p)) (combine oc lv2))
    = [1; 2; 2; 4; 126; 126; 0].
Proof. vm_compute. repeat split; repeat constructor. Qed.

Check cs_levels : CS_levels.
Print Assumptions cs_levels.
