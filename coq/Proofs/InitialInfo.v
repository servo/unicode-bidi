(* Proofs/InitialInfo.v — compute_initial_info (lib.rs:304-445) against P1-P3 and X5c (the FSI
   resolution reported in the class vector).
   Specification side: [fsi_strong] is a depth-counter scanner [fsu] over the rest of the paragraph, and
   [reported_classes] the structural function [rep].  A scanner [cstep]/[cscan] over the classes of one
   paragraph (reported classes so far, stack of open initiators, known level) computes [rep] and
   [para_level]; what an open FSI will become is known only from the rest of the paragraph ([patch]).
   On the character list the model's [ii_step] is [cstep] ([Rel], [ii_step_chars]); the paragraphs follow
   by induction along [split_paragraphs_from] ([initial_chars_split]).  A text in any encoding inherits
   the result through [compute_initial_info_units]. *)
From BidiVerif Require Import Base ModelText ModelResolve Spec Judge Stmts Stmts2 Stmts3 Stmts6.
From BidiVerif.Proofs Require Import ListLib Units BaseDir InitialStep InitialUnits.

(* first strong character directly inside an isolate: [d] = number of initiators opened (and not yet
   closed) after the isolate's own initiator; stops at the isolate's matching PDI *)
Fixpoint fsu (d : nat) (l : list bclass) : option bclass :=
  match l with
  | [] => None
  | c :: t =>
    if is_init c then fsu (S d) t
    else if c =c PDI then (if d =? 0 then None else fsu (d - 1) t)
    else if is_strong c then (if d =? 0 then Some c else fsu d t)
    else fsu d t
  end.

Definition cv (o : option bclass) : bclass :=
  match o with Some L => LRI | Some _ => RLI | None => FSI end.

Fixpoint rep (l : list bclass) : list bclass :=
  match l with
  | [] => []
  | c :: t => (if c =c FSI then cv (fsu 0 t) else c) :: rep t
  end.

Lemma mp_ge l : forall d j k, match_pdi_from l d j = Some k -> j <= k.
Proof.
  induction l as [|c t IH]; intros d j k H; [discriminate|].
  cbn [match_pdi_from] in H.
  destruct (is_init c).
  - apply IH in H. lia.
  - destruct (c =c PDI).
    + destruct (d =? 1).
      * injection H as <-. lia.
      * apply IH in H. lia.
    + apply IH in H. lia.
Qed.

Lemma mp_firstn l : forall n d j,
  match_pdi_from (firstn n l) d j =
  match match_pdi_from l d j with
  | Some k => if k <? j + n then Some k else None
  | None => None
  end.
Proof.
  induction l as [|c t IH]; intros n d j.
  - rewrite firstn_nil. reflexivity.
  - destruct n as [|n].
    + rewrite firstn_O. change (match_pdi_from [] d j) with (@None nat).
      destruct (match_pdi_from (c :: t) d j) as [k|] eqn:E; [|reflexivity].
      apply mp_ge in E.
      assert (F : (k <? j + 0) = false) by (apply Nat.ltb_ge; lia).
      rewrite F. reflexivity.
    + cbn [firstn match_pdi_from].
      assert (X : forall d', match_pdi_from (firstn n t) d' (S j) =
                  match match_pdi_from t d' (S j) with
                  | Some k => if k <? j + S n then Some k else None
                  | None => None end).
      { intros d'. rewrite IH. replace (S j + n) with (j + S n) by lia. reflexivity. }
      destruct (is_init c); [apply X|].
      destruct (c =c PDI); [|apply X].
      destruct (d =? 1); [|apply X].
      assert (F : (j <? j + S n) = true) by (apply Nat.ltb_lt; lia).
      rewrite F. reflexivity.
Qed.

Lemma fsf_firstn fuel : forall cls i hi,
  first_strong_fuel fuel (firstn hi cls) i hi = first_strong_fuel fuel cls i hi.
Proof.
  induction fuel as [|f IH]; intros cls i hi; [reflexivity|].
  cbn [first_strong_fuel].
  destruct (hi <=? i) eqn:Hle; [reflexivity|].
  apply Nat.leb_gt in Hle.
  rewrite nth_error_firstn_lt by exact Hle.
  destruct (nth_error cls i) as [c|]; [|reflexivity].
  destruct (is_strong c); [reflexivity|].
  destruct (is_init c); [|apply IH].
  unfold matching_pdi.
  rewrite skipn_firstn_comm, mp_firstn.
  replace (S i + (hi - S i)) with hi by lia.
  destruct (match_pdi_from (skipn (S i) cls) 1 (S i)) as [k|]; [|reflexivity].
  destruct (k <? hi) eqn:Hk.
  - apply Nat.ltb_lt in Hk.
    assert (F : (hi <=? k) = false) by (apply Nat.leb_gt; lia).
    rewrite F. apply IH.
  - apply Nat.ltb_ge in Hk.
    assert (F : (hi <=? k) = true) by (apply Nat.leb_le; lia).
    rewrite F. reflexivity.
Qed.

Lemma first_strong_range cls lo hi : hi <= length cls ->
  first_strong cls lo hi = fs 0 (firstn (hi - lo) (skipn lo cls)).
Proof.
  intros H. unfold first_strong.
  rewrite <- fsf_firstn.
  assert (L : length (firstn hi cls) = hi) by (rewrite firstn_length; lia).
  rewrite <- L at 3.
  rewrite first_strong_fuel_fs by (rewrite L; lia).
  rewrite skipn_firstn_comm. reflexivity.
Qed.

Lemma mp_fsu l : forall k j,
  match match_pdi_from l (S k) j with
  | Some m => fsu k l = fs k (firstn (m - j) l)
  | None => fsu k l = fs k l
  end.
Proof.
  induction l as [|c t IH]; intros k j; [reflexivity|].
  cbn [match_pdi_from fsu].
  destruct (is_init c) eqn:Hi.
  - specialize (IH (S k) (S j)).
    destruct (match_pdi_from t (S (S k)) (S j)) as [m|] eqn:E.
    + apply mp_ge in E. replace (m - j) with (S (m - S j)) by lia.
      cbn [firstn fs]. rewrite Hi. exact IH.
    + cbn [fs]. rewrite Hi. exact IH.
  - destruct (c =c PDI) eqn:Hp.
    + destruct k as [|k].
      * cbn [Nat.eqb]. replace (j - j) with 0 by lia. reflexivity.
      * cbn [Nat.eqb]. specialize (IH k (S j)).
        replace (S (S k) - 1) with (S k) by lia.
        replace (S k - 1) with k by lia.
        destruct (match_pdi_from t (S k) (S j)) as [m|] eqn:E.
        -- apply mp_ge in E. replace (m - j) with (S (m - S j)) by lia.
           cbn [firstn fs]. rewrite Hi, Hp. replace (S k - 1) with k by lia. exact IH.
        -- cbn [fs]. rewrite Hi, Hp. replace (S k - 1) with k by lia. exact IH.
    + specialize (IH k (S j)).
      destruct (match_pdi_from t (S k) (S j)) as [m|] eqn:E.
      * apply mp_ge in E. replace (m - j) with (S (m - S j)) by lia.
        cbn [firstn fs]. rewrite Hi, Hp.
        destruct (is_strong c); [destruct (k =? 0); [reflexivity|exact IH] | exact IH].
      * cbn [fs]. rewrite Hi, Hp.
        destruct (is_strong c); [destruct (k =? 0); [reflexivity|exact IH] | exact IH].
Qed.

Lemma fsi_strong_fsu cls i : fsi_strong cls i = fsu 0 (skipn (S i) cls).
Proof.
  unfold fsi_strong, matching_pdi.
  pose proof (mp_fsu (skipn (S i) cls) 0 (S i)) as M.
  pose proof (match_pdi_fs (skipn (S i) cls) 1 (S i) (le_n 1)) as F.
  destruct (match_pdi_from (skipn (S i) cls) 1 (S i)) as [m|].
  - destruct F as (F1 & F2 & _). rewrite skipn_length in F2.
    rewrite first_strong_range by lia. symmetry. exact M.
  - rewrite first_strong_range by lia.
    rewrite <- (skipn_length (S i) cls), firstn_all. symmetry. exact M.
Qed.

Lemma reported_rep_from l : forall pre,
  map (fun ic : nat * bclass => let '(i, c) := ic in
         if c =c FSI then match fsi_strong (pre ++ l) i with
                          | Some L => LRI | Some _ => RLI | None => FSI end
         else c)
      (combine (seq (length pre) (length l)) l) = rep l.
Proof.
  induction l as [|c t IH]; intros pre; [reflexivity|].
  cbn [length seq combine map rep]. f_equal.
  - destruct (c =c FSI); [|reflexivity].
    rewrite fsi_strong_fsu.
    replace (skipn (S (length pre)) (pre ++ c :: t)) with t; [reflexivity|].
    change (c :: t) with ([c] ++ t). rewrite app_assoc.
    replace (S (length pre)) with (length (pre ++ [c])) by (rewrite app_length; cbn; lia).
    rewrite skipn_app, skipn_all, Nat.sub_diag. reflexivity.
  - specialize (IH (pre ++ [c])). rewrite <- app_assoc in IH. cbn [app] in IH.
    rewrite app_length in IH. cbn [length] in IH.
    replace (length pre + 1) with (S (length pre)) in IH by lia. exact IH.
Qed.

Lemma reported_rep cls : reported_classes cls = rep cls.
Proof. exact (reported_rep_from cls []). Qed.

Record cstate := { c_rc : list bclass; c_stk : list nat; c_pl : option nat }.

Definition conv (c : bclass) : bclass := if c =c L then LRI else RLI.
Definition lvl_of (c : bclass) : nat := if c =c L then 0 else 1.

Definition cstep (cs : cstate) (c : bclass) : cstate :=
  if is_strong c then
    match c_stk cs with
    | s :: _ =>
      {| c_rc := (if nth s (c_rc cs) L =c FSI then setnth (c_rc cs) s (conv c) else c_rc cs) ++ [c];
         c_stk := c_stk cs; c_pl := c_pl cs |}
    | [] =>
      {| c_rc := c_rc cs ++ [c]; c_stk := [];
         c_pl := match c_pl cs with None => Some (lvl_of c) | Some l => Some l end |}
    end
  else if is_init c then
    {| c_rc := c_rc cs ++ [c]; c_stk := length (c_rc cs) :: c_stk cs; c_pl := c_pl cs |}
  else if c =c PDI then
    {| c_rc := c_rc cs ++ [c]; c_stk := tl (c_stk cs); c_pl := c_pl cs |}
  else {| c_rc := c_rc cs ++ [c]; c_stk := c_stk cs; c_pl := c_pl cs |}.

Definition cscan (cs : cstate) (l : list bclass) : cstate := fold_left cstep l cs.

Definition stk_lt (n : nat) (stk : list nat) : Prop := Forall (fun s => s < n) stk.

(* what the open FSIs will become, given the rest of the paragraph *)
Fixpoint patch (rc : list bclass) (stk : list nat) (k : nat) (rest : list bclass) : list bclass :=
  match stk with
  | [] => rc
  | s :: stk' =>
    patch (if nth s rc L =c FSI then lset rc s (cv (fsu k rest)) else rc) stk' (S k) rest
  end.

Lemma patch_nil stk : forall rc k, patch rc stk k [] = rc.
Proof.
  induction stk as [|s stk IH]; intros rc k; [reflexivity|]. cbn [patch fsu cv].
  destruct (nth s rc L =c FSI) eqn:E; [|apply IH]. apply ceq_eq in E. rewrite <- E, lset_nth. apply IH.
Qed.

Lemma patch_app (x : bclass) stk : forall rc k k' t t',
  stk_lt (length rc) stk -> (forall j, fsu (k + j) t = fsu (k' + j) t') ->
  patch (rc ++ [x]) stk k t = patch rc stk k' t' ++ [x].
Proof.
  induction stk as [|s stk IH]; intros rc k k' t t' Hs Hf; [reflexivity|].
  inversion Hs as [|? ? Hs1 Hs2]; subst.
  cbn [patch]. rewrite app_nth1 by exact Hs1.
  assert (E : fsu k t = fsu k' t').
  { specialize (Hf 0). rewrite !Nat.add_0_r in Hf. exact Hf. }
  assert (Hf' : forall j, fsu (S k + j) t = fsu (S k' + j) t').
  { intros j. specialize (Hf (S j)). rewrite !Nat.add_succ_r in Hf. exact Hf. }
  destruct (nth s rc L =c FSI).
  - rewrite lset_app_l by exact Hs1. rewrite E.
    apply IH; [|exact Hf'].
    unfold stk_lt. rewrite lset_length. exact Hs2.
  - apply IH; [exact Hs2 | exact Hf'].
Qed.

Lemma stk_lt_mono n m stk : n <= m -> stk_lt n stk -> stk_lt m stk.
Proof. intros H. apply Forall_impl. intros a Ha. lia. Qed.

Lemma cstep_wf cs c : stk_lt (length (c_rc cs)) (c_stk cs) ->
  stk_lt (length (c_rc (cstep cs c))) (c_stk (cstep cs c)).
Proof.
  intros H. unfold cstep.
  destruct (is_strong c).
  - destruct (c_stk cs) as [|s stk] eqn:Es; cbn [c_rc c_stk].
    + constructor.
    + rewrite app_length.
      destruct (nth s (c_rc cs) L =c FSI); rewrite ?setnth_lset, ?lset_length;
        (eapply stk_lt_mono; [|exact H]; lia).
  - destruct (is_init c); [|destruct (c =c PDI)]; cbn [c_rc c_stk]; rewrite app_length; cbn [length].
    + constructor; [lia|]. eapply stk_lt_mono; [|exact H]. lia.
    + destruct (c_stk cs) as [|s stk]; cbn [tl]; [constructor|].
      inversion H; subst. eapply stk_lt_mono; [|eassumption]. lia.
    + eapply stk_lt_mono; [|exact H]. lia.
Qed.

Lemma cscan_rc rest : forall cs, stk_lt (length (c_rc cs)) (c_stk cs) ->
  c_rc (cscan cs rest) = patch (c_rc cs) (c_stk cs) 0 rest ++ rep rest.
Proof.
  induction rest as [|c t IH]; intros cs Hwf.
  - cbn [cscan fold_left rep]. rewrite app_nil_r, patch_nil. reflexivity.
  - change (cscan cs (c :: t)) with (cscan (cstep cs c) t).
    rewrite IH by (apply cstep_wf; exact Hwf).
    cbn [rep]. change ((if c =c FSI then cv (fsu 0 t) else c) :: rep t)
      with ([if c =c FSI then cv (fsu 0 t) else c] ++ rep t).
    rewrite app_assoc. f_equal.
    unfold cstep.
    destruct (is_strong c) eqn:Hstr.
    + assert (Hf : c =c FSI = false) by (destruct c; try discriminate; reflexivity).
      assert (Hi : is_init c = false) by (destruct c; try discriminate; reflexivity).
      assert (Hp : c =c PDI = false) by (destruct c; try discriminate; reflexivity).
      rewrite Hf.
      destruct (c_stk cs) as [|s stk] eqn:Es; cbn [c_rc c_stk]; [reflexivity|].
      inversion Hwf as [|? ? Hs1 Hs2]; subst.
      cbn [patch fsu]. rewrite Hi, Hp, Hstr. cbn [Nat.eqb].
      assert (Ecv : cv (Some c) = conv c) by (destruct c; try discriminate; reflexivity).
      rewrite Ecv, setnth_lset.
      set (rc1 := if nth s (c_rc cs) L =c FSI then lset (c_rc cs) s (conv c) else c_rc cs).
      assert (L1 : length rc1 = length (c_rc cs)).
      { unfold rc1. destruct (nth s (c_rc cs) L =c FSI); [apply lset_length | reflexivity]. }
      assert (N1 : nth s (rc1 ++ [c]) L =c FSI = false).
      { rewrite app_nth1 by lia. unfold rc1.
        destruct (nth s (c_rc cs) L =c FSI) eqn:E; [|exact E].
        rewrite nth_lset_eq by exact Hs1. destruct c; try discriminate; reflexivity. }
      rewrite N1.
      apply patch_app.
      * unfold stk_lt. rewrite L1. exact Hs2.
      * intros j. cbn [fsu]. rewrite Hi, Hp, Hstr. reflexivity.
    + destruct (is_init c) eqn:Hi.
      * cbn [c_rc c_stk patch].
        rewrite app_nth2 by lia. rewrite Nat.sub_diag. cbn [nth].
        assert (X : (if c =c FSI then lset (c_rc cs ++ [c]) (length (c_rc cs)) (cv (fsu 0 t))
                     else c_rc cs ++ [c]) = c_rc cs ++ [if c =c FSI then cv (fsu 0 t) else c]).
        { destruct (c =c FSI); [|reflexivity].
          rewrite <- (Nat.add_0_r (length (c_rc cs))), lset_app_r. reflexivity. }
        rewrite X.
        apply patch_app; [exact Hwf|].
        intros j. cbn [fsu]. rewrite Hi. reflexivity.
      * assert (Hf : c =c FSI = false) by (destruct c; try discriminate; reflexivity).
        rewrite Hf.
        destruct (c =c PDI) eqn:Hp; cbn [c_rc c_stk].
        -- destruct (c_stk cs) as [|s stk] eqn:Es; cbn [tl]; [reflexivity|].
           inversion Hwf as [|? ? Hs1 Hs2]; subst.
           cbn [patch fsu]. rewrite Hi, Hp. cbn [Nat.eqb cv].
           assert (Y : (if nth s (c_rc cs) L =c FSI then lset (c_rc cs) s FSI else c_rc cs) = c_rc cs).
           { destruct (nth s (c_rc cs) L =c FSI) eqn:E; [|reflexivity].
             apply ceq_eq in E. rewrite <- E. apply lset_nth. }
           rewrite Y.
           apply patch_app; [exact Hs2|].
           intros j. cbn [fsu]. rewrite Hi, Hp. cbn [Nat.add Nat.eqb].
           replace (S j - 1) with j by lia. reflexivity.
        -- apply patch_app; [exact Hwf|].
           intros j. cbn [fsu]. rewrite Hi, Hp, Hstr. reflexivity.
Qed.

Lemma cscan_pl rest : forall cs,
  c_pl (cscan cs rest) =
  match c_pl cs with
  | Some l => Some l
  | None => option_map lvl_of (fs (length (c_stk cs)) rest)
  end.
Proof.
  induction rest as [|c t IH]; intros cs.
  - cbn [cscan fold_left fs option_map]. destruct (c_pl cs); reflexivity.
  - change (cscan cs (c :: t)) with (cscan (cstep cs c) t).
    rewrite IH. unfold cstep. cbn [fs].
    destruct (is_strong c) eqn:Hstr.
    + assert (Hi : is_init c = false) by (destruct c; try discriminate; reflexivity).
      assert (Hp : c =c PDI = false) by (destruct c; try discriminate; reflexivity).
      rewrite Hi, Hp.
      destruct (c_stk cs) as [|s stk]; cbn [c_pl c_stk length Nat.eqb]; [|reflexivity].
      destruct (c_pl cs); reflexivity.
    + destruct (is_init c); [reflexivity|].
      destruct (c =c PDI); cbn [c_pl c_stk]; [|reflexivity].
      destruct (c_stk cs) as [|s stk]; cbn [tl length]; [reflexivity|].
      replace (S (length stk) - 1) with (length stk) by lia. reflexivity.
Qed.

Definition cs0 (d : option nat) : cstate := {| c_rc := []; c_stk := []; c_pl := d |}.

Lemma cscan_reported d cls : c_rc (cscan (cs0 d) cls) = reported_classes cls.
Proof. rewrite cscan_rc by constructor. rewrite reported_rep. reflexivity. Qed.

Lemma cscan_level d cls : opt_or (c_pl (cscan (cs0 d) cls)) 0 = para_level cls d.
Proof.
  rewrite cscan_pl. unfold para_level. cbn [cs0 c_pl c_stk length].
  destruct d as [x|]; [reflexivity|].
  rewrite first_strong_fs.
  destruct (fs 0 cls) as [c|] eqn:E; [|reflexivity].
  apply fs_strong in E. destruct c; try discriminate; reflexivity.
Qed.

(* nested FSIs: those at 0 and 6 meet no strong class before their PDI and stay FSI (inner isolates are skipped);
   the one at 5 meets AL and reads RLI, the one at 12 meets L and reads LRI *)
Example cscan_example :
  let cls := [FSI; ON; LRI; R; PDI; FSI; FSI; PDI; AL; PDI; EN; PDI; FSI; L; B] in
  c_rc (cscan (cs0 None) cls) = reported_classes cls /\
  reported_classes cls = [FSI; ON; LRI; R; PDI; RLI; FSI; PDI; AL; PDI; EN; PDI; LRI; L; B].
Proof. vm_compute. split; reflexivity. Qed.

Lemma cscan_snoc cs l k : cscan cs (l ++ [k]) = cstep (cscan cs l) k.
Proof. unfold cscan. rewrite fold_left_app. reflexivity. Qed.

Lemma cstep_len cs c : length (c_rc (cstep cs c)) = S (length (c_rc cs)).
Proof.
  unfold cstep. destruct (is_strong c); [destruct (c_stk cs); [|destruct (_ =c FSI)] | destruct (is_init c); [|destruct (c =c PDI)]];
    cbn [c_rc]; rewrite app_length, ?setnth_lset, ?lset_length; cbn [length]; lia.
Qed.

Lemma cscan_inv l : forall cs, stk_lt (length (c_rc cs)) (c_stk cs) ->
  stk_lt (length (c_rc (cscan cs l))) (c_stk (cscan cs l)) /\ length (c_rc (cscan cs l)) = length (c_rc cs) + length l.
Proof.
  induction l as [|c l IH]; intros cs H; [cbn; auto|].
  change (cscan cs (c :: l)) with (cscan (cstep cs c) l).
  destruct (IH (cstep cs c) (cstep_wf cs c H)) as [H1 H2]. rewrite cstep_len in H2. cbn [length]. split; [exact H1|lia].
Qed.

Definition flags_of (p : list bclass) : para_flags :=
  {| f_pure_ltr := forallb pure_ltr_class p; f_has_isolate := existsb is_isolate_init p |}.

Lemma flags_of_snoc p k : flags_of (p ++ [k]) =
  {| f_pure_ltr := if pure_ltr_class k then forallb pure_ltr_class p else false;
     f_has_isolate := if is_isolate_init k then true else existsb is_isolate_init p |}.
Proof.
  unfold flags_of. rewrite forallb_app, existsb_app. cbn [forallb existsb].
  destruct (pure_ltr_class k), (is_isolate_init k);
    rewrite ?andb_true_r, ?andb_false_r, ?orb_false_r, ?orb_true_r; reflexivity.
Qed.

Lemma ii_step_B e ds d st i c n : ds_class ds c = B -> n = char_len e c ->
  ii_step e ds true d st (i, c) =
  Ok {| ii_classes := ii_classes st ++ repeat B n; ii_stack := [];
        ii_para_start := i + n; ii_para_level := d; ii_pure := true; ii_iso := false;
        ii_paras := ii_paras st ++ [{| p_start := ii_para_start st; p_end := i + n;
                                      p_level := opt_or (ii_para_level st) 0 |}];
        ii_flags := ii_flags st ++ [{| f_pure_ltr := ii_pure st; f_has_isolate := ii_iso st |}] |}.
Proof. intros H ->. unfold ii_step. rewrite H. reflexivity. Qed.

Section Chars.
Variable ds : datasource.
Variable d : option nat.
Notation cls := (map (ds_class ds)).

(* the state inside a paragraph that starts at character P, after the characters [cur];
   D = class vector of the finished paragraphs *)
Record Rel (st : ii_state) (P : nat) (D : list bclass) (cur : list N) : Prop := {
  r_cls : ii_classes st = D ++ c_rc (cscan (cs0 d) (cls cur));
  r_lenD : length D = P;
  r_stk : ii_stack st = map (Nat.add P) (c_stk (cscan (cs0 d) (cls cur)));
  r_ps : ii_para_start st = P;
  r_pl : ii_para_level st = c_pl (cscan (cs0 d) (cls cur));
  r_flags : {| f_pure_ltr := ii_pure st; f_has_isolate := ii_iso st |} = flags_of (cls cur)
}.

Lemma Rel_start st P D :
  ii_classes st = D -> length D = P -> ii_stack st = [] -> ii_para_start st = P ->
  ii_para_level st = d -> ii_pure st = true -> ii_iso st = false -> Rel st P D [].
Proof.
  intros H1 H2 H3 H4 H5 H6 H7. constructor; cbn [map cscan fold_left cs0 c_rc c_stk c_pl]; try assumption.
  - rewrite H1. symmetry. apply app_nil_r.
  - rewrite H6, H7. reflexivity.
Qed.

Lemma ii_fix_chars st P D cs k :
  ii_classes st = D ++ c_rc cs -> length D = P -> ii_stack st = map (Nat.add P) (c_stk cs) ->
  stk_lt (length (c_rc cs)) (c_stk cs) ->
  ii_fix U32 st k (ii_classes st ++ [k]) = Ok (D ++ c_rc (cstep cs k)).
Proof.
  intros Hc HD Hs Hwf. unfold ii_fix, cstep. rewrite Hs, Hc.
  destruct (is_strong k).
  - destruct (c_stk cs) as [|s stk]; cbn [map c_rc]; [rewrite app_assoc; reflexivity|].
    pose proof (Forall_inv Hwf) as Hlt. cbn beta in Hlt.
    rewrite (get_some _ _ _ (nth s (c_rc cs) L)).
    2:{ rewrite <- app_assoc, <- HD, nth_error_app2, Nat.add_comm, Nat.add_sub by lia.
        rewrite nth_error_app1 by exact Hlt. apply nth_error_nth'. exact Hlt. }
    cbn [bind]. destruct (nth s (c_rc cs) L =c FSI); [|rewrite app_assoc; reflexivity].
    cbn [char_len range Nat.sub seq write_fsi]. rewrite Nat.add_0_r, upd_lset by (rewrite !app_length; lia).
    cbn [bind]. rewrite <- app_assoc, <- HD, lset_app_r, lset_app_l by exact Hlt. reflexivity.
  - destruct (is_init k); [|destruct (k =c PDI)]; cbn [c_rc]; rewrite app_assoc; reflexivity.
Qed.

Lemma ii_step_chars split st P D cur c :
  Rel st P D cur -> (ds_class ds c =c B) && split = false ->
  exists st', ii_step U32 ds split d st (P + length cur, c) = Ok st' /\ Rel st' P D (cur ++ [c]) /\
    ii_paras st' = ii_paras st /\ ii_flags st' = ii_flags st.
Proof.
  intros [Hc HD Hs Hps Hpl Hfl] HB. set (cs := cscan (cs0 d) (cls cur)) in *.
  destruct (cscan_inv (cls cur) (cs0 d) (Forall_nil _)) as [Hwf Hlen]. fold cs in Hwf, Hlen.
  cbn [cs0 c_rc length Nat.add] in Hlen. rewrite map_length in Hlen.
  rewrite ii_step_nf. cbn [char_len repeat]. rewrite (ii_fix_chars st P D cs _ Hc HD Hs Hwf). cbn [bind].
  eexists. split; [reflexivity|]. unfold ii_ctl. rewrite HB. split; [|split; reflexivity].
  assert (E : cscan (cs0 d) (cls (cur ++ [c])) = cstep cs (ds_class ds c))
    by (rewrite map_app; apply cscan_snoc).
  constructor; cbn [ii_classes ii_stack ii_para_start ii_para_level ii_pure ii_iso]; rewrite ?E; try assumption.
  - reflexivity.
  - rewrite Hs, <- Hlen. unfold cstep.
    destruct (ds_class ds c); cbn [is_strong is_init is_isolate_init ceq bclass_beq c_stk map];
      try reflexivity; try (destruct (c_stk cs); reflexivity).
  - rewrite Hs, Hpl. unfold cstep.
    destruct (ds_class ds c); cbn [is_strong is_init ceq bclass_beq c_pl]; try reflexivity;
      destruct (c_stk cs); reflexivity.
  - rewrite map_app. cbn [map]. rewrite flags_of_snoc. injection Hfl as -> ->. reflexivity.
Qed.

(* the tail of compute_initial_info: the trailing paragraph *)
Definition fin_paras (st : ii_state) (n : nat) : list para_info :=
  if ii_para_start st <? n
  then ii_paras st ++ [{| p_start := ii_para_start st; p_end := n; p_level := opt_or (ii_para_level st) 0 |}]
  else ii_paras st.
Definition fin_flags (st : ii_state) (n : nat) : list para_flags :=
  if ii_para_start st <? n
  then ii_flags st ++ [{| f_pure_ltr := ii_pure st; f_has_isolate := ii_iso st |}]
  else ii_flags st.

Fixpoint char_paras (pos : nat) (ps : list (list N)) : list para_info :=
  match ps with
  | [] => []
  | p :: r => {| p_start := pos; p_end := pos + length p; p_level := para_level (cls p) d |}
              :: char_paras (pos + length p) r
  end.

Lemma fold_paras l : forall cur st P D,
  Rel st P D cur ->
  exists st', ii_fold U32 ds true d st (combine (seq (P + length cur) (length l)) l) = Ok st' /\
    let ps := split_paragraphs_from (ds_class ds) cur l in
    let n := P + length cur + length l in
    ii_classes st' = D ++ flat_map (fun p => reported_classes (cls p)) ps /\
    fin_paras st' n = ii_paras st ++ char_paras P ps /\
    fin_flags st' n = ii_flags st ++ map (fun p => flags_of (cls p)) ps.
Proof.
  induction l as [|c r IH]; intros cur st P D R.
  - exists st. split; [reflexivity|]. cbv zeta. cbn [split_paragraphs_from length]. rewrite Nat.add_0_r.
    unfold fin_paras, fin_flags. rewrite (r_ps _ _ _ _ R).
    destruct cur as [|x cur'].
    + cbn [length flat_map char_paras map]. rewrite Nat.add_0_r, Nat.ltb_irrefl, !app_nil_r.
      rewrite (r_cls _ _ _ _ R). cbn. rewrite app_nil_r. auto.
    + remember (x :: cur') as cur0 eqn:Ec.
      assert (Hlt : (P <? P + length cur0) = true) by (apply Nat.ltb_lt; rewrite Ec; cbn [length]; lia).
      rewrite Hlt. cbn [flat_map char_paras map]. rewrite app_nil_r.
      rewrite (r_cls _ _ _ _ R), cscan_reported, (r_pl _ _ _ _ R), cscan_level, (r_flags _ _ _ _ R). auto.
  - cbn [length seq combine ii_fold split_paragraphs_from]. cbv zeta.
    replace (P + length cur + S (length r)) with (P + length (cur ++ [c]) + length r)
      by (rewrite app_length; cbn [length]; lia).
    assert (E : cscan (cs0 d) (cls (cur ++ [c])) = cstep (cscan (cs0 d) (cls cur)) (ds_class ds c))
      by (rewrite map_app; apply cscan_snoc).
    destruct (ds_class ds c =c B) eqn:EB.
    + apply ceq_eq in EB. rewrite (ii_step_B U32 ds d st _ c 1 EB eq_refl). cbn [bind repeat].
      match goal with |- context [ii_fold U32 ds true d ?s _] => set (st1 := s) end.
      assert (R1 : Rel st1 (P + length (cur ++ [c])) (ii_classes st ++ [B]) []).
      { apply Rel_start; try reflexivity; cbn [st1 ii_classes ii_para_start].
        - rewrite (r_cls _ _ _ _ R), !app_length, (r_lenD _ _ _ _ R).
          rewrite (proj2 (cscan_inv (cls cur) (cs0 d) (Forall_nil _))), map_length. cbn [cs0 c_rc length]. lia.
        - rewrite app_length. cbn [length]. lia. }
      destruct (IH [] st1 _ _ R1) as (st' & E' & Hc & Hp & Hf). cbv zeta in Hc, Hp, Hf.
      cbn [length] in E', Hp, Hf. rewrite Nat.add_0_r in E', Hp, Hf.
      replace (P + length (cur ++ [c])) with (S (P + length cur)) in E' by (rewrite app_length; cbn [length]; lia).
      exists st'. split; [exact E'|]. cbn [flat_map char_paras map].
      rewrite Hc, Hp, Hf. cbn [st1 ii_paras ii_flags].
      rewrite <- (cscan_reported d), <- (cscan_level d), E, EB.
      unfold cstep. cbn [is_strong is_init ceq bclass_beq c_rc c_pl].
      rewrite (r_cls _ _ _ _ R), (r_ps _ _ _ _ R), (r_pl _ _ _ _ R), (r_flags _ _ _ _ R), <- !app_assoc.
      rewrite map_app. cbn [map]. rewrite EB, flags_of_snoc. cbn [pure_ltr_class is_isolate_init].
      rewrite app_length. cbn [length]. rewrite Nat.add_assoc, Nat.add_1_r. auto.
    + destruct (ii_step_chars true st P D cur c R) as (st1 & E1 & R1 & Hp1 & Hf1); [rewrite EB; reflexivity|].
      rewrite E1. cbn [bind].
      destruct (IH (cur ++ [c]) st1 P D R1) as (st' & E' & Hc & Hp & Hf).
      replace (P + length (cur ++ [c])) with (S (P + length cur)) in E' by (rewrite app_length; cbn [length]; lia).
      exists st'. rewrite <- Hp1, <- Hf1. auto.
Qed.

Lemma fold_whole l : forall cur st P D,
  Rel st P D cur ->
  exists st', ii_fold U32 ds false d st (combine (seq (P + length cur) (length l)) l) = Ok st' /\
    Rel st' P D (cur ++ l) /\ ii_paras st' = ii_paras st /\ ii_flags st' = ii_flags st.
Proof.
  induction l as [|c r IH]; intros cur st P D R.
  - exists st. rewrite app_nil_r. auto.
  - cbn [length seq combine ii_fold].
    destruct (ii_step_chars false st P D cur c R (andb_false_r _)) as (st1 & E1 & R1 & Hp1 & Hf1).
    rewrite E1. cbn [bind]. destruct (IH (cur ++ [c]) st1 P D R1) as (st' & E' & R' & Hp & Hf).
    replace (P + length (cur ++ [c])) with (S (P + length cur)) in E' by (rewrite app_length; cbn [length]; lia).
    exists st'. rewrite <- app_assoc in R'. rewrite <- Hp1, <- Hf1. auto.
Qed.

Let st0 := {| ii_classes := []; ii_stack := []; ii_para_start := 0; ii_para_level := d;
              ii_pure := true; ii_iso := false; ii_paras := []; ii_flags := [] |}.

Theorem initial_chars_split cps :
  let ps := split_paragraphs (ds_class ds) cps in
  exists ii, compute_initial_info U32 ds cps d true = Ok ii /\
    in_classes ii = flat_map (fun p => reported_classes (cls p)) ps /\
    in_paras ii = char_paras 0 ps /\ in_flags ii = map (fun p => flags_of (cls p)) ps.
Proof.
  intros ps. destruct (fold_paras cps [] st0 0 []) as (st' & E & Hc & Hp & Hf); [apply Rel_start; reflexivity|].
  cbv zeta in Hc, Hp, Hf. cbn [length Nat.add st0 ii_paras ii_flags app] in E, Hc, Hp, Hf.
  unfold compute_initial_info. cbn [t_char_indices t_len]. fold st0. rewrite E. cbn [bind andb].
  exists {| in_classes := ii_classes st'; in_level := opt_or (ii_para_level st') 0;
            in_pure := ii_pure st'; in_iso := ii_iso st';
            in_paras := fin_paras st' (length cps); in_flags := fin_flags st' (length cps) |}.
  split; [unfold fin_paras, fin_flags; destruct (ii_para_start st' <? length cps); reflexivity | auto].
Qed.

Theorem initial_chars_whole cps :
  exists ii, compute_initial_info U32 ds cps d false = Ok ii /\
    in_classes ii = reported_classes (cls cps) /\ in_level ii = para_level (cls cps) d /\
    in_pure ii = forallb pure_ltr_class (cls cps) /\ in_iso ii = existsb is_isolate_init (cls cps).
Proof.
  destruct (fold_whole cps [] st0 0 []) as (st' & E & R & _); [apply Rel_start; reflexivity|].
  cbn [length Nat.add app] in E, R.
  unfold compute_initial_info. cbn [t_char_indices t_len]. fold st0. rewrite E. cbn [bind andb].
  eexists. split; [reflexivity|]. cbn [in_classes in_level in_pure in_iso].
  pose proof (r_flags _ _ _ _ R) as Hfl. injection Hfl as -> ->.
  rewrite (r_cls _ _ _ _ R), cscan_reported, (r_pl _ _ _ _ R), cscan_level. auto.
Qed.

End Chars.

Lemma split_paragraphs_from_map {X Y} (g : X -> Y) (f : Y -> bclass) : forall l cur,
  split_paragraphs_from f (map g cur) (map g l) = map (map g) (split_paragraphs_from (fun x => f (g x)) cur l).
Proof.
  induction l as [|x r IH]; intros cur; cbn [map split_paragraphs_from]; [destruct cur; reflexivity|].
  change [g x] with (map g [x]). rewrite <- map_app.
  destruct (f (g x) =c B); [cbn [map]; f_equal; apply (IH []) | apply IH].
Qed.

Lemma split_paragraphs_from_flat {X Z} (f : X -> bclass) (h : X -> Z) : forall l cur,
  flat_map (map h) (split_paragraphs_from f cur l) = map h (cur ++ l).
Proof.
  induction l as [|x r IH]; intros cur; cbn [split_paragraphs_from].
  - destruct cur; [reflexivity|]. cbn [flat_map]. rewrite !app_nil_r. reflexivity.
  - destruct (f x =c B); cbn [flat_map]; rewrite IH, ?map_app, <- ?app_assoc; reflexivity.
Qed.

Lemma rep_length l : length (rep l) = length l.
Proof. induction l as [|c t IH]; cbn [rep length]; [reflexivity | rewrite IH; reflexivity]. Qed.

Section Units.
Variable ds : datasource.
Variable d : option nat.
Notation clsch := (fun ch : N * nat => ds_class ds (fst ch)).

Definition idx (pos : nat) (l : list (N * nat)) : list (nat * N) :=
  map (fun x : nat * N * nat => (fst (fst x), snd (fst x))) (positions pos l).

Definition para_of (s : spec_para) : para_info :=
  {| p_start := sp_start s; p_end := sp_end s; p_level := sp_level s |}.

Lemma spec_paras_cons P p rest : exists lvs,
  spec_paras_from ds d P (p :: rest) =
  {| sp_start := P; sp_end := P + total (map snd p); sp_lens := map snd p; sp_cls := map clsch p;
     sp_reported := reported_classes (map clsch p); sp_level := para_level (map clsch p) d;
     sp_levels := lvs |}
  :: spec_paras_from ds d (P + total (map snd p)) rest.
Proof.
  cbn [spec_paras_from]. unfold resolve_paragraph.
  destruct (explicit_levels _ _). eexists. reflexivity.
Qed.

Lemma classes_units ps : forall P,
  expand (flat_map (map snd) ps) (flat_map (fun p => reported_classes (map clsch p)) ps)
  = flat_map (fun s => expand (sp_lens s) (sp_reported s)) (spec_paras_from ds d P ps).
Proof.
  induction ps as [|p r IH]; intros P; [reflexivity|].
  destruct (spec_paras_cons P p r) as (lvs & ->). cbn [flat_map sp_lens sp_reported].
  rewrite expand_app by (rewrite reported_rep, rep_length, !map_length; reflexivity).
  rewrite (IH (P + total (map snd p))). reflexivity.
Qed.

Lemma paras_units ps : forall pre,
  map (upara (pre ++ flat_map (map snd) ps)) (char_paras ds d (length pre) (map (map fst) ps))
  = map para_of (spec_paras_from ds d (total pre) ps).
Proof.
  induction ps as [|p r IH]; intros pre; [reflexivity|].
  destruct (spec_paras_cons (total pre) p r) as (lvs & ->).
  cbn [map char_paras flat_map]. unfold upara at 1, para_of at 1.
  cbn [p_start p_end p_level sp_start sp_end sp_level].
  rewrite ustart_app_len, map_length, map_map. f_equal.
  - rewrite app_assoc, <- (map_length snd p), <- app_length, ustart_app_len, total_app. reflexivity.
  - specialize (IH (pre ++ map snd p)).
    rewrite app_length, map_length, total_app, <- app_assoc in IH. exact IH.
Qed.

Lemma paras_follow_map sps : paras_follow_spec sps (map para_of sps) = true.
Proof.
  unfold paras_follow_spec.
  induction sps as [|s t IH]; [reflexivity|].
  cbn [map list_eqb2 para_of p_start p_end p_level].
  rewrite !Nat.eqb_refl, IH. reflexivity.
Qed.
End Units.

Lemma C02_proof : C02_statement.
Proof.
  intros e ds text chars d Hv Hfsi. cbv zeta.
  set (ps := split_paragraphs (fun ch : N * nat => ds_class ds (fst ch)) chars).
  destruct (initial_chars_split ds d (map fst chars)) as (ii & Ei & Hc & Hp & Hf).
  unfold split_paragraphs in Hc, Hp, Hf.
  pose proof (split_paragraphs_from_map fst (ds_class ds) chars []) as Hm.
  change (map fst (@nil (N * nat))) with (@nil N) in Hm.
  rewrite Hm in Hc, Hp, Hf. fold (split_paragraphs (fun ch : N * nat => ds_class ds (fst ch)) chars) in Hc, Hp, Hf. fold ps in Hc, Hp, Hf.
  assert (Hl : map snd chars = flat_map (map snd) ps)
    by (unfold ps, split_paragraphs; rewrite split_paragraphs_from_flat; reflexivity).
  eexists. split; [exact (compute_initial_info_units e ds text chars d true ii Hv Hfsi Ei)|].
  cbn [in_classes in_paras in_flags]. split; [|split].
  - unfold classes_follow_spec, cls_list_eqb. apply list_eqb_eq; [exact ceq_eq|].
    rewrite Hc, Hl, flat_map_map. rewrite <- (classes_units ds d ps 0). f_equal.
    apply flat_map_ext. intros p. rewrite map_map. reflexivity.
  - pose proof (paras_units ds d ps []) as Hu.
    change ([] ++ flat_map (map snd) ps) with (flat_map (map snd) ps) in Hu.
    change (length (@nil nat)) with 0 in Hu. change (total []) with 0 in Hu.
    rewrite Hp, Hl, Hu. apply paras_follow_map.
  - rewrite Hf, Hp, !map_length. clear. generalize 0.
    induction ps as [|p r IH]; intros n; cbn [map char_paras length]; [reflexivity | rewrite (IH (n + length (map fst p))); reflexivity].
Qed.
