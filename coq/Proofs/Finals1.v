(* Proofs/Finals1.v — final-form theorems C04 (reorder_visual on every line's L1 levels is rule L2) and
   C05 (visual runs), for every valid case. *)
From BidiVerif Require Import Base ModelText Obs Judge Stmts2 Stmts5.
From BidiVerif.Proofs Require Import ListLib JudgeEqb ObsValid.

Section PerLine.
Variables (e : enc) (ds : datasource) (text : list N).
Hypothesis Hvalid : valid_text e text.
Variables (cls : list bclass) (lv : list nat) (pl i j : nat).
Hypothesis C : line_ctx e ds text cls lv pl i j.

Lemma c04_line : line_rv_ok (the_lo e text cls lv pl i j) = true.
Proof.
  unfold line_rv_ok. rewrite (fl_rl e ds text Hvalid _ _ _ _ _ C), fl_line. unfold the_line.
  destruct (fl_rv e ds text Hvalid _ _ _ _ _ C) as [R Hlen]. unfold sub in R, Hlen. rewrite R.
  unfold C04_judge_levels, okb. rewrite nat_list_eqb_refl, Hlen, Nat.eqb_refl. reflexivity.
Qed.

Lemma c05_line : line_runs_ok (the_lo e text cls lv pl i j) = true.
Proof.
  unfold line_runs_ok. rewrite fl_line. unfold the_line. rewrite (fl_rl e ds text Hvalid _ _ _ _ _ C).
  destruct (fl_vr e ds text Hvalid _ _ _ _ _ C) as (V & D & H1 & H2 & H3). unfold sub in H3.
  rewrite V, D, H1, H2, H3. unfold okb. rewrite !nat_list_eqb_refl. apply list_eqb_refl, run_eqb_refl.
Qed.
End PerLine.

Lemma c04_final_proof : C04_final.
Proof.
  intros c Hvc. pose proof Hvc as (_ & Hv & _).
  destruct (case_lines_forall c (fun _ _ => line_rv_ok) Hvc) as (_ & _ & _ & _ & H1 & H2).
  { intros. apply (c04_line _ (tc_ds c)); assumption. }
  apply andb_true_iff. exact (conj H1 H2).
Qed.

Lemma c05_final_proof : C05_final.
Proof.
  intros c Hvc. pose proof Hvc as (_ & Hv & _).
  destruct (case_lines_forall c (fun _ _ => line_runs_ok) Hvc) as (_ & _ & _ & _ & H1 & H2).
  { intros. apply (c05_line _ (tc_ds c)); assumption. }
  apply andb_true_iff. exact (conj H1 H2).
Qed.
