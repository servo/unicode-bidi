(* Proofs/Finals4.v — final-form theorems C02 (paragraphs, paragraph levels, reported classes; the
   single-paragraph type through C10_statement) and C08 (one entry per unit, uniform inside each
   character, bounded levels), for every valid case. *)
From BidiVerif Require Import Base ModelText ModelResolve Spec Obs Judge Stmts2 Stmts5 Stmts6.
From BidiVerif.Proofs Require Import JudgeEqb.
From BidiVerif.Proofs Require Import TotalAssemble CharAnalysis ObsValid Finals3.
From BidiVerif.Props Require Import LengthIndependence.

Lemma split_from_concat {A} (f : A -> bclass) : forall l cur,
  concat (split_paragraphs_from f cur l) = cur ++ l.
Proof.
  induction l as [|x r IH]; intros cur; cbn [split_paragraphs_from].
  - destruct cur; [reflexivity|]. cbn [concat]. rewrite !app_nil_r. reflexivity.
  - destruct (f x =c B).
    + cbn [concat]. rewrite (IH []), <- app_assoc. reflexivity.
    + rewrite IH, <- app_assoc. reflexivity.
Qed.

Lemma split_single {A} (f : A -> bclass) (l : list A) :
  length (split_paragraphs f l) <= 1 -> l <> [] -> split_paragraphs f l = [l].
Proof.
  intros Hlen Hne. pose proof (split_from_concat f l []) as Hc. fold (split_paragraphs f l) in Hc.
  cbn [app] in Hc.
  destruct (split_paragraphs f l) as [|p [|q r]]; cbn [length concat] in *.
  - congruence.
  - rewrite app_nil_r in Hc. congruence.
  - lia.
Qed.

Lemma split_nil {A} (f : A -> bclass) : split_paragraphs f [] = [].
Proof. reflexivity. Qed.

Lemma spec_paras_length ds d : forall l P, length (spec_paras_from ds d P l) = length l.
Proof.
  induction l as [|p r IH]; intros P; [reflexivity|].
  cbn [spec_paras_from]. destruct (resolve_paragraph _ _ _). cbn [length]. rewrite IH. reflexivity.
Qed.

Lemma spec_single_text c : is_single_paragraph c = true -> spec_single c = spec_text c.
Proof.
  unfold is_single_paragraph, spec_single, spec_text. intros H. apply Nat.leb_le in H.
  rewrite spec_paras_length in H.
  destruct (case_chars c) as [|ch rest] eqn:Ec; [reflexivity|].
  rewrite (split_single _ (ch :: rest) H) by discriminate. reflexivity.
Qed.

Lemma spec_text_nil c : spec_text c = [] -> view_of (tc_enc c) (tc_text c) = [].
Proof.
  unfold spec_text. rewrite case_chars_view. intros H.
  apply (f_equal (@length _)) in H. rewrite spec_paras_length in H. apply length_zero_iff_nil in H.
  pose proof (split_from_concat (fun ch : N * nat => ds_class (tc_ds c) (fst ch))
                (view_of (tc_enc c) (tc_text c)) []) as Hc.
  unfold split_paragraphs in H. rewrite H in Hc. symmetry. exact Hc.
Qed.

Lemma para_new_empty ds d p :
  para_bidi_info_new U32 ds [] d = Ok p -> pb_level p = match d with Some x => x | None => 0 end.
Proof.
  intros H. destruct (pi_from_ii _ _ _ _ _ H) as (ii & Hi & _ & ->).
  unfold compute_initial_info in Hi. cbn in Hi. injection Hi as <-.
  cbn [in_level]. destruct d; reflexivity.
Qed.

Lemma c02_final_from_proof : C10_statement -> C02_final.
Proof.
  intros HC10 c Hvc. pose proof Hvc as (_ & Hv & Hf & Hd & _). rewrite case_chars_view in Hf.
  destruct (case_c02 c Hvc) as (cs & ps & Eii & Hcs & Hps).
  destruct (valid_obs c Hvc) as (b & p & cl & CA & _ & E).
  pose proof (obs_bi c) as Ebi. pose proof (obs_pi c) as Epi. rewrite E in *.
  cbn [lift_obs to_ii to_bi to_pi] in Eii, Ebi, Epi. injection Eii as <- <-. symmetry in Ebi, Epi.
  unfold C02_judge, lift_obs.
  cbn [to_ii to_bi to_pi okb fst snd xbi bi_classes bi_paras xpi pb_classes pb_level].
  rewrite Hcs, Hps. cbn [andb].
  destruct (is_single_paragraph c) eqn:Es; [|reflexivity].
  rewrite (spec_single_text c Es).
  pose proof (list_eqb2_length _ _ _ Hps) as Hlen.
  pose proof Es as Hle. unfold is_single_paragraph in Hle. apply Nat.leb_le in Hle.
  destruct (HC10 _ _ _ _ _ Hv Hf Hd Ebi) as (_ & H2). cbn [xbi bi_paras bi_classes] in H2.
  destruct (H2 ltac:(lia)) as (pb & Epb & Pc & _ & Pq).
  rewrite Epi in Epb. injection Epb as <-. cbn [xpi pb_classes pb_level] in Pc, Pq.
  rewrite Pc, Hcs. cbn [andb].
  destruct (spec_text c) as [|s [|s2 tl]] eqn:Est; cbn [length] in *; [| |lia].
  - pose proof (ca_pi _ _ _ _ _ CA) as Ep'. rewrite (spec_text_nil c Est) in Ep'.
    rewrite (para_new_empty _ _ _ Ep'). apply Nat.eqb_refl.
  - destruct (map _ (bi_paras b)) as [|q [|q2 qs]]; cbn [length] in Hlen; try lia.
    unfold paras_follow_spec in Hps. cbn [list_eqb2] in Hps.
    apply andb_true_iff in Hps as [Hq _]. apply andb_true_iff in Hq as [_ Hq]. apply Nat.eqb_eq in Hq.
    rewrite Pq, Hq. apply Nat.eqb_refl.
Qed.

Lemma c08_line e ds text (Hvalid : valid_text e text) cls lv pl i j :
  line_ctx e ds text cls lv pl i j ->
  okb (lo_rl (the_lo e text cls lv pl i j)) (uniform Nat.eqb (map snd (view_of e text))) &&
  okb (lo_rlc (the_lo e text cls lv pl i j)) (fun v => length v =? length (map snd (view_of e text))) = true.
Proof.
  intros C. rewrite (fl_rl e ds text Hvalid _ _ _ _ _ C), (fl_rlc e ds text Hvalid _ _ _ _ _ C).
  pose proof (fl_L_length e ds text _ _ _ _ _ C) as HL.
  cbn [okb]. unfold the_LV. rewrite map_length, HL, Nat.eqb_refl, andb_true_r.
  apply uniform_expand_refl; [exact Nat.eqb_refl | rewrite HL, map_length; reflexivity |].
  exact (fl_lens_pos e text Hvalid).
Qed.

Lemma c08_final_proof : C08_final.
Proof.
  intros c Hvc. pose proof Hvc as (_ & Hv & Hf & Hd & _). rewrite case_chars_view in Hf.
  destruct (C07_C08_constructors_thm _ _ _ _ Hv Hf Hd)
    as [(b & Eb & _ & _ & U1 & U2 & U3) (p & Ep & _ & _ & V1 & V2 & V3)].
  destruct (bi_from_ii _ _ _ _ _ Eb) as (ii & Ei & Hcl & _).
  destruct (case_lines_forall c (fun _ _ lo => okb (lo_rl lo) (uniform Nat.eqb (map snd (case_chars c))) &&
                                               okb (lo_rlc lo) (fun v => length v =? length (map snd (case_chars c))))
              Hvc) as (_ & _ & _ & _ & H1 & H2).
  { intros. rewrite case_chars_view. apply (c08_line _ (tc_ds c)); assumption. }
  unfold C08_judge. rewrite forallb_app. cbv beta in H1, H2. rewrite H1, H2.
  unfold model_obs. cbn [to_ii to_bi to_pi].
  change (bidi_info_new_gen (tc_enc c) (tc_ds c) false (tc_text c) (tc_dir c))
    with (bidi_info_new (tc_enc c) (tc_ds c) (tc_text c) (tc_dir c)).
  change (para_bidi_info_new_gen (tc_enc c) (tc_ds c) false (tc_text c) (tc_dir c))
    with (para_bidi_info_new (tc_enc c) (tc_ds c) (tc_text c) (tc_dir c)).
  rewrite case_chars_view, Ei, Eb, Ep. cbn [bind okb fst].
  rewrite <- Hcl, U1, U2, U3, V1, V2. cbn [andb]. rewrite andb_true_r.
  apply forallb_forall. intros l Hl. rewrite Forall_forall in V3. destruct (V3 l Hl) as [A B].
  apply andb_true_iff. split; apply Nat.leb_le; assumption.
Qed.
