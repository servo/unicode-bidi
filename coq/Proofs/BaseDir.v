(* Proofs/BaseDir.v — get_base_direction (lib.rs:1327-1348) against P1-P3 of the specification.
   The implementation's isolate counter is related to BD9 (matching_pdi) through an intermediate
   structural scanner [fs] over class lists. *)
From BidiVerif Require Import Base ModelText ModelLine Spec Judge Stmts.
From BidiVerif.Proofs Require Import ListLib.

(* the implementation only looks at classes: [bd_cls] is get_base_direction on the class list *)
Fixpoint bd_cls (full : bool) (lvl : nat) (cls : list bclass) : direction :=
  match cls with
  | [] => Mixed
  | c :: rest =>
    match c with
    | LRI | RLI | FSI => bd_cls full (S lvl) rest
    | PDI => bd_cls full (lvl - 1) rest
    | L => if lvl =? 0 then Ltr else bd_cls full lvl rest
    | R | AL => if lvl =? 0 then Rtl else bd_cls full lvl rest
    | B => if full then bd_cls full 0 rest else Mixed
    | _ => bd_cls full lvl rest
    end
  end.

Lemma base_direction_from_cls ds full cs :
  forall lvl, base_direction_from ds full lvl cs = bd_cls full lvl (map (ds_class ds) cs).
Proof.
  induction cs as [|c rest IH]; intros lvl; [reflexivity|].
  cbn [base_direction_from bd_cls map].
  destruct (ds_class ds c); rewrite ?IH; reflexivity.
Qed.

(* the first strong class at isolate depth 0, by a depth counter alone: no jump to the matching PDI as in
   [first_strong]; [d] isolates are open *)
Fixpoint fs (d : nat) (l : list bclass) : option bclass :=
  match l with
  | [] => None
  | c :: t =>
    if is_init c then fs (S d) t
    else if c =c PDI then fs (d - 1) t
    else if is_strong c then (if d =? 0 then Some c else fs d t)
    else fs d t
  end.

Definition dir_of (o : option bclass) : direction :=
  match o with Some L => Ltr | Some _ => Rtl | None => Mixed end.

Lemma fs_strong l : forall d c, fs d l = Some c -> is_strong c = true.
Proof.
  induction l as [|x t IH]; intros d c H; [discriminate|].
  cbn [fs] in H.
  destruct (is_init x); [exact (IH _ _ H)|].
  destruct (x =c PDI); [exact (IH _ _ H)|].
  destruct (is_strong x) eqn:Hs; [|exact (IH _ _ H)].
  destruct (d =? 0); [|exact (IH _ _ H)].
  injection H as <-. exact Hs.
Qed.

(* the depth counter, started at d >= 1, returns to 0 exactly at the PDI found by BD9 *)
Definition pdi_at (o : option nat) (j : nat) (l : list bclass) (x : option bclass) : Prop :=
  match o with
  | None => x = None
  | Some k => j <= k /\ k < j + length l /\ x = fs 0 (skipn (S (k - j)) l)
  end.

Lemma pdi_at_cons o j c t x : pdi_at o (S j) t x -> pdi_at o j (c :: t) x.
Proof.
  destruct o as [k|]; [|exact (fun H => H)]. unfold pdi_at. cbn [length]. intros (H1 & H2 & H3).
  split; [lia|]. split; [lia|]. replace (k - j) with (S (k - S j)) by lia. exact H3.
Qed.

Lemma match_pdi_fs l : forall d j, 1 <= d -> pdi_at (match_pdi_from l d j) j l (fs d l).
Proof.
  induction l as [|c t IH]; intros d j Hd; [reflexivity|].
  cbn [match_pdi_from fs].
  destruct (is_init c) eqn:Hi; [apply pdi_at_cons, IH; lia|].
  destruct (c =c PDI) eqn:Hp.
  - destruct (d =? 1) eqn:Hd1; [|apply Nat.eqb_neq in Hd1; apply pdi_at_cons, IH; lia].
    apply Nat.eqb_eq in Hd1. subst d. unfold pdi_at. cbn [length].
    split; [lia|]. split; [lia|]. replace (j - j) with 0 by lia. reflexivity.
  - replace (if is_strong c then if d =? 0 then Some c else fs d t else fs d t) with (fs d t).
    + apply pdi_at_cons, IH, Hd.
    + destruct (is_strong c); [|reflexivity]. destruct (Nat.eqb_spec d 0); [lia | reflexivity].
Qed.

(* fuel S (hi - lo) suffices: every step advances the index *)
Lemma first_strong_fuel_fs fuel : forall cls i, S (length cls - i) <= fuel ->
  first_strong_fuel fuel cls i (length cls) = fs 0 (skipn i cls).
Proof.
  induction fuel as [|f IH]; intros cls i Hf; [lia|].
  cbn [first_strong_fuel].
  destruct (length cls <=? i) eqn:Hle.
  - apply Nat.leb_le in Hle. rewrite skipn_all2 by exact Hle. reflexivity.
  - apply Nat.leb_gt in Hle.
    destruct (nth_error cls i) as [c|] eqn:Hn.
    2:{ apply nth_error_None in Hn. lia. }
    rewrite (skipn_nth_error _ _ _ Hn). cbn [fs].
    destruct (is_strong c) eqn:Hs.
    + destruct c; try discriminate; reflexivity.
    + destruct (is_init c) eqn:Hi.
      * unfold matching_pdi.
        pose proof (match_pdi_fs (skipn (S i) cls) 1 (S i) (le_n 1)) as M. unfold pdi_at in M.
        destruct (match_pdi_from (skipn (S i) cls) 1 (S i)) as [k|].
        -- destruct M as (M1 & M2 & M3). rewrite skipn_length in M2.
           assert (Hk : (length cls <=? k) = false) by (apply Nat.leb_gt; lia).
           rewrite Hk. rewrite IH by lia. rewrite M3, skipn_skipn.
           replace (S (k - S i) + S i) with (S k) by lia. reflexivity.
        -- symmetry. exact M.
      * rewrite IH by lia.
        destruct (c =c PDI); reflexivity.
Qed.

Lemma first_strong_fs cls : first_strong cls 0 (length cls) = fs 0 cls.
Proof. unfold first_strong. rewrite first_strong_fuel_fs by lia. reflexivity. Qed.

Lemma spec_direction_fs p : spec_direction p = dir_of (fs 0 p).
Proof. unfold spec_direction, dir_of. rewrite first_strong_fs. reflexivity. Qed.

(* the scanner state after a paragraph prefix *)
Definition Inv (cur : list bclass) (lvl : nat) : Prop := forall l', fs 0 (cur ++ l') = fs lvl l'.

Lemma Inv_nil : Inv [] 0.
Proof. intros l'. reflexivity. Qed.

Lemma Inv_step cur lvl c lvl' :
  Inv cur lvl -> (forall l', fs lvl (c :: l') = fs lvl' l') -> Inv (cur ++ [c]) lvl'.
Proof. intros H Hc l'. rewrite <- app_assoc. cbn [app]. rewrite H. apply Hc. Qed.

Lemma Inv_stuck cur lvl : Inv cur lvl -> spec_direction cur = Mixed.
Proof. intros H. rewrite spec_direction_fs. rewrite <- (app_nil_r cur), H. reflexivity. Qed.

Lemma Inv_found cur c a :
  Inv cur 0 -> is_strong c = true -> spec_direction ((cur ++ [c]) ++ a) = dir_of (Some c).
Proof.
  intros H Hs. rewrite spec_direction_fs, <- app_assoc. cbn [app]. rewrite H.
  destruct c; try discriminate; reflexivity.
Qed.

Notation idc := (fun k : bclass => k).

Lemma split_head (l : list bclass) : forall cur, cur <> [] ->
  exists a rest, split_paragraphs_from idc cur l = (cur ++ a) :: rest.
Proof.
  induction l as [|x r IH]; intros cur Hc.
  - exists [], []. cbn [split_paragraphs_from]. rewrite app_nil_r.
    destruct cur; [contradiction | reflexivity].
  - cbn [split_paragraphs_from]. destruct (x =c B).
    + exists [x], (split_paragraphs_from idc [] r). reflexivity.
    + destruct (IH (cur ++ [x])) as (a & rest & E).
      { destruct cur; discriminate. }
      exists (x :: a), rest. rewrite E, <- app_assoc. reflexivity.
Qed.

Definition first_dir (paras : list (list bclass)) : direction :=
  match paras with p :: _ => spec_direction p | [] => Mixed end.
Definition first_unmixed (paras : list (list bclass)) : direction :=
  match find (fun p => negb (dir_eqb (spec_direction p) Mixed)) paras with
  | Some p => spec_direction p
  | None => Mixed
  end.
(* what get_base_direction answers: with use_full_text, the first paragraph whose direction is not Mixed *)
Definition pick (full : bool) : list (list bclass) -> direction := if full then first_unmixed else first_dir.

Lemma pick_found full cur c r :
  Inv cur 0 -> is_strong c = true ->
  pick full (split_paragraphs_from idc (cur ++ [c]) r) = dir_of (Some c).
Proof.
  intros H Hs. destruct (split_head r (cur ++ [c])) as (a & rest & E); [destruct cur; discriminate|].
  rewrite E. pose proof (Inv_found _ _ a H Hs) as F.
  destruct full; [|exact F]. unfold pick, first_unmixed. cbn [find].
  destruct c; try discriminate; rewrite F; cbn [dir_of dir_eqb negb]; exact F.
Qed.

Lemma pick_stuck full p rest : spec_direction p = Mixed -> pick full (p :: rest) = if full then pick full rest else Mixed.
Proof. intros S. destruct full; [|exact S]. unfold pick, first_unmixed. cbn [find]. rewrite S. reflexivity. Qed.

Ltac inv_step H := apply (Inv_step _ _ _ _ H); intros l'; cbn [fs is_init is_strong ceq bclass_beq]; try reflexivity.

Lemma bd_split full l : forall cur lvl, Inv cur lvl ->
  bd_cls full lvl l = pick full (split_paragraphs_from idc cur l).
Proof.
  induction l as [|c r IH]; intros cur lvl H.
  - cbn [bd_cls split_paragraphs_from]. destruct cur as [|x cur']; [destruct full; reflexivity|].
    rewrite pick_stuck by exact (Inv_stuck _ _ H). destruct full; reflexivity.
  - destruct (is_strong c) eqn:Hs.
    + (* a strong class decides at depth 0 and is skipped otherwise *)
      assert (E : bd_cls full lvl (c :: r) = if lvl =? 0 then dir_of (Some c) else bd_cls full lvl r)
        by (destruct c; try discriminate; reflexivity).
      assert (E2 : split_paragraphs_from idc cur (c :: r) = split_paragraphs_from idc (cur ++ [c]) r)
        by (destruct c; try discriminate; reflexivity).
      rewrite E, E2. destruct (lvl =? 0) eqn:E0.
      * apply Nat.eqb_eq in E0. subst lvl. symmetry. apply pick_found; assumption.
      * apply IH. apply (Inv_step _ _ _ _ H). intros l'.
        destruct c; try discriminate; cbn [fs is_init is_strong ceq bclass_beq]; rewrite E0; reflexivity.
    + destruct c; try discriminate; cbn [bd_cls split_paragraphs_from ceq bclass_beq];
        try (apply IH; inv_step H; fail).
      (* B *) rewrite pick_stuck by (apply (Inv_stuck _ lvl); inv_step H).
      destruct full; [apply (IH [] 0 Inv_nil) | reflexivity].
Qed.

(* P3: the direction agrees with the auto-detected paragraph level *)

Lemma spec_direction_level p :
  (spec_direction p = Ltr -> Spec.para_level p None = 0) /\
  (spec_direction p = Rtl -> Spec.para_level p None = 1).
Proof.
  unfold spec_direction, para_level. rewrite first_strong_fs.
  destruct (fs 0 p) as [c|] eqn:E; [|split; discriminate].
  apply fs_strong in E.
  destruct c; try discriminate E; split; intros D; try discriminate D; reflexivity.
Qed.

Lemma C16_proof : C16_statement.
Proof.
  unfold C16_statement. intros e ds text. cbv zeta.
  unfold get_base_direction, split_paragraphs.
  rewrite !base_direction_from_cls.
  split; [exact (bd_split false _ [] 0 Inv_nil)|].
  split; [exact (bd_split true _ [] 0 Inv_nil)|].
  intros p _. apply spec_direction_level.
Qed.
