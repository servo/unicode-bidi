(* Proofs/UcdRefProofs.v — C14 / C15 against the committed UCD 16.0 reference (UcdRef.v):
   the class lookup of the regenerated table equals the reference on EVERY code point (all N), and
   the bracket lookup equals the reference on every code point.  Method: a verified canonical form
   (drop class-L ranges, merge adjacent ranges of one class) preserves the lookup on every sorted,
   disjoint table; the canonical form of the regenerated table IS the reference (one vm_compute). *)
From BidiVerif Require Import Base TablesGen ModelText UcdRef RefDs Stmts Stmts6.
From BidiVerif.Proofs Require Import Tables.

Local Open Scope N_scope.

Definition entry := (N * N * bclass)%type.
Definition ld (tab : list entry) (c : N) : bclass :=
  match lookup_linear tab c with Some k => k | None => L end.

Definition optl (acc : option entry) : list entry := match acc with Some s => [s] | None => [] end.

Fixpoint canon (acc : option entry) (tab : list entry) : list entry :=
  match tab with
  | [] => optl acc
  | (lo, hi, k) :: r =>
    if k =c L then optl acc ++ canon None r
    else match acc with
         | Some (a, b, k') => if (k' =c k) && (b + 1 =? lo) then canon (Some (a, hi, k)) r
                              else (a, b, k') :: canon (Some (lo, hi, k)) r
         | None => canon (Some (lo, hi, k)) r
         end
  end.

Lemma lookup_above : forall (r : list entry) p c,
  sorted_disjoint_from (Some p) r = true -> c <= p -> lookup_linear r c = None.
Proof.
  induction r as [|[[lo hi] k] r IH]; intros p c H Hc; [reflexivity|].
  apply sdf_cons in H. destruct H as (Hle & Hp & Hr). cbn [above] in Hp.
  cbn [lookup_linear].
  destruct (lo <=? c) eqn:E1; [apply N.leb_le in E1; lia|]. cbn [andb].
  apply (IH hi); [exact Hr | lia].
Qed.

Lemma ld_cons lo hi k r c :
  ld ((lo, hi, k) :: r) c = if (lo <=? c) && (c <=? hi) then k else ld r c.
Proof. unfold ld. cbn [lookup_linear]. destruct ((lo <=? c) && (c <=? hi)); reflexivity. Qed.

Lemma ld_optl_app acc X c :
  ld (optl acc ++ X) c =
  match acc with
  | Some (a, b, k) => if (a <=? c) && (c <=? b) then k else ld X c
  | None => ld X c
  end.
Proof. destruct acc as [[[a b] k]|]; cbn [optl app]; [apply ld_cons | reflexivity]. Qed.

Lemma sdf_optl_app acc tab p :
  sorted_disjoint_from p (optl acc ++ tab) = true ->
  match acc with
  | Some (a, b, k) => a <= b /\ above p a /\ sorted_disjoint_from (Some b) tab = true
  | None => sorted_disjoint_from p tab = true
  end.
Proof.
  destruct acc as [[[a b] k]|]; cbn [optl app]; intros H; [|exact H].
  apply sdf_cons in H. exact H.
Qed.

Lemma sdf_weaken : forall (tab : list entry) p q,
  sorted_disjoint_from (Some p) tab = true -> q <= p -> sorted_disjoint_from (Some q) tab = true.
Proof.
  intros [|[[lo hi] k] r] p q H Hq; [reflexivity|].
  apply sdf_cons in H as (Hle & Hp & Hr). apply sdf_cons. cbn [above] in *. split; [exact Hle | split; [lia | exact Hr]].
Qed.

Lemma sdf_drop_prev : forall (tab : list entry) p,
  sorted_disjoint_from (Some p) tab = true -> sorted_disjoint_from None tab = true.
Proof.
  intros [|[[lo hi] k] r] p H; [reflexivity|].
  apply sdf_cons in H as (Hle & _ & Hr). apply sdf_cons. split; [exact Hle | split; [exact I | exact Hr]].
Qed.

(* a range of class L gives what the default gives *)
Lemma ld_skip_L lo hi r c : sorted_disjoint_from (Some hi) r = true -> ld ((lo, hi, L) :: r) c = ld r c.
Proof.
  intros Hr. rewrite ld_cons. destruct ((lo <=? c) && (c <=? hi)) eqn:Ein; [|reflexivity].
  apply inside_b in Ein as [_ E2]. unfold ld. rewrite (lookup_above r hi c Hr E2). reflexivity.
Qed.

Lemma ld_merge a b hi k r c : a <= b -> b + 1 <= hi ->
  ld ((a, hi, k) :: r) c = ld ((a, b, k) :: (b + 1, hi, k) :: r) c.
Proof.
  intros Hab Hle. rewrite !ld_cons.
  destruct (N.leb_spec a c), (N.leb_spec c b), (N.leb_spec (b + 1) c), (N.leb_spec c hi); cbn [andb]; try reflexivity; lia.
Qed.

Lemma canon_ld : forall (tab : list entry) acc p c,
  sorted_disjoint_from p (optl acc ++ tab) = true ->
  ld (canon acc tab) c = ld (optl acc ++ tab) c.
Proof.
  induction tab as [|[[lo hi] k] r IH]; intros acc p c H.
  - cbn [canon]. rewrite app_nil_r. reflexivity.
  - cbn [canon]. destruct (k =c L) eqn:Ek.
    + apply ceq_eq in Ek. subst k. rewrite !ld_optl_app.
      assert (Hr : sorted_disjoint_from (Some hi) r = true).
      { apply sdf_optl_app in H. destruct acc as [[[a b] k']|]; [destruct H as (_ & _ & H)|]; apply sdf_cons in H; apply H. }
      assert (E : ld (canon None r) c = ld ((lo, hi, L) :: r) c)
        by (rewrite (IH None None c) by (eapply sdf_drop_prev; exact Hr); symmetry; apply ld_skip_L, Hr).
      rewrite E. reflexivity.
    + destruct acc as [[[a b] k']|]; cbn [optl app] in *.
      * apply sdf_cons in H as (Hab & Hpa & H). apply sdf_cons in H as (Hle & Hb & Hr). cbn [above] in Hb.
        destruct ((k' =c k) && (b + 1 =? lo)) eqn:Em.
        -- apply andb_true_iff in Em as [Ekk Eb]. apply ceq_eq in Ekk. apply N.eqb_eq in Eb. subst k' lo.
           rewrite (IH (Some (a, hi, k)) p c) by (apply sdf_cons; split; [lia | split; [exact Hpa | exact Hr]]).
           apply ld_merge; lia.
        -- rewrite !ld_cons.
           rewrite (IH (Some (lo, hi, k)) (Some b) c) by (apply sdf_cons; split; [exact Hle | split; [exact Hb | exact Hr]]).
           cbn [optl app]. rewrite ld_cons. reflexivity.
      * apply (IH (Some (lo, hi, k)) p c). exact H.
Qed.

Lemma canon_class_table : canon None bidi_class_table = ucd16_class_table.
Proof. vm_compute. reflexivity. Qed.

(* C14, the reference clause: for EVERY code point *)
Theorem class_lookup_is_ucd16 : forall c : N, hardcoded_class c = ucd16_class c.
Proof.
  intros c. unfold hardcoded_class, ucd16_class.
  rewrite (bsearch_eq_linear bidi_class_table c class_table_sorted).
  change (ld bidi_class_table c = ld ucd16_class_table c).
  rewrite <- canon_class_table.
  symmetry. apply (canon_ld bidi_class_table None None c). exact class_table_sorted.
Qed.

Lemma ucd16_sorted : sorted_disjoint ucd16_class_table = true.
Proof. vm_compute. reflexivity. Qed.

(* C15: outside the listed characters both lookups answer None; on the listed ones they are evaluated *)
Lemma matched_none : forall (tab : list (N * N * option N)) c,
  ~ In c (pair_chars tab) -> matched_opening_bracket_in tab c = None.
Proof.
  induction tab as [|[[o cl] k] r IH]; intros c H; [reflexivity|].
  cbn [matched_opening_bracket_in].
  unfold pair_chars in H. cbn [flat_map fst snd app In] in H.
  destruct (o =? c) eqn:E1; [apply N.eqb_eq in E1; exfalso; apply H; left; exact E1|].
  destruct (cl =? c) eqn:E2; [apply N.eqb_eq in E2; exfalso; apply H; right; left; exact E2|].
  cbn [orb]. apply IH. intros Hin. apply H. right. right. exact Hin.
Qed.

Lemma assocN_none {A} : forall (l : list (N * A)) c, ~ In c (map fst l) -> assocN c l = None.
Proof.
  induction l as [|[x v] r IH]; intros c H; [reflexivity|].
  cbn [assocN]. cbn [map fst In] in H.
  destruct (x =? c) eqn:E; [apply N.eqb_eq in E; exfalso; apply H; left; exact E|].
  apply IH. intros Hin. apply H. right. exact Hin.
Qed.

Definition all_bracket_chars : list N := pair_chars bidi_pairs_table ++ map fst ucd16_brackets.

Lemma brackets_listed_agree :
  forallb (fun c => bracket_eqb (hardcoded_bracket c) (assocN c ucd16_brackets)) all_bracket_chars = true.
Proof. vm_compute. reflexivity. Qed.

(* C15, the reference clause: for EVERY code point *)
Theorem bracket_lookup_is_ucd16 : forall c : N, hardcoded_bracket c = ucd16_bracket c.
Proof.
  intros c. unfold ucd16_bracket.
  destruct (in_dec N.eq_dec c all_bracket_chars) as [Hin|Hout].
  - apply bracket_eqb_eq. exact (proj1 (forallb_forall _ _) brackets_listed_agree c Hin).
  - unfold all_bracket_chars in Hout.
    unfold hardcoded_bracket.
    rewrite matched_none by (intros H; apply Hout; apply in_or_app; left; exact H).
    rewrite assocN_none by (intros H; apply Hout; apply in_or_app; right; exact H).
    reflexivity.
Qed.

Lemma ucd16_brackets_count : length ucd16_brackets = 128%nat.
Proof. reflexivity. Qed.

Theorem C14_reference : C14_reference_statement.
Proof. split; [exact ucd16_sorted | exact class_lookup_is_ucd16]. Qed.
Theorem C15_reference : C15_reference_statement.
Proof. exact bracket_lookup_is_ucd16. Qed.
