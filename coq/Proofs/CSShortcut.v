(* Proofs/CSShortcut.v — CS_shortcut: a paragraph at level 0 whose classes contain no R, AL, AN, no
   embedding/override initiator and no isolate initiator resolves (Spec.v) to level 0 everywhere.
   The statement and the proof speak of Spec.v only.  Invariants:
     P0 = pure_ltr_class                      (classes on input, through X1-X8 and W1-W6)
     P1 = P0 without EN                       (after W7 with sos = L; preserved by N0, N1, N2)
   and P1 c -> implicit_level 0 c = 0.  All explicit levels are [Some 0] or [None], hence
   lev_at = 0 everywhere and sos = eos = embedding direction = L for EVERY list of positions, whatever
   isolating_sequences returns. *)
From BidiVerif Require Import Base Spec Stmts6.
From BidiVerif.Proofs Require Import ListLib Units.
From Coq Require Import List.
Import ListNotations.

Definition P0 (c : bclass) : Prop := pure_ltr_class c = true.
Definition s1 (c : bclass) : bool := pure_ltr_class c && negb (c =c EN).
Definition P1 (c : bclass) : Prop := s1 c = true.
Definition lv0 (o : option nat) : Prop := o = None \/ o = Some 0.

Lemma P1_P0 c : P1 c -> P0 c.
Proof. unfold P1, P0, s1. intros H. apply andb_true_iff in H. tauto. Qed.

Lemma P1_implicit c : P1 c -> implicit_level 0 c = 0.
Proof. destruct c; intros H; try discriminate H; reflexivity. Qed.

Lemma P1_strong_dir c d : P1 c -> strong_dir c = Some d -> d = L.
Proof. destruct c; intros H E; try discriminate H; try discriminate E; cbn in E; congruence. Qed.

Lemma Forall_skipn {A} (P : A -> Prop) n (l : list A) : Forall P l -> Forall P (skipn n l).
Proof. apply ListLib.Forall_skipn. Qed.

Lemma Forall_setnth {A} (P : A -> Prop) (l : list A) i x : Forall P l -> P x -> Forall P (setnth l i x).
Proof. rewrite setnth_lset. apply Forall_lset. Qed.

Lemma Forall_snth {A} (P : A -> Prop) (l : list A) d (sq : list nat) :
  Forall P l -> P d -> Forall P (map (fun i => snth l i d) sq).
Proof.
  intros H Hd. apply Forall_forall. intros x Hx. apply in_map_iff in Hx. destruct Hx as [i [<- _]].
  unfold snth. destruct (nth_in_or_default i l d) as [Hin|He].
  - rewrite Forall_forall in H. apply H, Hin.
  - rewrite He. exact Hd.
Qed.

Definition st0 : xstate := {| x_stack := [(0, ONone, false)]; x_oi := 0; x_oe := 0; x_vi := 0 |}.

Lemma x_step_pure cls0 i c :
  P0 c -> x_step cls0 0 st0 i c = (st0, if is_removed c then None else Some 0, c).
Proof. destruct c; intros H; try discriminate H; reflexivity. Qed.

Lemma x_run_pure cls0 l : forall i,
  Forall P0 l ->
  x_run cls0 0 st0 i l = (map (fun c => if is_removed c then None else Some 0) l, l).
Proof.
  induction l as [|c l IH]; intros i H; cbn [x_run map]; [reflexivity|].
  inversion H; subst. rewrite x_step_pure by assumption. rewrite IH by assumption. reflexivity.
Qed.

Lemma xlev_lv0 (l : list bclass) :
  Forall lv0 (map (fun c => if is_removed c then None else Some 0) l).
Proof.
  apply Forall_forall. intros o Ho. apply in_map_iff in Ho. destruct Ho as [c [<- _]].
  destruct (is_removed c); [left|right]; reflexivity.
Qed.

Lemma x_classes_pure (l r : list bclass) :
  Forall P0 l ->
  Forall P0 (map (fun p : bclass * bclass => match fst p, snd p with FSI, k => k | k, _ => k end) (combine l r)).
Proof.
  revert r; induction l as [|a l IH]; intros r H; cbn [combine map]; [constructor|].
  destruct r as [|b r]; [constructor|]. inversion H; subst. cbn [combine map]. constructor; [|apply IH; assumption].
  cbn [fst snd]. destruct a; try discriminate; assumption.
Qed.

Lemma lev_at0 xlev i : Forall lv0 xlev -> lev_at xlev 0 i = 0.
Proof.
  intros H. unfold lev_at, snth. destruct (nth_in_or_default i xlev None) as [Hin|He].
  - rewrite Forall_forall in H. destruct (H _ Hin) as [E|E]; rewrite E; reflexivity.
  - rewrite He. reflexivity.
Qed.

Lemma seq_sos0 xlev idx sq : Forall lv0 xlev -> seq_sos xlev 0 idx sq = L.
Proof.
  intros H. unfold seq_sos. rewrite lev_at0 by assumption.
  destruct (rev _) as [|j r]; [reflexivity|]. rewrite lev_at0 by assumption. reflexivity.
Qed.

Lemma seq_eos0 cls0 xlev idx sq : Forall lv0 xlev -> seq_eos cls0 xlev 0 idx sq = L.
Proof.
  intros H. unfold seq_eos. rewrite lev_at0 by assumption.
  destruct (_ && _); [reflexivity|].
  destruct (filter _ idx) as [|j r]; [reflexivity|]. rewrite lev_at0 by assumption. reflexivity.
Qed.

Lemma w1_P0 t : forall prev, P0 prev -> Forall P0 t -> Forall P0 (w1 prev t).
Proof.
  induction t as [|c t IH]; intros prev Hp H; cbn [w1]; [constructor|].
  inversion H; subst.
  assert (Hc : P0 (if c =c NSM then if is_iso_ctl prev then ON else prev else c)).
  { destruct (c =c NSM); [|assumption]. destruct (is_iso_ctl prev); [reflexivity|assumption]. }
  constructor; [exact Hc|]. apply IH; assumption.
Qed.

Lemma w2_P0 t : forall strong, P0 strong -> Forall P0 t -> Forall P0 (w2 strong t).
Proof.
  induction t as [|c t IH]; intros strong Hs H; cbn [w2]; [constructor|].
  inversion H; subst. constructor.
  - destruct (c =c EN); cbn [andb]; [|assumption].
    destruct (strong =c AL) eqn:E; [|assumption].
    apply ceq_eq in E. subst strong. discriminate Hs.
  - apply IH; [|assumption]. destruct (is_strong c); assumption.
Qed.

Lemma w3_P0 t : Forall P0 t -> Forall P0 (w3 t).
Proof.
  intros H. unfold w3. apply Forall_forall. intros x Hx. apply in_map_iff in Hx.
  destruct Hx as [c [<- Hc]]. rewrite Forall_forall in H. specialize (H _ Hc).
  destruct c; try discriminate H; exact H.
Qed.

Definition oP0 (o : option bclass) : Prop := match o with Some p => P0 p | None => True end.

Lemma w4_P0 t : forall prev, oP0 prev -> Forall P0 t -> Forall P0 (w4 prev t).
Proof.
  induction t as [|c t IH]; intros prev Hp H; cbn [w4]; [constructor|].
  inversion H as [|c' t' Hc Ht]; subst. constructor; [|apply IH; [exact Hc|exact Ht]].
  destruct prev as [p|]; [|exact Hc].
  cbn [oP0] in Hp.
  (* W4 keeps [c] unless the previous class, [c] and the next one make a pattern; what it then writes (EN) is in P0 *)
  destruct p; try discriminate Hp; try exact Hc;
    destruct c; try exact Hc;
    destruct t as [|x t]; try exact Hc; destruct x; try exact Hc; reflexivity.
Qed.

Lemma w5_fwd_P0 t : forall prev, Forall P0 t -> Forall P0 (w5_fwd prev t).
Proof.
  induction t as [|c t IH]; intros prev H; cbn [w5_fwd]; [constructor|].
  inversion H; subst. constructor; [|apply IH; assumption].
  destruct (_ && _); [reflexivity|assumption].
Qed.

Lemma w5_P0 t : Forall P0 t -> Forall P0 (w5 t).
Proof. intros H. unfold w5. apply Forall_rev, w5_fwd_P0, Forall_rev, w5_fwd_P0, H. Qed.

Lemma w6_P0 t : Forall P0 t -> Forall P0 (w6 t).
Proof.
  intros H. unfold w6. apply Forall_forall. intros x Hx. apply in_map_iff in Hx.
  destruct Hx as [c [<- Hc]]. rewrite Forall_forall in H. specialize (H _ Hc).
  destruct c; try discriminate H; reflexivity.
Qed.

Lemma w7_P1 t : Forall P0 t -> Forall P1 (w7 L t).
Proof.
  induction t as [|c t IH]; intros H; cbn [w7]; [constructor|].
  inversion H as [|c' t' Hc Ht]; subst.
  assert (E : match c with L | R => c | _ => L end = L) by (destruct c; try discriminate Hc; reflexivity).
  rewrite E. constructor; [|apply IH; exact Ht].
  destruct c; try discriminate Hc; reflexivity.
Qed.

Lemma weak_P1 t : Forall P0 t -> Forall P1 (weak L t).
Proof.
  intros H. unfold weak.
  apply w7_P1, w6_P0, w5_P0, w4_P0; [exact I|]. apply w3_P0, w2_P0; [reflexivity|].
  apply w1_P0; [reflexivity|exact H].
Qed.

Lemma nsm_follow_P1 nsm fuel : forall k t, Forall P1 t -> Forall P1 (nsm_follow nsm L k fuel t).
Proof.
  induction fuel as [|f IH]; intros k t H; cbn [nsm_follow]; [exact H|].
  destruct (snth nsm k false); [|exact H]. apply IH, Forall_setnth; [exact H|reflexivity].
Qed.

Lemma n0_one_P1 nsm t p : Forall P1 t -> Forall P1 (n0_one L L nsm t p).
Proof.
  intros H. unfold n0_one. destruct p as [a b].
  set (inside := firstn (b - a - 1) (skipn (S a) t)).
  set (ctx := match find _ (rev (firstn a t)) with Some c => _ | None => L end).
  assert (Hctx : ctx = L).
  { subst ctx. destruct (find _ (rev (firstn a t))) as [c|] eqn:Ef; [|reflexivity].
    apply find_some in Ef. destruct Ef as [Hin _].
    destruct (strong_dir c) as [d|] eqn:Ed; [|reflexivity].
    apply P1_strong_dir with (c := c); [|exact Ed].
    apply in_rev in Hin.
    assert (HF : Forall P1 (firstn a t)) by (apply Forall_firstn, H).
    rewrite Forall_forall in HF. apply HF, Hin. }
  rewrite Hctx.
  assert (Hset : Forall P1
            (nsm_follow nsm L (S b) (length (setnth (setnth t a L) b L))
               (nsm_follow nsm L (S a) (length (setnth (setnth t a L) b L)) (setnth (setnth t a L) b L)))).
  { apply nsm_follow_P1, nsm_follow_P1, Forall_setnth; [|reflexivity].
    apply Forall_setnth; [exact H|reflexivity]. }
  destruct (existsb _ inside); [exact Hset|].
  destruct (existsb _ inside); [exact Hset|exact H].
Qed.

Lemma n0_fold_P1 nsm pairs : forall t, Forall P1 t -> Forall P1 (fold_left (n0_one L L nsm) pairs t).
Proof.
  induction pairs as [|p ps IH]; intros t H; cbn [fold_left]; [exact H|].
  apply IH, n0_one_P1, H.
Qed.

Lemma n12_P1 t : forall lead nexts, P1 lead -> Forall P1 t -> Forall P1 (n12 lead L t nexts).
Proof.
  induction t as [|c t IH]; intros lead nexts Hl H; cbn [n12]; [constructor|].
  destruct nexts as [|nx nr]; [constructor|].
  inversion H as [|c' t' Hc Ht]; subst.
  destruct (is_ni c).
  - constructor; [|apply IH; assumption]. destruct (lead =c nx); [exact Hl|reflexivity].
  - constructor; [exact Hc|]. apply IH; [|exact Ht].
    destruct (strong_dir c) as [d|] eqn:Ed; [|exact Hc].
    rewrite (P1_strong_dir c d Hc Ed). reflexivity.
Qed.

Lemma resolve_classes_P1 brks nsm t0 : Forall P0 t0 -> Forall P1 (resolve_classes L L L brks nsm t0).
Proof.
  intros H. unfold resolve_classes, neutral.
  apply n12_P1; [reflexivity|]. apply n0_fold_P1, weak_P1, H.
Qed.

Definition snd0 (p : nat * nat) : Prop := snd p = 0.

Lemma resolve_sequence_0 cls0 cls brk xlev idx sq :
  Forall lv0 xlev -> Forall P0 cls ->
  Forall snd0 (resolve_sequence cls0 cls brk xlev 0 idx sq).
Proof.
  intros Hx Hc. unfold resolve_sequence.
  rewrite seq_sos0, seq_eos0 by assumption. rewrite lev_at0 by assumption.
  change (dir_of_level 0) with L.
  set (t3 := resolve_classes L L L _ _ _).
  assert (H3 : Forall P1 t3).
  { subst t3. apply resolve_classes_P1. apply Forall_snth; [exact Hc|reflexivity]. }
  apply Forall_forall. intros p Hp. apply in_map_iff in Hp. destruct Hp as [[i c] [<- Hin]].
  unfold snd0. cbn [fst snd]. rewrite lev_at0 by assumption.
  apply P1_implicit. apply in_combine_r in Hin. rewrite Forall_forall in H3. apply H3, Hin.
Qed.

Lemma flat_map_Forall {A B} (P : B -> Prop) (f : A -> list B) (l : list A) :
  (forall a, Forall P (f a)) -> Forall P (flat_map f l).
Proof.
  intros H. induction l as [|a l IH]; cbn [flat_map]; [constructor|].
  apply Forall_app. split; [apply H|exact IH].
Qed.

Lemma assoc_nat_0 k l v : Forall snd0 l -> assoc_nat k l = Some v -> v = 0.
Proof.
  induction l as [|[a b] l IH]; intros H E; cbn [assoc_nat] in E; [discriminate E|].
  inversion H as [|p l' Hp Hl]; subst.
  destruct (a =? k).
  - injection E as <-. exact Hp.
  - apply IH; assumption.
Qed.

Lemma fill_removed_0 l : Forall lv0 l -> fill_removed 0 l = repeat 0 (length l).
Proof.
  induction l as [|o l IH]; intros H; cbn [fill_removed length repeat]; [reflexivity|].
  inversion H as [|o' l' Ho Hl]; subst.
  destruct Ho as [-> | ->]; rewrite IH by assumption; reflexivity.
Qed.

Theorem cs_shortcut_proof : CS_shortcut.
Proof.
  unfold CS_shortcut. intros cls0 brk dir _ _ Hpure Hpl.
  assert (H0 : Forall P0 cls0).
  { apply Forall_forall. intros c Hc. rewrite forallb_forall in Hpure. apply Hpure, Hc. }
  unfold resolve_paragraph. rewrite Hpl.
  unfold explicit_levels. fold st0. rewrite x_run_pure by exact H0.
  set (xlev := map (fun c => if is_removed c then None else Some 0) cls0).
  assert (Hx : Forall lv0 xlev) by apply xlev_lv0.
  set (cls := x_classes cls0 cls0).
  assert (Hc : Forall P0 cls) by (subst cls; unfold x_classes; apply x_classes_pure, H0).
  set (assigned := flat_map _ _).
  assert (Ha : Forall snd0 assigned).
  { subst assigned. apply flat_map_Forall. intros sq. apply resolve_sequence_0; assumption. }
  cbn [snd].
  set (out := map _ (seq 0 (length cls0))).
  assert (Hlen : length out = length cls0) by (subst out; rewrite map_length, seq_length; reflexivity).
  rewrite <- Hlen. apply fill_removed_0.
  subst out. apply Forall_forall. intros o Ho. apply in_map_iff in Ho. destruct Ho as [i [<- _]].
  destruct (is_removed _); [left; reflexivity|].
  destruct (assoc_nat i assigned) as [v|] eqn:Ea.
  - right. f_equal. eapply assoc_nat_0; eassumption.
  - unfold snth. destruct (nth_in_or_default i xlev None) as [Hin|He].
    + rewrite Forall_forall in Hx. apply Hx, Hin.
    + left. exact He.
Qed.
