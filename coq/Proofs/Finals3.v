(* Proofs/Finals3.v — final-form theorems C16 (base direction) and C17 (summary queries), for every
   valid case; C02 restated for the observation of a valid case. *)
From BidiVerif Require Import Base ModelText ModelResolve ModelLine Spec Obs Judge Stmts2 Stmts3 Stmts5.
From BidiVerif.Proofs Require Import ListLib Units JudgeEqb.
From BidiVerif.Proofs Require Import LevelOps CharAnalysis ObsValid Finals2.
From BidiVerif.Props Require Import C02 C16 C17 TextView.

Lemma case_c02 c : valid_case c ->
  exists cls paras, to_ii (model_obs false c) = Ok (cls, paras) /\
    classes_follow_spec (spec_text c) cls = true /\ paras_follow_spec (spec_text c) paras = true.
Proof.
  intros (_ & Hv & Hf & _). rewrite case_chars_view in Hf.
  destruct (C02_paragraphs_levels_fsi (tc_enc c) (tc_ds c) (tc_text c) _ (tc_dir c)
              (view_of_ok _ _ Hv) Hf) as (ii & H1 & H2 & H3 & _).
  exists (in_classes ii), (in_paras ii). unfold spec_text. rewrite case_chars_view.
  split; [|split; assumption]. unfold model_obs. cbn [to_ii]. rewrite H1. reflexivity.
Qed.

Lemma split_from_map {A} (f : A -> bclass) : forall l cur,
  split_paragraphs_from (fun k : bclass => k) (map f cur) (map f l)
  = map (map f) (split_paragraphs_from f cur l).
Proof.
  induction l as [|x r IH]; intros cur; cbn [map split_paragraphs_from].
  - destruct cur; reflexivity.
  - change [f x] with (map f [x]). rewrite <- map_app.
    destruct (f x =c B).
    + cbn [map]. f_equal. exact (IH []).
    + apply IH.
Qed.

Lemma split_map {A} (f : A -> bclass) l :
  split_paragraphs (fun k : bclass => k) (map f l) = map (map f) (split_paragraphs f l).
Proof. exact (split_from_map f l []). Qed.

Lemma spec_paras_head ds d P p rest : exists s tl,
  spec_paras_from ds d P (p :: rest) = s :: tl /\
  sp_level s = para_level (map (fun ch : N * nat => ds_class ds (fst ch)) p) d.
Proof.
  cbn [spec_paras_from]. unfold resolve_paragraph. destruct (explicit_levels _ _).
  eexists _, _. split; reflexivity.
Qed.

Lemma c16_final_proof : C16_final.
Proof.
  intros c Hvc. pose proof Hvc as (_ & Hv & _).
  destruct (view_of_ok _ _ Hv) as (_ & _ & Hch & _).
  destruct (C16_base_direction (tc_enc c) (tc_ds c) (tc_text c)) as (D1 & D2 & D3).
  cbv zeta in D1, D2, D3. unfold get_base_direction in D1, D2. rewrite Hch, map_map, split_map in D1, D2, D3.
  destruct (case_c02 c Hvc) as (cs & ps & Eii & _ & Hps).
  destruct (valid_obs c Hvc) as (b & p & cl & _ & _ & E). rewrite E in *.
  cbn [lift_obs to_ii] in Eii. injection Eii as _ <-.
  unfold C16_judge, lift_obs. cbn [to_bd to_bdf to_bi okb xbi bi_paras].
  rewrite case_chars_view, D1, D2, !dir_eqb_refl. cbn [andb].
  destruct (tc_dir c) eqn:Ed; [reflexivity|].
  unfold spec_text in Hps. rewrite case_chars_view, Ed in Hps.
  destruct (split_paragraphs _ (view_of (tc_enc c) (tc_text c))) as [|q rest] eqn:Es; cbn [map].
  - reflexivity.
  - destruct (spec_paras_head (tc_ds c) None 0 q rest) as (s & tl & Esp & Hs). rewrite Esp in Hps.
    unfold paras_follow_spec in Hps.
    destruct (map _ (bi_paras b)) as [|q0 qs]; [discriminate|]. cbn [list_eqb2] in Hps.
    apply andb_true_iff in Hps as [Hq _]. apply andb_true_iff in Hq as [_ Hq].
    apply Nat.eqb_eq in Hq. rewrite Hq, Hs.
    destruct (D3 _ (or_introl eq_refl)) as [L1 L2].
    destruct (spec_direction _) eqn:Esd; [rewrite (L1 eq_refl) | rewrite (L2 eq_refl) |]; reflexivity.
Qed.

Lemma direction_ok_para lv : direction_ok' lv (para_direction lv) = true.
Proof.
  destruct lv as [|x t] eqn:E; [reflexivity|]. rewrite <- E.
  assert (Hne : lv <> []) by (rewrite E; discriminate).
  destruct (proj1 C17_summary_queries lv Hne) as [HL HR].
  unfold direction_ok'. rewrite E at 1. unfold all_even, all_odd.
  rewrite !Forall_forall, <- !forallb_forall in HL, HR.
  destruct (para_direction lv) eqn:Ed.
  - apply HL. reflexivity.
  - apply HR. reflexivity.
  - apply andb_true_iff. split; apply negb_true_iff, Bool.not_true_iff_false; intros Ef;
      [apply HL in Ef | apply HR in Ef]; discriminate.
Qed.

Lemma has_rtl_odd lv : levels_has_rtl lv = existsb Nat.odd lv.
Proof.
  unfold levels_has_rtl. induction lv as [|x t IH]; [reflexivity|].
  cbn [existsb]. rewrite is_rtl_odd, IH. reflexivity.
Qed.

Lemma line_text_sub c i j : valid_case c ->
  i < j -> j <= length (view_of (tc_enc c) (tc_text c)) ->
  exists s, t_subrange 596 (tc_enc c) (tc_text c) (fst (the_line (tc_enc c) (tc_text c) i j))
                       (snd (the_line (tc_enc c) (tc_text c) i j)) = Ok s /\
            line_text c (the_line (tc_enc c) (tc_text c) i j) = Some s.
Proof.
  intros (Henc & Hv & _) Hij Hj.
  destruct (subrange_view_ok 596 _ _ i j Hv ltac:(lia) Hj) as (s & Es & Ev & _).
  exists s. split; [exact Es|]. unfold line_text, the_line. cbn [fst snd].
  destruct Henc as [He|He]; rewrite He in *.
  - rewrite case_chars_view, He.
    pose proof (chars_in_sub (view_of U8 (tc_text c)) 0 i j (fl_lens_pos U8 _ I) ltac:(lia) Hj) as Hci.
    cbn [Nat.add] in Hci. rewrite Hci. unfold sub. rewrite <- Ev. cbn [option_map view_of].
    rewrite map_map, map_id. reflexivity.
  - cbn [t_subrange] in Es. apply slice_ok_inv in Es as (_ & _ & ->). reflexivity.
Qed.

Lemma c17_final_proof : C17_final.
Proof.
  intros c Hvc. destruct (valid_obs c Hvc) as (b & p & cl & CA & Hcl & E).
  pose proof Hvc as (_ & Hv & _ & Hd & _).
  assert (Epi : para_bidi_info_new (tc_enc c) (tc_ds c) (tc_text c) (tc_dir c)
                = Ok (xpi (map snd (view_of (tc_enc c) (tc_text c))) p))
    by (change (to_pi (model_obs false c) = Ok (xpi (map snd (view_of (tc_enc c) (tc_text c))) p));
        rewrite E; reflexivity).
  pose proof (fl_lens_pos _ _ Hv) as Hpos. pose proof (fl_lens_length (tc_enc c) (tc_text c)) as Hlk.
  set (lens := map snd (view_of (tc_enc c) (tc_text c))) in *.
  assert (Hlp : length (pb_levels p) = length lens)
    by (rewrite (ca_pi_lv _ _ _ _ _ CA), Hlk; apply map_length).
  assert (Hlb : length (bi_levels b) = length lens)
    by (rewrite (ca_bi_lv _ _ _ _ _ CA), Hlk; apply map_length).
  unfold C17_judge. rewrite E. unfold lift_obs. fold lens.
  cbn [to_bi to_bi_dirs to_bi_level_at to_bi_has_rtl to_pi to_pi_dir to_pi_has_rtl to_pi_lines
       okb xbi bi_paras bi_levels xpi pb_levels].
  rewrite !map_length, !Nat.eqb_refl, !forallb_combine_maps. cbn [andb fst snd upara p_start p_end].
  apply andb_true_iff. split; [apply andb_true_iff; split; [apply andb_true_iff; split|]|].
  - apply forallb_forall. intros q Hq. destruct (upara_in _ _ _ _ _ _ CA q Hq) as (A1 & A2 & _).
    fold (sub (expand lens (bi_levels b)) (ustart lens (p_start q)) (ustart lens (p_end q))).
    rewrite sub_expand by assumption.
    rewrite <- (para_direction_expand (sub lens (p_start q) (p_end q)));
      [apply direction_ok_para | apply Forall_sub, Hpos | rewrite !sub_length by lia; reflexivity].
  - apply forallb_forall. intros q Hq. destruct (upara_in _ _ _ _ _ _ CA q Hq) as (A1 & A2 & _).
    fold (sub (expand lens (bi_levels b)) (ustart lens (p_start q)) (ustart lens (p_end q))).
    rewrite sub_expand by assumption. apply nat_list_eqb_refl.
  - rewrite <- !has_rtl_odd. unfold levels_has_rtl.
    rewrite (existsb_expand _ lens Hpos) by exact Hlb.
    apply Bool.eqb_reflx.
  - rewrite <- (para_direction_expand lens) by assumption. rewrite direction_ok_para. cbn [andb].
    destruct (para_bidi_info_has_rtl false p) eqn:Eh; [reflexivity|].
    destruct (proj2 (proj2 (proj2 C17_summary_queries)) _ _ _ _ _ Hd Epi Eh) as [Hev Hro].
    apply andb_true_iff. split.
    + apply negb_true_iff. destruct (existsb Nat.odd _) eqn:Ex; [|reflexivity].
      apply existsb_exists in Ex as (x & Hx & Hodd). rewrite Forall_forall in Hev.
      specialize (Hev x Hx). rewrite <- Nat.negb_odd, Hodd in Hev. discriminate.
    + (* every line is its own text *)
      apply forallb_forall. intros lo Hin. apply in_map_iff in Hin as ([i j] & <- & Hr).
      rewrite Forall_forall in Hcl. destruct (Hcl _ Hr) as [Hij Hj]. cbn [fst snd] in Hij, Hj |- *.
      rewrite fl_line. destruct (line_text_sub c i j Hvc Hij Hj) as (s & Hs & Ht). rewrite Ht.
      unfold the_lo, model_line. cbn [lo_ro bind]. fold lens.
      change (expand lens (pb_classes p)) with (pb_classes (xpi lens p)).
      change (expand lens (pb_levels p)) with (pb_levels (xpi lens p)).
      change (pb_level p) with (pb_level (xpi lens p)).
      rewrite Hro.
      * rewrite Hs. apply N_list_eqb_refl.
      * unfold the_line. cbn [fst snd]. apply ustart_mono. lia.
      * unfold the_line. cbn [fst snd xpi pb_levels]. rewrite expand_length by exact Hlp. apply ustart_le_total.
Qed.
