(* Proofs/ParaIndep.v — C10: paragraph independence of BidiInfo::new and agreement of
   ParagraphBidiInfo::new with it on single-paragraph texts.
   The scanner of compute_initial_info commutes with a shift of positions (arbitrary prefix of
   classes, of paragraphs and of flags), so the scan of a text cut after a class-B character is the
   scan of the first part followed by the shifted scan of the rest; on a single paragraph split and
   non-split mode agree; the per-paragraph loop [bidi_paras] then sees each paragraph as the
   constructor would see it alone. *)
From BidiVerif Require Import Base ModelText ModelResolve Stmts Stmts2 Stmts4 Stmts6.
From BidiVerif.Proofs Require Import ListLib.
From BidiVerif.Proofs Require Import Utf16 TextView InitialInfo Pipeline.

Definition rmap {A B} (f : A -> B) (r : res A) : res B :=
  match r with Ok a => Ok (f a) | Panic s => Panic s end.

Lemma rmap_bind {A B C} (g : B -> C) (r : res A) (f : A -> res B) :
  rmap g (bind r f) = bind r (fun a => rmap g (f a)).
Proof. destruct r; reflexivity. Qed.

Lemma bind_rmap {A B C} (g : A -> B) (r : res A) (f : B -> res C) :
  bind (rmap g r) f = bind r (fun a => f (g a)).
Proof. destruct r; reflexivity. Qed.

Lemma get_app_shift {A} site (pre l : list A) k i : length pre = k ->
  get site (pre ++ l) (k + i) = get site l i.
Proof.
  intros <-. unfold get. rewrite nth_error_app2 by lia.
  replace (length pre + i - length pre) with i by lia. reflexivity.
Qed.

Lemma upd_opt_app_shift {A} (pre : list A) : forall l i x,
  upd_opt (pre ++ l) (length pre + i) x = option_map (app pre) (upd_opt l i x).
Proof.
  induction pre as [|a pre IH]; intros l i x.
  - cbn [app length Nat.add]. destruct (upd_opt l i x); reflexivity.
  - cbn [app length Nat.add upd_opt]. rewrite IH.
    destruct (upd_opt l i x); reflexivity.
Qed.

Lemma upd_app_shift {A} site (pre l : list A) k i x : length pre = k ->
  upd site (pre ++ l) (k + i) x = rmap (app pre) (upd site l i x).
Proof.
  intros <-. unfold upd. rewrite upd_opt_app_shift.
  destruct (upd_opt l i x); reflexivity.
Qed.

Section Scan.
Variable e : enc.
Variable ds : datasource.

Lemma write_fsi_app_shift (pre : list bclass) k kk : length pre = k -> forall js l s,
  write_fsi (pre ++ l) (k + s) js kk = rmap (app pre) (write_fsi l s js kk).
Proof.
  intros Hk. induction js as [|j js IH]; intros l s.
  - reflexivity.
  - cbn [write_fsi]. rewrite <- Nat.add_assoc, (upd_app_shift _ pre l k (s + j) kk Hk).
    rewrite bind_rmap, rmap_bind.
    destruct (upd 387 l (s + j) kk) as [l'|site]; cbn [bind]; [apply IH | reflexivity].
Qed.

Lemma write_fsi_length kk : forall js l s l', write_fsi l s js kk = Ok l' -> length l' = length l.
Proof.
  induction js as [|j js IH]; intros l s l' H.
  - injection H as <-. reflexivity.
  - cbn [write_fsi] in H. apply bind_ok in H as (l1 & H1 & H2).
    rewrite (IH _ _ _ H2). exact (upd_length _ _ _ _ _ H1).
Qed.

Definition shiftp (k : nat) (p : para_info) : para_info :=
  {| p_start := k + p_start p; p_end := k + p_end p; p_level := p_level p |}.

Definition shift_st (k : nat) (pre : list bclass) (P : list para_info) (F : list para_flags)
           (s : ii_state) : ii_state :=
  {| ii_classes := pre ++ ii_classes s; ii_stack := map (Nat.add k) (ii_stack s);
     ii_para_start := k + ii_para_start s; ii_para_level := ii_para_level s;
     ii_pure := ii_pure s; ii_iso := ii_iso s;
     ii_paras := P ++ map (shiftp k) (ii_paras s); ii_flags := F ++ ii_flags s |}.

Lemma step_shift split dl k pre P F s i c : length pre = k ->
  ii_step e ds split dl (shift_st k pre P F s) (k + i, c)
  = rmap (shift_st k pre P F) (ii_step e ds split dl s (i, c)).
Proof.
  intros Hk. unfold ii_step.
  cbn [shift_st ii_classes ii_stack ii_para_start ii_para_level ii_pure ii_iso ii_paras ii_flags].
  rewrite <- !app_assoc.
  destruct (ds_class ds c) eqn:EC; cbn [rmap ceq bclass_beq]; try reflexivity.
  all: try (destruct (ii_stack s) as [|st stk]; cbn [map rmap];
            [reflexivity |
             rewrite (get_app_shift _ pre _ k st Hk);
             destruct (get 383 (ii_classes s ++ repeat _ (char_len e c)) st) as [kk|site];
             cbn [bind rmap]; [|reflexivity];
             destruct (kk =c FSI);
             [ rewrite (write_fsi_app_shift pre k _ Hk);
               destruct (write_fsi _ st _ _) as [l'|site]; cbn [bind rmap]; reflexivity
             | cbn [bind rmap]; reflexivity ]]).
  - (* B *) destruct split; cbn [rmap]; [|reflexivity].
    unfold shift_st.
    cbn [ii_classes ii_stack ii_para_start ii_para_level ii_pure ii_iso ii_paras ii_flags map].
    rewrite map_app. cbn [map]. unfold shiftp at 3. cbn [p_start p_end p_level]. rewrite !Nat.add_assoc. reflexivity.
  - (* PDI *) unfold shift_st.
    cbn [ii_classes ii_stack ii_para_start ii_para_level ii_pure ii_iso ii_paras ii_flags].
    destruct (ii_stack s); reflexivity.
Qed.

Definition shift_ic (k : nat) (ic : nat * N) : nat * N := (k + fst ic, snd ic).

Lemma fold_shift split dl k pre P F : length pre = k -> forall l s,
  ii_fold e ds split dl (shift_st k pre P F s) (map (shift_ic k) l)
  = rmap (shift_st k pre P F) (ii_fold e ds split dl s l).
Proof.
  intros Hk. induction l as [|[i c] l IH]; intros s.
  - reflexivity.
  - cbn [map ii_fold]. change (shift_ic k (i, c)) with (k + i, c). rewrite step_shift by exact Hk.
    rewrite bind_rmap, rmap_bind.
    destruct (ii_step e ds split dl s (i, c)) as [s1|site]; cbn [bind]; [apply IH | reflexivity].
Qed.

End Scan.

(* compute_initial_info on the characters of a text *)
Section Info.
Variable e : enc.
Variable ds : datasource.
Variable d : option nat.

Definition st0 : ii_state :=
  {| ii_classes := []; ii_stack := []; ii_para_start := 0; ii_para_level := d;
     ii_pure := true; ii_iso := false; ii_paras := []; ii_flags := [] |}.

Definition finalize (split : bool) (st : ii_state) (n : nat) : initial_info :=
  {| in_classes := ii_classes st; in_level := opt_or (ii_para_level st) 0;
     in_pure := ii_pure st; in_iso := ii_iso st;
     in_paras := if split && (ii_para_start st <? n)
                 then ii_paras st ++ [{| p_start := ii_para_start st; p_end := n;
                                         p_level := opt_or (ii_para_level st) 0 |}]
                 else ii_paras st;
     in_flags := if split && (ii_para_start st <? n)
                 then ii_flags st ++ [{| f_pure_ltr := ii_pure st; f_has_isolate := ii_iso st |}]
                 else ii_flags st |}.

Definition cinfo (split : bool) (chars : list (N * nat)) : res initial_info :=
  st <- ii_fold e ds split d st0 (idx 0 chars) ;; Ok (finalize split st (slen chars)).

Lemma cinfo_view split text chars : text_view e text chars ->
  compute_initial_info e ds text d split = cinfo split chars.
Proof.
  intros (V1 & _ & _ & V4 & _). unfold compute_initial_info, cinfo. fold st0.
  unfold idx. rewrite <- V1. rewrite V4, total_slen.
  destruct (ii_fold e ds split d st0 (t_char_indices e text)) as [st|site]; cbn [bind]; [|reflexivity].
  unfold finalize. destruct (split && (ii_para_start st <? slen chars)); reflexivity.
Qed.

Lemma cinfo_nil split : cinfo split [] = Ok (finalize split st0 0).
Proof. reflexivity. Qed.

Definition lenok (l : list (N * nat)) : Prop :=
  Forall (fun ch : N * nat => snd ch = char_len e (fst ch) /\ 0 < snd ch) l.
Definition noB (l : list (N * nat)) : Prop :=
  Forall (fun ch : N * nat => ds_class ds (fst ch) <> B) l.

Lemma idx_cons p c n r : idx p ((c, n) :: r) = (p, c) :: idx (p + n) r.
Proof. reflexivity. Qed.

Lemma idx_app a : forall p b, idx p (a ++ b) = idx p a ++ idx (p + slen a) b.
Proof.
  induction a as [|[c n] a IH]; intros p b.
  - cbn [app]. rewrite slen_nil, Nat.add_0_r. reflexivity.
  - cbn [app]. rewrite !idx_cons, IH, slen_cons, Nat.add_assoc. reflexivity.
Qed.

Lemma idx_shift k l : forall p, idx (k + p) l = map (shift_ic k) (idx p l).
Proof.
  induction l as [|[c n] l IH]; intros p.
  - reflexivity.
  - rewrite !idx_cons. cbn [map]. rewrite <- Nat.add_assoc, IH. reflexivity.
Qed.

Lemma ii_fold_app split dl l1 : forall s l2,
  ii_fold e ds split dl s (l1 ++ l2)
  = (s1 <- ii_fold e ds split dl s l1 ;; ii_fold e ds split dl s1 l2).
Proof.
  induction l1 as [|ic l1 IH]; intros s l2.
  - reflexivity.
  - cbn [app ii_fold]. destruct (ii_step e ds split dl s ic) as [s'|site]; cbn [bind]; [apply IH | reflexivity].
Qed.

Lemma step_len split dl s i c s' : ii_step e ds split dl s (i, c) = Ok s' ->
  length (ii_classes s') = length (ii_classes s) + char_len e c.
Proof.
  unfold ii_step. intros H.
  assert (HL : length (ii_classes s ++ repeat (ds_class ds c) (char_len e c))
               = length (ii_classes s) + char_len e c)
    by (rewrite app_length, repeat_length; reflexivity).
  destruct (ds_class ds c) eqn:EC;
    try (injection H as <-; exact HL);
    try (destruct split; injection H as <-; exact HL).
  all: destruct (ii_stack s) as [|st stk]; [injection H as <-; exact HL|].
  all: apply bind_ok in H as (kk & _ & H).
  all: apply bind_ok in H as (cl' & H1 & H); injection H as <-.
  all: cbn [ii_classes]; destruct (kk =c FSI);
    [ rewrite (write_fsi_length _ _ _ _ _ H1); exact HL | injection H1 as <-; exact HL ].
Qed.

Lemma step_noB_split split split' dl s i c : ds_class ds c <> B ->
  ii_step e ds split dl s (i, c) = ii_step e ds split' dl s (i, c).
Proof.
  intros HB. unfold ii_step. destruct (ds_class ds c); try reflexivity. contradiction.
Qed.

Lemma step_noB_keep split dl s i c s' : ds_class ds c <> B ->
  ii_step e ds split dl s (i, c) = Ok s' ->
  ii_paras s' = ii_paras s /\ ii_flags s' = ii_flags s /\ ii_para_start s' = ii_para_start s.
Proof.
  intros HB. unfold ii_step. intros H.
  destruct (ds_class ds c) eqn:EC; try contradiction;
    try (injection H as <-; repeat split; reflexivity).
  all: destruct (ii_stack s) as [|st stk]; [injection H as <-; repeat split; reflexivity|].
  all: apply bind_ok in H as (kk & _ & H).
  all: apply bind_ok in H as (cl' & _ & H); injection H as <-.
  all: repeat split; reflexivity.
Qed.

Lemma fold_len split dl l : lenok l -> forall p s s',
  ii_fold e ds split dl s (idx p l) = Ok s' ->
  length (ii_classes s') = length (ii_classes s) + slen l.
Proof.
  induction l as [|[c n] l IH]; intros Hok p s s' H.
  - injection H as <-. rewrite slen_nil. lia.
  - inversion Hok as [|? ? Hx Hr]; subst. cbn [fst snd] in Hx. destruct Hx as (Hx & _).
    rewrite idx_cons in H. cbn [ii_fold] in H.
    apply bind_ok in H as (s1 & H1 & H).
    rewrite (IH Hr _ _ _ H), (step_len _ _ _ _ _ _ H1), slen_cons, Hx. lia.
Qed.

Lemma fold_noB_split split split' dl l : noB l -> forall p s,
  ii_fold e ds split dl s (idx p l) = ii_fold e ds split' dl s (idx p l).
Proof.
  induction l as [|[c n] l IH]; intros HB p s.
  - reflexivity.
  - inversion HB as [|? ? Hx Hr]; subst. cbn [fst] in Hx.
    rewrite idx_cons. cbn [ii_fold]. rewrite (step_noB_split split split' dl s p c Hx).
    destruct (ii_step e ds split' dl s (p, c)) as [s1|site]; cbn [bind]; [apply (IH Hr) | reflexivity].
Qed.

Lemma fold_noB_keep split dl l : noB l -> forall p s s',
  ii_fold e ds split dl s (idx p l) = Ok s' ->
  ii_paras s' = ii_paras s /\ ii_flags s' = ii_flags s /\ ii_para_start s' = ii_para_start s.
Proof.
  induction l as [|[c n] l IH]; intros HB p s s' H.
  - injection H as <-. repeat split; reflexivity.
  - inversion HB as [|? ? Hx Hr]; subst. cbn [fst] in Hx.
    rewrite idx_cons in H. cbn [ii_fold] in H.
    apply bind_ok in H as (s1 & H1 & H).
    destruct (IH Hr _ _ _ H) as (A1 & A2 & A3).
    destruct (step_noB_keep _ _ _ _ _ _ Hx H1) as (B1 & B2 & B3).
    rewrite A1, A2, A3, B1, B2, B3. repeat split; reflexivity.
Qed.

Lemma slen_pos l : lenok l -> l <> [] -> 0 < slen l.
Proof.
  intros H Hne. destruct l as [|[c n] l]; [contradiction|].
  inversion H as [|? ? Hx _]; subst. cbn [snd] in Hx. rewrite slen_cons. lia.
Qed.

Lemma first_B l : noB l \/ exists A c n R, l = A ++ (c, n) :: R /\ noB A /\ ds_class ds c = B.
Proof.
  induction l as [|[c n] l IH].
  - left. constructor.
  - destruct (bclass_eq_dec (ds_class ds c) B) as [E|NE].
    + right. exists [], c, n, l. split; [reflexivity|]. split; [constructor | exact E].
    + destruct IH as [H | (A & c' & n' & R & -> & HA & HB)].
      * left. constructor; [exact NE | exact H].
      * right. exists ((c, n) :: A), c', n', R. split; [reflexivity|].
        split; [constructor; [exact NE | exact HA] | exact HB].
Qed.

Definition onepara (l : list (N * nat)) : Prop :=
  l <> [] /\ exists A T, l = A ++ T /\ noB A /\
                         (T = [] \/ exists c n, T = [(c, n)] /\ ds_class ds c = B).

Lemma single_para l ii : lenok l -> onepara l -> cinfo true l = Ok ii ->
  exists lv pure iso,
    in_paras ii = [{| p_start := 0; p_end := slen l; p_level := lv |}] /\
    in_flags ii = [{| f_pure_ltr := pure; f_has_isolate := iso |}] /\
    length (in_classes ii) = slen l /\
    cinfo false l = Ok {| in_classes := in_classes ii; in_level := lv; in_pure := pure; in_iso := iso;
                          in_paras := []; in_flags := [] |}.
Proof.
  intros Hok (Hne & A & T & -> & HA & HT) H.
  unfold cinfo in H. apply bind_ok in H as (s & Hs & H). injection H as <-.
  pose proof (fold_len _ _ _ Hok _ _ _ Hs) as HL. cbn [st0 ii_classes length Nat.add] in HL.
  destruct HT as [-> | (c & n & -> & HB)].
  - rewrite app_nil_r in *.
    destruct (fold_noB_keep _ _ _ HA _ _ _ Hs) as (K1 & K2 & K3).
    cbn [st0 ii_paras ii_flags ii_para_start] in K1, K2, K3.
    pose proof (slen_pos A Hok Hne) as Hp.
    exists (opt_or (ii_para_level s) 0), (ii_pure s), (ii_iso s).
    unfold finalize. cbn [in_paras in_flags in_classes].
    rewrite K1, K2, K3. cbn [andb]. destruct (Nat.ltb_spec 0 (slen A)) as [_|]; [|lia].
    cbn [app]. split; [reflexivity|]. split; [reflexivity|]. split; [exact HL|].
    unfold cinfo. rewrite (fold_noB_split false true d A HA), Hs. cbn [bind].
    unfold finalize. cbn [andb]. rewrite K1, K2. reflexivity.
  - rewrite idx_app, ii_fold_app in Hs. apply bind_ok in Hs as (sA & HsA & Hs).
    rewrite idx_cons in Hs. cbn [ii_fold idx map positions] in Hs.
    apply bind_ok in Hs as (s1 & Hs1 & Hs). injection Hs as <-.
    destruct (fold_noB_keep _ _ _ HA _ _ _ HsA) as (K1 & K2 & K3).
    cbn [st0 ii_paras ii_flags ii_para_start] in K1, K2, K3.
    apply Forall_app in Hok. destruct Hok as (HokA & HokT).
    inversion HokT as [|? ? Hx _]; subst. cbn [fst snd] in Hx. destruct Hx as (Hx & Hn).
    rewrite (ii_step_B e ds d sA _ c n HB Hx) in Hs1. injection Hs1 as <-.
    exists (opt_or (ii_para_level sA) 0), (ii_pure sA), (ii_iso sA).
    unfold finalize.
    cbn [in_paras in_flags in_classes ii_paras ii_flags ii_classes ii_para_start ii_para_level] in *.
    rewrite K1, K2, K3. cbn [andb app Nat.add].
    rewrite slen_app, slen_cons, slen_nil, Nat.add_0_r, Nat.ltb_irrefl.
    split; [reflexivity|]. split; [reflexivity|].
    split; [rewrite HL, slen_app, slen_cons, slen_nil; lia|].
    unfold cinfo. rewrite idx_app, ii_fold_app.
    rewrite (fold_noB_split false true d A HA), HsA. cbn [bind].
    rewrite idx_cons. cbn [ii_fold idx map positions].
    unfold ii_step. rewrite HB. cbn [bind]. unfold finalize. cbn [andb].
    cbn [in_paras in_flags in_classes ii_paras ii_flags ii_classes ii_para_start ii_para_level ii_pure ii_iso].
    rewrite K1, K2, Hx. reflexivity.
Qed.

Lemma after_B A c n s1 : lenok (A ++ [(c, n)]) -> ds_class ds c = B ->
  ii_fold e ds true d st0 (idx 0 (A ++ [(c, n)])) = Ok s1 ->
  length (ii_classes s1) = slen (A ++ [(c, n)]) /\
  s1 = shift_st (slen (A ++ [(c, n)])) (ii_classes s1) (ii_paras s1) (ii_flags s1) st0.
Proof.
  intros Hok HB Hs.
  pose proof (fold_len _ _ _ Hok _ _ _ Hs) as HL. cbn [st0 ii_classes length Nat.add] in HL.
  split; [exact HL|].
  rewrite idx_app, ii_fold_app in Hs. apply bind_ok in Hs as (sA & HsA & Hs).
  rewrite idx_cons in Hs. cbn [ii_fold idx map positions] in Hs.
  apply bind_ok in Hs as (s' & Hs1 & Hs). injection Hs as <-.
  apply Forall_app in Hok. destruct Hok as (_ & HokT).
  inversion HokT as [|? ? Hx _]; subst. cbn [fst snd] in Hx. destruct Hx as (Hx & Hn).
  rewrite (ii_step_B e ds d sA _ c n HB Hx) in Hs1. injection Hs1 as <-.
  unfold shift_st, st0.
  cbn [ii_classes ii_stack ii_para_start ii_para_level ii_pure ii_iso ii_paras ii_flags map].
  rewrite !app_nil_r, Nat.add_0_r, slen_app, slen_cons, slen_nil, Nat.add_0_r. reflexivity.
Qed.

Lemma cinfo_split A c n R ii : lenok ((A ++ [(c, n)]) ++ R) -> ds_class ds c = B ->
  cinfo true ((A ++ [(c, n)]) ++ R) = Ok ii ->
  exists ii1 iiR,
    cinfo true (A ++ [(c, n)]) = Ok ii1 /\ cinfo true R = Ok iiR /\
    in_classes ii = in_classes ii1 ++ in_classes iiR /\
    in_paras ii = in_paras ii1 ++ map (shiftp (slen (A ++ [(c, n)]))) (in_paras iiR) /\
    in_flags ii = in_flags ii1 ++ in_flags iiR /\
    length (in_classes ii1) = slen (A ++ [(c, n)]).
Proof.
  intros Hok HB H. set (A1 := A ++ [(c, n)]) in *.
  apply Forall_app in Hok. destruct Hok as (Hok1 & HokR).
  unfold cinfo in H. apply bind_ok in H as (s & Hs & H). injection H as <-.
  rewrite idx_app, ii_fold_app in Hs. apply bind_ok in Hs as (s1 & Hs1 & Hs).
  destruct (after_B A c n s1 Hok1 HB Hs1) as (HL & E1). fold A1 in HL, E1.
  set (k := slen A1) in *.
  replace (0 + k) with (k + 0) in Hs by lia.
  rewrite idx_shift, E1, (fold_shift e ds true d k _ _ _ HL) in Hs.
  destruct (ii_fold e ds true d st0 (idx 0 R)) as [sR|site] eqn:ER; [|discriminate Hs].
  cbn [rmap] in Hs. injection Hs as <-.
  exists (finalize true s1 k), (finalize true sR (slen R)).
  split; [unfold cinfo; rewrite Hs1; reflexivity|].
  split; [unfold cinfo; rewrite ER; reflexivity|].
  assert (Hst : ii_para_start s1 = k) by (rewrite E1; cbn [shift_st ii_para_start st0]; lia).
  unfold finalize.
  cbn [in_classes in_paras in_flags shift_st ii_classes ii_paras ii_flags ii_para_start
       ii_para_level ii_pure ii_iso andb].
  rewrite Hst, Nat.ltb_irrefl, slen_app. fold k.
  split; [reflexivity|].
  assert (Hlt : (k + ii_para_start sR <? k + slen R) = (ii_para_start sR <? slen R)).
  { destruct (Nat.ltb_spec (ii_para_start sR) (slen R)) as [Hc|Hc];
      [apply Nat.ltb_lt | apply Nat.ltb_ge]; lia. }
  rewrite Hlt. destruct (ii_para_start sR <? slen R).
  - split; [|split; [|exact HL]].
    + rewrite map_app, <- app_assoc. reflexivity.
    + rewrite <- app_assoc. reflexivity.
  - split; [reflexivity|]. split; [reflexivity | exact HL].
Qed.

Lemma onepara_noB l : l <> [] -> noB l -> onepara l.
Proof.
  intros Hne H. split; [exact Hne|]. exists l, []. rewrite app_nil_r.
  split; [reflexivity|]. split; [exact H | left; reflexivity].
Qed.

Lemma onepara_B A c n : noB A -> ds_class ds c = B -> onepara (A ++ [(c, n)]).
Proof.
  intros HA HB. split; [destruct A; discriminate|]. exists A, [(c, n)].
  split; [reflexivity|]. split; [exact HA|]. right. exists c, n. split; [reflexivity | exact HB].
Qed.

Lemma cons_app_snoc {A} (l : list A) x r : l ++ x :: r = (l ++ [x]) ++ r.
Proof. rewrite <- app_assoc. reflexivity. Qed.

Lemma paras_nonempty l ii : lenok l -> l <> [] -> cinfo true l = Ok ii -> in_paras ii <> [].
Proof.
  intros Hok Hne H.
  destruct (first_B l) as [HN | (A & c & n & R & -> & HA & HB)].
  - destruct (single_para l ii Hok (onepara_noB l Hne HN) H) as (lv & pu & iso & E & _).
    rewrite E. discriminate.
  - rewrite cons_app_snoc in H, Hok.
    destruct (cinfo_split A c n R ii Hok HB H) as (ii1 & iiR & H1 & _ & _ & EP & _).
    apply Forall_app in Hok. destruct Hok as (Hok1 & _).
    destruct (single_para _ ii1 Hok1 (onepara_B A c n HA HB) H1) as (lv & pu & iso & E & _).
    rewrite EP, E. discriminate.
Qed.

Lemma le1_onepara l ii : lenok l -> l <> [] -> cinfo true l = Ok ii ->
  length (in_paras ii) <= 1 -> onepara l.
Proof.
  intros Hok Hne H Hle.
  destruct (first_B l) as [HN | (A & c & n & R & -> & HA & HB)].
  - exact (onepara_noB l Hne HN).
  - destruct R as [|x R]; [exact (onepara_B A c n HA HB)|].
    exfalso. rewrite cons_app_snoc in H, Hok.
    destruct (cinfo_split A c n (x :: R) ii Hok HB H) as (ii1 & iiR & H1 & HR & _ & EP & _).
    apply Forall_app in Hok. destruct Hok as (Hok1 & HokR).
    destruct (single_para _ ii1 Hok1 (onepara_B A c n HA HB) H1) as (lv & pu & iso & E & _).
    assert (HRne : in_paras iiR <> []) by (apply (paras_nonempty (x :: R)); [exact HokR | discriminate | exact HR]).
    rewrite EP, E in Hle. cbn [app length] in Hle. rewrite map_length in Hle.
    destruct (in_paras iiR); [contradiction | cbn [length] in Hle; lia].
Qed.

Definition good_para (chars : list (N * nat)) (cls : list bclass) (p : para_info) (f : para_flags) : Prop :=
  exists i1 i2 iis,
    i1 <= i2 /\ i2 <= length chars /\
    p_start p = slen (firstn i1 chars) /\ p_end p = slen (firstn i2 chars) /\
    cinfo true (firstn (i2 - i1) (skipn i1 chars)) = Ok iis /\
    in_classes iis = firstn (p_end p - p_start p) (skipn (p_start p) cls) /\
    in_paras iis = [{| p_start := 0; p_end := p_end p - p_start p; p_level := p_level p |}] /\
    in_flags iis = [f].

Lemma good_para_whole l ii lv pu iso : length (in_classes ii) = slen l -> cinfo true l = Ok ii ->
  in_paras ii = [{| p_start := 0; p_end := slen l; p_level := lv |}] ->
  in_flags ii = [{| f_pure_ltr := pu; f_has_isolate := iso |}] ->
  forall R clsR,
  good_para (l ++ R) (in_classes ii ++ clsR) {| p_start := 0; p_end := slen l; p_level := lv |}
            {| f_pure_ltr := pu; f_has_isolate := iso |}.
Proof.
  intros HL H EP EF R clsR. exists 0, (length l), ii.
  cbn [p_start p_end p_level firstn skipn]. rewrite !Nat.sub_0_r.
  rewrite firstn_app, Nat.sub_diag, firstn_all. cbn [firstn]. rewrite app_nil_r.
  split; [lia|]. split; [rewrite app_length; lia|]. split; [reflexivity|]. split; [reflexivity|].
  split; [exact H|]. split; [|split; [exact EP | exact EF]].
  rewrite <- HL, firstn_app, Nat.sub_diag, firstn_all. cbn [firstn]. rewrite app_nil_r. reflexivity.
Qed.

Lemma good_para_shift A1 cls1 R clsR p f : length cls1 = slen A1 ->
  good_para R clsR p f -> good_para (A1 ++ R) (cls1 ++ clsR) (shiftp (slen A1) p) f.
Proof.
  intros HL (i1 & i2 & iis & H1 & H2 & Hs & He & Hc & Ecl & EP & EF).
  exists (length A1 + i1), (length A1 + i2), iis.
  cbn [shiftp p_start p_end p_level].
  replace (length A1 + i2 - (length A1 + i1)) with (i2 - i1) by lia.
  replace (slen A1 + p_end p - (slen A1 + p_start p)) with (p_end p - p_start p) by lia.
  rewrite !firstn_app_2, !slen_app, skipn_app, skipn_all2 by lia.
  replace (length A1 + i1 - length A1) with i1 by lia. cbn [app].
  split; [lia|]. split; [rewrite app_length; lia|]. split; [lia|]. split; [lia|].
  split; [exact Hc|]. split; [|split; [exact EP | exact EF]].
  rewrite skipn_app, (skipn_all2 cls1) by lia. rewrite Ecl.
  replace (slen A1 + p_start p - length cls1) with (p_start p) by lia. reflexivity.
Qed.

Lemma para_indep_chars : forall m l ii, length l <= m -> lenok l -> cinfo true l = Ok ii ->
  Forall2 (good_para l (in_classes ii)) (in_paras ii) (in_flags ii).
Proof.
  induction m as [|m IH]; intros l ii Hm Hok H.
  - destruct l; [|cbn [length] in Hm; lia].
    rewrite cinfo_nil in H. injection H as <-. constructor.
  - destruct l as [|x l0]; [apply (IH []); [cbn [length]; lia | exact Hok | exact H]|].
    remember (x :: l0) as l eqn:El.
    assert (Hne : l <> []) by (rewrite El; discriminate).
    destruct (first_B l) as [HN | (A & c & n & R & E & HA & HB)].
    + destruct (single_para l ii Hok (onepara_noB l Hne HN) H) as (lv & pu & iso & EP & EF & HL & _).
      rewrite EP, EF. constructor; [|constructor].
      pose proof (good_para_whole l ii lv pu iso HL H EP EF [] []) as G.
      rewrite !app_nil_r in G. exact G.
    + rewrite cons_app_snoc in E. rewrite E in H, Hok |- *.
      destruct (cinfo_split A c n R ii Hok HB H) as (ii1 & iiR & H1 & HR & EC & EP & EF & HL).
      apply Forall_app in Hok. destruct Hok as (Hok1 & HokR).
      destruct (single_para _ ii1 Hok1 (onepara_B A c n HA HB) H1) as (lv & pu & iso & EP1 & EF1 & _ & _).
      rewrite EC, EP, EF, EP1, EF1. cbn [app]. constructor.
      * exact (good_para_whole _ ii1 lv pu iso HL H1 EP1 EF1 R (in_classes iiR)).
      * assert (HmR : length R <= m).
        { apply (f_equal (@length _)) in E.
          rewrite !app_length in E. cbn [length] in E, Hm. lia. }
        pose proof (IH R iiR HmR HokR HR) as G.
        clear - G HL. induction G as [|p f ps fs Gp _ IHG]; cbn [map]; constructor.
        -- exact (good_para_shift _ _ _ _ p f HL Gp).
        -- exact IHG.
Qed.

End Info.

Lemma t_subrange_site s1 s2 e t a b x : t_subrange s1 e t a b = Ok x -> t_subrange s2 e t a b = Ok x.
Proof.
  destruct e; cbn [t_subrange]; unfold slice.
  - destruct (a <=? b); [|discriminate]. destruct (drop_units8 t a) as [t1|]; [|discriminate].
    destruct (take_units8 t1 (b - a)); [exact (fun H => H) | discriminate].
  - destruct ((a <=? b) && (b <=? length t)); [exact (fun H => H) | discriminate].
  - destruct ((a <=? b) && (b <=? length t)); [exact (fun H => H) | discriminate].
Qed.

Lemma slice_whole {A} site (l : list A) n : n = length l -> slice site l 0 n = Ok l.
Proof.
  intros ->. unfold slice. cbn [Nat.leb andb]. rewrite Nat.leb_refl, Nat.sub_0_r.
  cbn [skipn]. rewrite firstn_all. reflexivity.
Qed.

Lemma t_subrange_whole site e t n : n = t_len e t -> t_subrange site e t 0 n = Ok t.
Proof.
  intros ->. destruct e; cbn [t_subrange t_len].
  - cbn [Nat.leb]. rewrite Nat.sub_0_r.
    assert (E0 : drop_units8 t 0 = Some t) by (destruct t; reflexivity).
    rewrite E0. pose proof (take_units8_app t []) as E. rewrite app_nil_r in E. rewrite E. reflexivity.
  - apply slice_whole. reflexivity.
  - apply slice_whole. reflexivity.
Qed.

Lemma bidi_paras_single e ds text cls lv f n : n = t_len e text -> n = length cls ->
  bidi_paras e ds false text cls [{| p_start := 0; p_end := n; p_level := lv |}] [f] []
  = compute_bidi_info_for_para_gen e ds false lv (f_pure_ltr f) (f_has_isolate f) text cls.
Proof.
  intros Ht Hc. cbn [bidi_paras length Nat.eqb bind p_start p_end p_level].
  rewrite (t_subrange_whole 509 e text n Ht), (slice_whole 510 cls n Hc). cbn [bind].
  destruct (compute_bidi_info_for_para_gen _ _ _ _ _ _ _ _); reflexivity.
Qed.

Section Text.
Variable e : enc.
Variable ds : datasource.
Variable d : option nat.
Variable text : list N.
Hypothesis Hv : valid_text e text.
Hypothesis Hfsi : fsi_proviso e ds (view_of e text).
Hypothesis Hd : dir3 d.
Hypothesis HT : C07_C08_constructors.

Definition text_good (cls : list bclass) (p : para_info) (f : para_flags) : Prop :=
  exists sub iis,
    t_subrange 4 e text (p_start p) (p_end p) = Ok sub /\
    valid_text e sub /\ fsi_proviso e ds (view_of e sub) /\
    compute_initial_info e ds sub d true = Ok iis /\
    in_classes iis = firstn (p_end p - p_start p) (skipn (p_start p) cls) /\
    in_paras iis = [{| p_start := 0; p_end := p_end p - p_start p; p_level := p_level p |}] /\
    in_flags iis = [f] /\
    t_len e sub = p_end p - p_start p.

Lemma good_to_text cls p f : good_para e ds d (view_of e text) cls p f -> text_good cls p f.
Proof.
  intros (i1 & i2 & iis & H1 & H2 & Hs & He & Hc & Ecl & EP & EF).
  destruct (subrange_view_proved 4 e text i1 i2 Hv H1 H2) as (sub & Hsub & Hview & Hvs).
  cbv zeta in Hsub. rewrite !total_firstn_slen, <- Hs, <- He in Hsub.
  exists sub, iis.
  split; [exact Hsub|]. split; [exact Hvs|].
  split; [unfold fsi_proviso in *; rewrite Hview; apply Forall_firstn, Forall_skipn, Hfsi|].
  pose proof (view_of_proved e sub Hvs) as TV.
  split; [rewrite (cinfo_view e ds d true sub _ TV), Hview; exact Hc|].
  split; [exact Ecl|]. split; [exact EP|]. split; [exact EF|].
  destruct TV as (_ & _ & _ & V4 & _). rewrite V4, total_slen, Hview.
  pose proof (slen_firstn_split (view_of e text) i1 i2 H1) as E. lia.
Qed.

Definition para_ok (cls : list bclass) (levels : list nat) (p : para_info) : Prop :=
  exists sub sb,
    t_subrange 4 e text (p_start p) (p_end p) = Ok sub /\
    bidi_info_new e ds sub d = Ok sb /\
    bi_classes sb = firstn (p_end p - p_start p) (skipn (p_start p) cls) /\
    bi_levels sb = firstn (p_end p - p_start p) (skipn (p_start p) levels) /\
    bi_paras sb = [{| p_start := 0; p_end := p_end p - p_start p; p_level := p_level p |}].

Lemma para_alone cls p f ptext poc pl : text_good cls p f ->
  t_subrange 509 e text (p_start p) (p_end p) = Ok ptext ->
  slice 510 cls (p_start p) (p_end p) = Ok poc ->
  compute_bidi_info_for_para_gen e ds false (p_level p) (f_pure_ltr f) (f_has_isolate f) ptext poc = Ok pl ->
  length pl = p_end p - p_start p /\
  exists sub sb,
    t_subrange 4 e text (p_start p) (p_end p) = Ok sub /\
    bidi_info_new e ds sub d = Ok sb /\
    bi_classes sb = firstn (p_end p - p_start p) (skipn (p_start p) cls) /\
    bi_levels sb = pl /\
    bi_paras sb = [{| p_start := 0; p_end := p_end p - p_start p; p_level := p_level p |}].
Proof.
  intros (sub & iis & Hsub & Hvs & Hfs & Hii & Ecl & EP & EF & Hlen) Hpt Hpoc Hpl.
  rewrite (t_subrange_site 4 509 _ _ _ _ _ Hsub) in Hpt. injection Hpt as <-.
  apply slice_ok_inv in Hpoc as (_ & _ & ->). rewrite <- Ecl in Hpl.
  destruct (HT e ds sub d Hvs Hfs Hd) as ((sb & Hsb & Hl1 & Hl2 & _) & _).
  destruct (view_of_proved e sub Hvs) as (_ & _ & _ & V4 & _). rewrite <- V4, Hlen in Hl1, Hl2.
  pose proof Hsb as Hsb0. apply bidi_info_new_inv in Hsb as (ii0 & Hii0 & Hlev & Esb).
  rewrite Hii in Hii0. injection Hii0 as <-. rewrite Esb in Hl2. cbn [bi_classes] in Hl2.
  rewrite EP, EF, bidi_paras_single, Hpl in Hlev by (symmetry; assumption). injection Hlev as Elev.
  split; [rewrite Elev; exact Hl1|].
  exists sub, sb. split; [exact Hsub|]. split; [exact Hsb0|].
  rewrite Esb. cbn [bi_classes bi_levels bi_paras]. auto.
Qed.

Lemma bidi_paras_indep cls : forall paras flags acc levels,
  Forall2 (text_good cls) paras flags ->
  bidi_paras e ds false text cls paras flags acc = Ok levels ->
  firstn (length acc) levels = acc /\ Forall (para_ok cls levels) paras.
Proof.
  induction paras as [|p ps IH]; intros flags acc levels HG H.
  - cbn [bidi_paras] in H. injection H as <-. split; [apply firstn_all | constructor].
  - inversion HG as [|? f ? fs Gp Gs]; subst.
    apply bidi_paras_cons_inv in H as (ptext & poc & pl & Hacc & Hpt & Hpoc & Hpl & H).
    destruct (IH fs (acc ++ pl) levels Gs H) as (Hfirst & Hrest).
    destruct (para_alone cls p f ptext poc pl Gp Hpt Hpoc Hpl) as (Hlen & sub & sb & A1 & A2 & A3 & A4 & A5).
    assert (EL : levels = acc ++ pl ++ skipn (length (acc ++ pl)) levels).
    { rewrite app_assoc, <- Hfirst at 1. symmetry. apply firstn_skipn. }
    set (X := skipn (length (acc ++ pl)) levels) in EL.
    split.
    + rewrite EL. apply firstn_length_app.
    + constructor; [|exact Hrest].
      exists sub, sb. split; [exact A1|]. split; [exact A2|]. split; [exact A3|]. split; [|exact A5].
      rewrite A4, <- Hlen, EL, <- Hacc, skipn_length_app. symmetry. apply firstn_length_app.
Qed.

Lemma lenok_view : lenok e (view_of e text).
Proof. destruct (view_of_proved e text Hv) as (_ & _ & _ & _ & V5). exact V5. Qed.

Lemma c10_main b : bidi_info_new e ds text d = Ok b ->
  Forall (para_ok (bi_classes b) (bi_levels b)) (bi_paras b) /\
  (length (bi_paras b) <= 1 ->
   exists pb,
     para_bidi_info_new e ds text d = Ok pb /\
     pb_classes pb = bi_classes b /\ pb_levels pb = bi_levels b /\
     match bi_paras b with [q] => pb_level pb = p_level q | _ => True end).
Proof.
  intros Hb.
  pose proof (view_of_proved e text Hv) as TV.
  pose proof lenok_view as Hok.
  apply bidi_info_new_inv in Hb as (ii & Hii & Hlev & ->). cbn [bi_classes bi_levels bi_paras].
  set (levels := bi_levels b) in *. clearbody levels. clear b.
  rewrite (cinfo_view e ds d true text _ TV) in Hii.
  split.
  - pose proof (para_indep_chars e ds d _ _ ii (le_n _) Hok Hii) as G.
    assert (G' : Forall2 (text_good (in_classes ii)) (in_paras ii) (in_flags ii)).
    { clear - G Hv Hfsi. induction G; constructor; [apply good_to_text; assumption | assumption]. }
    exact (proj2 (bidi_paras_indep _ _ _ _ _ G' Hlev)).
  - intros Hle.
    pose proof (HT e ds text d Hv Hfsi Hd) as (_ & (pb & Hpb & Hq1 & Hq2 & _)).
    destruct (view_of e text) as [|x chars0] eqn:Echars.
    + (* the empty text: the constructor for one paragraph is total, and all vectors are empty *)
      apply length_zero_iff_nil in Hq1, Hq2.
      rewrite cinfo_nil in Hii. injection Hii as <-. injection Hlev as <-.
      exists pb. rewrite Hq1, Hq2. repeat split. exact Hpb.
    + assert (Hne : x :: chars0 <> []) by discriminate.
      remember (x :: chars0) as chars eqn:Ec. clear Ec x chars0.
      pose proof (le1_onepara e ds d chars ii Hok Hne Hii Hle) as H1p.
      destruct (single_para e ds d chars ii Hok H1p Hii) as (lv & pu & iso & EP & EF & HL & Hfalse).
      assert (Elen : slen chars = t_len e text).
      { destruct TV as (_ & _ & _ & V4 & _). rewrite V4. symmetry. apply total_slen. }
      rewrite EP, EF, bidi_paras_single in Hlev by (exact Elen || (symmetry; exact HL)).
      rewrite <- (cinfo_view e ds d false text _ TV) in Hfalse.
      eexists. split; [exact (para_bidi_info_new_intro e ds false text d _ _ Hfalse Hlev)|].
      cbn [pb_classes pb_levels pb_level]. rewrite EP. auto.
Qed.

End Text.

Theorem c10_assembly : C07_C08_constructors -> C10_statement.
Proof.
  intros HT e ds text d b Hv Hfsi Hd Hb.
  exact (c10_main e ds d text Hv Hfsi Hd HT b Hb).
Qed.
