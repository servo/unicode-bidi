(* Proofs/TextView.v — the concrete view of a text as characters ([view_of]) satisfies [text_view]
   for UTF-8, UTF-16 and the ghost encoding U32, and `subrange` on character boundaries is the text of
   those characters. *)
From BidiVerif Require Import Base ModelText Spec Judge Stmts Stmts2.
From BidiVerif.Proofs Require Import Units.
From BidiVerif.Proofs Require Import Utf16.

Lemma total_slen d : total (map snd d) = slen d.
Proof. unfold total. rewrite fold_add_slen. reflexivity. Qed.

Lemma total_firstn_slen d i : total (firstn i (map snd d)) = slen (firstn i d).
Proof. rewrite firstn_map. apply total_slen. Qed.

Lemma firstn_split {A} (d : list A) : forall i j,
  i <= j -> firstn j d = firstn i d ++ firstn (j - i) (skipn i d).
Proof.
  induction d as [|x d IH]; intros i j H.
  - rewrite skipn_nil, !firstn_nil. reflexivity.
  - destruct i as [|i].
    + cbn [firstn skipn app]. rewrite Nat.sub_0_r. reflexivity.
    + destruct j as [|j]; [lia|].
      cbn [firstn skipn Nat.sub]. rewrite <- app_comm_cons. f_equal. apply IH. lia.
Qed.

Lemma split_mid {A} (d : list A) i j :
  i <= j -> d = firstn i d ++ firstn (j - i) (skipn i d) ++ skipn j d.
Proof.
  intros H. rewrite app_assoc, <- (firstn_split d i j H). symmetry. apply firstn_skipn.
Qed.

Lemma slen_firstn_split d i j :
  i <= j -> slen (firstn j d) = slen (firstn i d) + slen (firstn (j - i) (skipn i d)).
Proof. intros H. rewrite (firstn_split d i j H), slen_app. reflexivity. Qed.

Lemma slen_firstn_le d j : slen (firstn j d) <= slen d.
Proof.
  rewrite <- (firstn_skipn j d) at 2. rewrite slen_app. lia.
Qed.

Lemma is_u16_app a b : is_u16 (a ++ b) <-> is_u16 a /\ is_u16 b.
Proof. apply Forall_app. Qed.

Lemma is_u16_firstn t n : is_u16 t -> is_u16 (firstn n t).
Proof.
  intros H. rewrite <- (firstn_skipn n t) in H. apply is_u16_app in H. exact (proj1 H).
Qed.

Lemma is_u16_skipn t n : is_u16 t -> is_u16 (skipn n t).
Proof.
  intros H. rewrite <- (firstn_skipn n t) in H. apply is_u16_app in H. exact (proj2 H).
Qed.

Definition v8 (t : list N) : list (N * nat) := map (fun c => (c, len_utf8 c)) t.

Lemma len_utf8_pos c : 0 < len_utf8 c.
Proof.
  unfold len_utf8.
  destruct (c <? 128)%N; [lia|]. destruct (c <? 2048)%N; [lia|]. destruct (c <? 65536)%N; lia.
Qed.

Lemma char_indices8_positions t : forall pos,
  char_indices8_from pos t
  = map (fun x : nat * N * nat => (fst (fst x), snd (fst x))) (positions pos (v8 t)).
Proof.
  induction t as [|c r IH]; intros pos; [reflexivity|].
  unfold v8 in *. cbn [char_indices8_from map positions fst snd]. rewrite IH. reflexivity.
Qed.

Lemma v8_chars t : t = map fst (v8 t).
Proof.
  unfold v8. induction t as [|c r IH]; [reflexivity|].
  cbn [map fst]. rewrite <- IH. reflexivity.
Qed.

Lemma slen_v8 t : slen (v8 t) = len8 t.
Proof.
  unfold v8. induction t as [|c r IH]; [reflexivity|].
  cbn [map len8]. rewrite slen_cons, IH. reflexivity.
Qed.

Lemma v8_char_len t :
  Forall (fun ch : N * nat => snd ch = char_len U8 (fst ch) /\ 0 < snd ch) (v8 t).
Proof.
  unfold v8. induction t as [|c r IH]; [constructor|].
  cbn [map]. constructor; [|exact IH].
  cbn [fst snd char_len]. split; [reflexivity | apply len_utf8_pos].
Qed.

Lemma view8 t : text_view U8 t (v8 t).
Proof.
  unfold text_view.
  split. { cbn [t_char_indices]. unfold char_indices8. apply char_indices8_positions. }
  split. { cbn [t_indices_lengths]. unfold char_indices8. apply indices8_positions. }
  split. { cbn [t_chars]. apply v8_chars. }
  split. { cbn [t_len]. rewrite total_slen, slen_v8. reflexivity. }
  apply v8_char_len.
Qed.

Lemma len_utf16_pair x y : len_utf16 (65536 + x + y) = 2.
Proof.
  unfold len_utf16. destruct (N.ltb_spec (65536 + x + y) 65536) as [H|H]; [lia | reflexivity].
Qed.

Lemma len_utf16_unit u : (u < 65536)%N -> len_utf16 u = 1.
Proof.
  intros H. unfold len_utf16. destruct (N.ltb_spec u 65536) as [_|H']; [reflexivity | lia].
Qed.

Lemma decode16_char_len t : is_u16 t ->
  Forall (fun ch : N * nat => snd ch = char_len U16 (fst ch) /\ 0 < snd ch) (decode16 t).
Proof.
  induction t as [|u r IHr IHr'] using decode16_ind2; intros Hu; [constructor|].
  inversion Hu as [|? ? Hu1 Hur]; subst. specialize (IHr Hur).
  assert (Hrep : forall l, Forall (fun ch : N * nat => snd ch = char_len U16 (fst ch) /\ 0 < snd ch) l ->
                           Forall (fun ch : N * nat => snd ch = char_len U16 (fst ch) /\ 0 < snd ch)
                                  ((65533%N, 1) :: l)).
  { intros l Hl. constructor; [|exact Hl]. cbn [fst snd char_len]. split; [reflexivity | lia]. }
  cbn [decode16]. destruct (is_hi u).
  - destruct r as [|d r'].
    + apply Hrep. constructor.
    + destruct (is_lo d).
      * inversion Hur as [|? ? _ Hr']; subst.
        constructor; [|exact (IHr' _ _ eq_refl Hr')].
        cbn [fst snd char_len]. rewrite len_utf16_pair. split; [reflexivity | lia].
      * apply Hrep, IHr.
  - destruct (is_lo u).
    + apply Hrep, IHr.
    + constructor; [|exact IHr]. cbn [fst snd char_len].
      rewrite (len_utf16_unit u Hu1). split; [reflexivity | lia].
Qed.

Lemma view16 t : is_u16 t -> text_view U16 t (decode16 t).
Proof.
  intros Hu.
  destruct (utf16_text_access t Hu) as (_ & Hit & Hch & Hlen & _).
  unfold text_view.
  split.
  { cbn [t_char_indices]. unfold char_indices16. rewrite Hit.
    apply map_ext. intros [[p c] l]. reflexivity. }
  split.
  { cbn [t_indices_lengths]. unfold indices_lengths16. rewrite Hit.
    apply map_ext. intros [[p c] l]. reflexivity. }
  split. { cbn [t_chars]. exact Hch. }
  split. { cbn [t_len]. unfold total. symmetry. exact Hlen. }
  apply decode16_char_len, Hu.
Qed.

Definition v32 (t : list N) : list (N * nat) := map (fun c => (c, 1)) t.

Lemma positions_v32 p t :
  map (fun x => (fst (fst x), snd (fst x))) (positions p (v32 t)) = combine (seq p (length t)) t.
Proof.
  revert p; induction t as [|c r IH]; intros p; [reflexivity|].
  cbn [v32 map positions length seq combine fst snd]. f_equal.
  replace (p + 1) with (S p) by lia. apply IH.
Qed.
Lemma positions_v32_il p t :
  map (fun x => (fst (fst x), snd x)) (positions p (v32 t)) = map (fun i => (i, 1)) (seq p (length t)).
Proof.
  revert p; induction t as [|c r IH]; intros p; [reflexivity|].
  cbn [v32 map positions length seq fst snd]. f_equal.
  replace (p + 1) with (S p) by lia. apply IH.
Qed.
Lemma slen_v32 t : slen (v32 t) = length t.
Proof. unfold slen, v32. rewrite map_map. cbn [snd]. induction t as [|c r IH]; simpl; [reflexivity | f_equal; exact IH]. Qed.

Lemma view32 t : text_view U32 t (v32 t).
Proof.
  unfold text_view. split; [cbn [t_char_indices]; symmetry; apply positions_v32|].
  split; [cbn [t_indices_lengths]; symmetry; apply positions_v32_il|].
  split; [cbn [t_chars]; unfold v32; rewrite map_map; cbn [fst]; symmetry; apply map_id|].
  split; [cbn [t_len]; rewrite total_slen, slen_v32; reflexivity|].
  unfold v32. apply Forall_forall. intros ch Hin. apply in_map_iff in Hin. destruct Hin as [c [<- _]].
  cbn [fst snd char_len]. split; [reflexivity|lia].
Qed.

Lemma subrange32 site t i j :
  i <= j -> j <= length t ->
  let lens := map snd (v32 t) in
  t_subrange site U32 t (total (firstn i lens)) (total (firstn j lens)) = Ok (firstn (j - i) (skipn i t)).
Proof.
  intros Hij Hj lens. subst lens.
  rewrite !total_firstn_slen. unfold v32. rewrite !firstn_map. fold (v32 (firstn i t)) (v32 (firstn j t)).
  rewrite !slen_v32, !firstn_length, !Nat.min_l by lia.
  cbn [t_subrange]. unfold slice.
  destruct ((i <=? j) && (j <=? length t)) eqn:E; [reflexivity|].
  apply andb_false_iff in E. destruct E as [E|E]; [apply Nat.leb_gt in E|apply Nat.leb_gt in E]; lia.
Qed.

Theorem view_of_proved : view_of_statement.
Proof.
  intros [| |] t Hv.
  - apply view8.
  - apply view16. exact Hv.
  - apply view32.
Qed.

Theorem text_view_exists_proved : text_view_exists_statement.
Proof. split; [exact view8 | exact view16]. Qed.

Lemma drop_units8_pos c rest a : 0 < a ->
  drop_units8 (c :: rest) a
  = if (len_utf8 c <=? a) then drop_units8 rest (a - len_utf8 c) else None.
Proof. destruct a as [|a]; [lia | reflexivity]. Qed.

Lemma take_units8_pos c rest n : 0 < n ->
  take_units8 (c :: rest) n
  = if (len_utf8 c <=? n)
    then match take_units8 rest (n - len_utf8 c) with Some r => Some (c :: r) | None => None end
    else None.
Proof. destruct n as [|n]; [lia | reflexivity]. Qed.

Lemma drop_units8_app t1 t2 : drop_units8 (t1 ++ t2) (len8 t1) = Some t2.
Proof.
  induction t1 as [|c r IH].
  - cbn [len8 app]. destruct t2; reflexivity.
  - cbn [len8 app]. pose proof (len_utf8_pos c) as Hp.
    rewrite drop_units8_pos by lia.
    destruct (Nat.leb_spec (len_utf8 c) (len_utf8 c + len8 r)) as [_|H]; [|lia].
    replace (len_utf8 c + len8 r - len_utf8 c) with (len8 r) by lia. exact IH.
Qed.

Lemma take_units8_app t1 t2 : take_units8 (t1 ++ t2) (len8 t1) = Some t1.
Proof.
  induction t1 as [|c r IH].
  - cbn [len8 app]. destruct t2; reflexivity.
  - cbn [len8 app]. pose proof (len_utf8_pos c) as Hp.
    rewrite take_units8_pos by lia.
    destruct (Nat.leb_spec (len_utf8 c) (len_utf8 c + len8 r)) as [_|H]; [|lia].
    replace (len_utf8 c + len8 r - len_utf8 c) with (len8 r) by lia. rewrite IH. reflexivity.
Qed.

Lemma len8_app a b : len8 (a ++ b) = len8 a + len8 b.
Proof. rewrite <- !slen_v8. unfold v8. rewrite map_app. apply slen_app. Qed.

Lemma slen_firstn_v8 t i : slen (firstn i (v8 t)) = len8 (firstn i t).
Proof. unfold v8. rewrite firstn_map. apply slen_v8. Qed.

Lemma subrange8 site t i j :
  i <= j ->
  let lens := map snd (v8 t) in
  t_subrange site U8 t (total (firstn i lens)) (total (firstn j lens))
  = Ok (firstn (j - i) (skipn i t)).
Proof.
  intros Hij lens. subst lens.
  rewrite !total_firstn_slen, !slen_firstn_v8.
  set (mid := firstn (j - i) (skipn i t)).
  assert (Hj : firstn j t = firstn i t ++ mid) by (apply firstn_split; exact Hij).
  assert (Ht : t = firstn i t ++ mid ++ skipn j t) by (apply split_mid; exact Hij).
  rewrite Hj, len8_app.
  cbn [t_subrange].
  destruct (Nat.leb_spec (len8 (firstn i t)) (len8 (firstn i t) + len8 mid)) as [_|H]; [|lia].
  rewrite Ht at 1. rewrite drop_units8_app.
  replace (len8 (firstn i t) + len8 mid - len8 (firstn i t)) with (len8 mid) by lia.
  rewrite take_units8_app. reflexivity.
Qed.

Lemma decode16_hi_alone u X :
  is_hi u = true ->
  (forall d X', X = d :: X' -> is_lo d = false) ->
  decode16 (u :: X) = (65533%N, 1) :: decode16 X.
Proof.
  intros Eh H. cbn [decode16]. rewrite Eh. destruct X as [|d X']; [reflexivity|].
  rewrite (H d X' eq_refl). reflexivity.
Qed.

Lemma decode16_not_hi u X :
  is_hi u = false ->
  decode16 (u :: X) = ((if is_lo u then 65533%N else u), 1) :: decode16 X.
Proof.
  intros Eh. cbn [decode16]. rewrite Eh. destruct (is_lo u); reflexivity.
Qed.

Lemma decode16_split t : forall d1 d2,
  decode16 t = d1 ++ d2 ->
  decode16 (firstn (slen d1) t) = d1 /\ decode16 (skipn (slen d1) t) = d2.
Proof.
  induction t as [|u r IHr IHr'] using decode16_ind2; intros d1 d2 E.
  - cbn [decode16] in E. symmetry in E. apply app_eq_nil in E as [-> ->].
    rewrite firstn_nil, skipn_nil. split; reflexivity.
  - destruct d1 as [|[c l] d1'].
    + rewrite slen_nil. cbn [firstn skipn]. split; [reflexivity | exact E].
    + rewrite slen_cons. rewrite <- app_comm_cons in E.
      destruct (is_hi u) eqn:Eh.
      * destruct r as [|d r'].
        -- cbn [decode16] in E. rewrite Eh in E. injection E as <- <- E'.
           symmetry in E'. apply app_eq_nil in E' as [-> ->].
           rewrite slen_nil. cbn [Nat.add firstn skipn decode16]. rewrite Eh.
           split; reflexivity.
        -- destruct (is_lo d) eqn:El.
           ++ cbn [decode16] in E. rewrite Eh, El in E. injection E as <- <- E'.
              destruct (IHr' _ _ eq_refl _ _ E') as [A B].
              cbn [Nat.add firstn skipn]. split; [|exact B].
              cbn [decode16]. rewrite Eh, El, A. reflexivity.
           ++ rewrite decode16_hi_alone in E;
                [| exact Eh | intros d0 X' E0; injection E0 as <- _; exact El].
              injection E as <- <- E'.
              destruct (IHr _ _ E') as [A B].
              cbn [Nat.add firstn skipn]. split; [|exact B].
              rewrite decode16_hi_alone; [rewrite A; reflexivity | exact Eh |].
              intros d0 X' E0. destruct (slen d1') as [|k]; cbn [firstn] in E0; [discriminate|].
              injection E0 as <- _. exact El.
      * rewrite decode16_not_hi in E by exact Eh. injection E as <- <- E'.
        destruct (IHr _ _ E') as [A B].
        cbn [Nat.add firstn skipn]. split; [|exact B].
        rewrite decode16_not_hi by exact Eh. rewrite A. reflexivity.
Qed.

Lemma subrange16 site t i j :
  is_u16 t -> i <= j ->
  let d := decode16 t in
  let lens := map snd d in
  exists sub,
    t_subrange site U16 t (total (firstn i lens)) (total (firstn j lens)) = Ok sub /\
    decode16 sub = firstn (j - i) (skipn i d) /\
    is_u16 sub.
Proof.
  intros Hu Hij d lens. subst lens.
  rewrite !total_firstn_slen.
  set (mid := firstn (j - i) (skipn i d)).
  assert (Hb : slen (firstn j d) = slen (firstn i d) + slen mid)
    by (apply slen_firstn_split; exact Hij).
  assert (Hd : decode16 t = firstn i d ++ mid ++ skipn j d) by (apply split_mid; exact Hij).
  pose proof (slen_firstn_le d j) as Hle. unfold d in Hle at 2. rewrite decode16_slen in Hle.
  destruct (decode16_split t _ _ Hd) as [_ H1].
  destruct (decode16_split _ _ _ H1) as [H2 _].
  exists (firstn (slen mid) (skipn (slen (firstn i d)) t)).
  split; [|split].
  - cbn [t_subrange]. unfold slice. rewrite Hb.
    destruct (Nat.leb_spec (slen (firstn i d)) (slen (firstn i d) + slen mid)) as [_|H]; [|lia].
    destruct (Nat.leb_spec (slen (firstn i d) + slen mid) (length t)) as [_|H]; [|lia].
    cbn [andb].
    replace (slen (firstn i d) + slen mid - slen (firstn i d)) with (slen mid) by lia.
    reflexivity.
  - exact H2.
  - apply is_u16_firstn, is_u16_skipn, Hu.
Qed.

Theorem subrange_view_proved : subrange_view_statement.
Proof.
  intros site [| |] t i j Hv Hij Hj.
  - cbv zeta. cbn [view_of valid_text].
    exists (firstn (j - i) (skipn i t)).
    split; [apply (subrange8 site t i j Hij)|].
    split; [|exact I].
    rewrite skipn_map, firstn_map. reflexivity.
  - cbv zeta. cbn [view_of valid_text] in *. apply (subrange16 site t i j Hv Hij).
  - cbv zeta. cbn [view_of valid_text] in *.
    exists (firstn (j - i) (skipn i t)).
    fold (v32 t) in *. unfold v32 in Hj. rewrite map_length in Hj.
    split; [apply (subrange32 site t i j Hij Hj)|].
    split; [|exact I].
    unfold v32. rewrite skipn_map, firstn_map. reflexivity.
Qed.

Lemma view_lens_pos e text : valid_text e text -> Forall (fun n => 0 < n) (map snd (view_of e text)).
Proof.
  intros Hv. destruct (view_of_proved e text Hv) as (_ & _ & _ & _ & HF). exact (chars_lens_pos e _ HF).
Qed.
