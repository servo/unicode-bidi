(* Proofs/SrcTieSim.v — how the ties of the loops compare a translated loop with a model function.  A primitive of
   RsPrelude and the model's own vector operation differ only in the position a panic records ([res_sim]); a translated
   loop ends in [Go s] with [s] related to the model's answer, or both sides panic ([sim_flow]).  Both relations pass
   through [bind], a translated `for` loop whose body simulates the model's step simulates the model's fold
   ([rs_loop_fold_sim]), and a proved simulation is used through [sim_flow_inv].  Nothing here mentions SrcGen. *)
From BidiVerif Require Import Base RsPrelude.
From BidiVerif.Proofs Require Import ListLib SrcTieCommon.
From Coq Require Import Lia.

Lemma bind_assoc {A B C} (x : res A) (f : A -> res B) (g : B -> res C) :
  bind (bind x f) g = bind x (fun a => bind (f a) g).
Proof. destruct x; reflexivity. Qed.

Lemma res_sim_inv {A} (x y : res A) : res_sim x y ->
  (exists a, x = Ok a /\ y = Ok a) \/ (exists p q, x = Panic p /\ y = Panic q).
Proof. destruct x as [a|p], y as [b|q]; cbn; intros H; try contradiction; [subst b|]; eauto. Qed.

Lemma get_site {A} s s' (l : list A) i : res_sim (get s l i) (get s' l i).
Proof. unfold get. destruct (nth_error l i); cbn; auto. Qed.
Lemma upd_site {A} s s' (l : list A) i x : res_sim (upd s l i x) (upd s' l i x).
Proof. unfold upd. destruct (upd_opt l i x); cbn; auto. Qed.
Lemma set_range_site {A} s s' (l : list A) i j x : res_sim (set_range s l i j x) (set_range s' l i j x).
Proof. unfold set_range. destruct ((i <=? j) && (j <=? length l)); cbn; auto. Qed.

Definition sim_flow {S B R M} (rel : S -> M -> Prop) (x : res (flow S B R)) (y : res M) : Prop :=
  match x, y with Ok (Go s), Ok m => rel s m | Panic _, Panic _ => True | _, _ => False end.

Lemma res_sim_go {A B R} (x y : res A) : res_sim x y -> sim_flow (B:=B) (R:=R) eq (a <- x ;; Ok (Go a)) y.
Proof. destruct x, y; cbn; auto. Qed.

Lemma sim_flow_inv {S B R M} (rel : S -> M -> Prop) (x : res (flow S B R)) y : sim_flow rel x y ->
  (exists s m, x = Ok (Go s) /\ y = Ok m /\ rel s m) \/ (exists a b, x = Panic a /\ y = Panic b).
Proof. destruct x as [[s|?|?|?]|p], y as [m|q]; cbn; intros H; try contradiction; eauto 6. Qed.

Lemma sim_flow_impl {S B R M} (rel rel' : S -> M -> Prop) (x : res (flow S B R)) y :
  sim_flow rel x y -> (forall s m, rel s m -> rel' s m) -> sim_flow rel' x y.
Proof. destruct x as [[s|?|?|?]|p], y as [m|q]; cbn; auto. Qed.

Lemma sim_flow_bind {S B R M S' B' R' M'} (rel : S -> M -> Prop) (rel' : S' -> M' -> Prop)
      (x : res (flow S B R)) y (K : flow S B R -> res (flow S' B' R')) (K' : M -> res M') :
  sim_flow rel x y -> (forall s m, rel s m -> sim_flow rel' (K (Go s)) (K' m)) -> sim_flow rel' (bind x K) (bind y K').
Proof. destruct x as [[s|?|?|?]|p], y as [m|q]; cbn; intros H HK; try contradiction; auto. Qed.

(* the translated code repacks the state of an inner block where the model has nothing *)
Lemma sim_flow_bind_l {S B R M S' B' R'} (rel : S -> M -> Prop) (rel' : S' -> M -> Prop)
      (x : res (flow S B R)) y (K : flow S B R -> res (flow S' B' R')) :
  sim_flow rel x y -> (forall s m, rel s m -> sim_flow rel' (K (Go s)) (Ok m)) -> sim_flow rel' (bind x K) y.
Proof. destruct x as [[s|?|?|?]|p], y as [m|q]; cbn; intros H HK; try contradiction; auto. Qed.

Lemma res_sim_bind {A S B R M} (rel : S -> M -> Prop) (x y : res A) (K : A -> res (flow S B R)) (K' : A -> res M) :
  res_sim x y -> (forall a, sim_flow rel (K a) (K' a)) -> sim_flow rel (bind x K) (bind y K').
Proof. destruct x as [a|p], y as [b|q]; cbn; intros H HK; try contradiction; [subst b|]; auto. Qed.

(* the model maps over its recursive call where the loop goes on with an updated state *)
Lemma sim_flow_map {S B R M M'} (rel : S -> M' -> Prop) (g : M -> M') (x : res (flow S B R)) y :
  sim_flow (fun s m => rel s (g m)) x y -> sim_flow rel x (m <- y ;; Ok (g m)).
Proof. destruct x as [[s|?|?|?]|p], y as [m|q]; cbn; auto. Qed.

Lemma rs_loop_fold_sim {S A R M} (rel : S -> M -> Prop) (body : S -> A -> res (flow S S R))
      (step : M -> A -> res M) (fold : M -> list A -> res M) :
  (forall m, fold m [] = Ok m) -> (forall m a l, fold m (a :: l) = (m' <- step m a ;; fold m' l)) ->
  (forall s m a, rel s m -> sim_flow rel (body s a) (step m a)) ->
  forall l s m, rel s m -> sim_flow rel (rs_loop body s l) (fold m l).
Proof.
  intros Hnil Hcons Hstep. induction l as [|a l IH]; intros s m H.
  - rewrite Hnil. exact H.
  - rewrite Hcons. cbn [rs_loop]. apply (sim_flow_bind rel); [apply Hstep; exact H | exact IH].
Qed.

Lemma rs_loop_ext {S A R} (b1 b2 : S -> A -> res (flow S S R)) (H : forall s x, b1 s x = b2 s x) :
  forall l s, rs_loop b1 s l = rs_loop b2 s l.
Proof.
  induction l as [|x l IH]; intros s; cbn [rs_loop]; [reflexivity|].
  rewrite H. destruct (b2 s x) as [[s'|s'|s'|r]|]; cbn [bind]; auto.
Qed.

Lemma Forall_nth_error {A} (P : A -> Prop) l i x : Forall P l -> nth_error l i = Some x -> P x.
Proof. intros H E. rewrite Forall_forall in H. apply H. eapply nth_error_In, E. Qed.

Lemma rev_removelast {A} (l : list A) : rev (removelast l) = tl (rev l).
Proof. destruct l as [|x l] using rev_ind; [reflexivity|]. rewrite removelast_last, rev_unit. reflexivity. Qed.

Lemma reverse_range_app {A} (done sq rest : list A) :
  rs_reverse_range (done ++ sq ++ rest) (length done) (length done + length sq) = Ok (done ++ rev sq ++ rest).
Proof.
  unfold rs_reverse_range. rewrite !app_length.
  destruct (Nat.leb_spec (length done) (length done + length sq)); [|lia].
  destruct (Nat.leb_spec (length done + length sq) (length done + (length sq + length rest))); [|lia].
  cbn [andb]. rewrite firstn_length_app, skipn_length_app, (app_assoc done sq rest), <- app_length, skipn_length_app.
  replace (length (done ++ sq) - length done) with (length sq) by (rewrite app_length; lia).
  rewrite firstn_length_app. reflexivity.
Qed.
