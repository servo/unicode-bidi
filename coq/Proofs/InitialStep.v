(* Proofs/InitialStep.v — one step of compute_initial_info in closed form.  [ii_step] appends the class of
   the character to the class vector, lets a strong character resolve the FSI its isolate was opened by
   ([ii_fix], the only part that can panic), and updates the rest of the state by a pure function of the
   class ([ii_ctl]). *)
From BidiVerif Require Import Base ConstsGen ModelText ModelResolve Spec Stmts6.

Definition ii_fix (e : enc) (st : ii_state) (k : bclass) (classes : list bclass) : res (list bclass) :=
  if is_strong k then
    match ii_stack st with
    | start :: _ =>
      k0 <- get 383 classes start ;;
      if k0 =c FSI
      then write_fsi classes start (range 0 (char_len e fc_FSI)) (if k =c L then LRI else RLI)
      else Ok classes
    | [] => Ok classes
    end
  else Ok classes.

Definition ii_ctl (split : bool) (dl : option nat) (st : ii_state) (i len : nat) (k : bclass)
           (classes : list bclass) : ii_state :=
  if (k =c B) && split then
    {| ii_classes := classes; ii_stack := []; ii_para_start := i + len; ii_para_level := dl;
       ii_pure := true; ii_iso := false;
       ii_paras := ii_paras st ++ [{| p_start := ii_para_start st; p_end := i + len;
                                     p_level := opt_or (ii_para_level st) 0 |}];
       ii_flags := ii_flags st ++ [{| f_pure_ltr := ii_pure st; f_has_isolate := ii_iso st |}] |}
  else
    {| ii_classes := classes;
       ii_stack := if is_isolate_init k then i :: ii_stack st
                   else if k =c PDI then tl (ii_stack st) else ii_stack st;
       ii_para_start := ii_para_start st;
       ii_para_level := if is_strong k
                        then match ii_stack st, ii_para_level st with
                             | [], None => Some (if k =c L then 0 else 1)
                             | _, pl => pl
                             end
                        else ii_para_level st;
       ii_pure := if pure_ltr_class k then ii_pure st else false;
       ii_iso := if is_isolate_init k then true else ii_iso st;
       ii_paras := ii_paras st; ii_flags := ii_flags st |}.

Lemma ii_step_nf e ds split dl st i c :
  ii_step e ds split dl st (i, c) =
    cls' <- ii_fix e st (ds_class ds c) (ii_classes st ++ repeat (ds_class ds c) (char_len e c)) ;;
    Ok (ii_ctl split dl st i (char_len e c) (ds_class ds c) cls').
Proof.
  unfold ii_step, ii_fix, ii_ctl. cbv zeta.
  (* by class; both sides compute to the same term, for B after the case of [split] *)
  destruct (ds_class ds c);
    cbn [is_strong is_isolate_init pure_ltr_class ceq bclass_beq andb bind
         ii_classes ii_stack ii_para_start ii_para_level ii_pure ii_iso ii_paras ii_flags];
    try reflexivity; try (destruct split; reflexivity).
  (* the strong classes remain: the cases of [ii_fix] (no open isolate; the class at the top entry; the rewrite) *)
  all: destruct (ii_stack st) as [|s stk]; [destruct (ii_para_level st); reflexivity|].
  all: destruct (get 383 _ s) as [k0|]; cbn [bind]; [|reflexivity].
  all: destruct (k0 =c FSI); [destruct (write_fsi _ _ _ _)|]; reflexivity.
Qed.

Lemma write_fsi_set_all start k : forall js cls,
  write_fsi cls start js k = set_all 387 cls (map (Nat.add start) js) k.
Proof.
  induction js as [|j js IH]; intros cls; cbn [write_fsi set_all map]; [reflexivity|].
  destruct (upd 387 cls (start + j) k); cbn [bind]; [apply IH | reflexivity].
Qed.
