(* Proofs/C13Explicit.v — C13 "isolates isolate", part A: paragraph level and explicit levels/classes
   outside a matched valid isolate pair do not depend on the (B-free, isolate-balanced) content. *)
From BidiVerif Require Import Base Spec Stmts7.
From BidiVerif.Proofs Require Import BaseDir InitialInfo ExplicitSteps.

(* the structural scanners pass over balanced content *)

Lemma iso_bal_init k c r : is_init c = true -> iso_bal k (c :: r) = iso_bal (S k) r.
Proof. intros H. cbn [iso_bal]. rewrite H. reflexivity. Qed.

Lemma init_not_pdi c : is_init c = true -> (c =c PDI) = false.
Proof. destruct c; intros H; try discriminate H; reflexivity. Qed.

Lemma fs_bal c : forall k d rest, iso_bal k c = true -> 1 <= d ->
  fs (k + d) (c ++ rest) = fs d rest.
Proof.
  induction c as [|x t IH]; intros k d rest Hb Hd.
  - cbn [iso_bal] in Hb. apply Nat.eqb_eq in Hb. subst k. reflexivity.
  - cbn [iso_bal] in Hb. cbn [app fs].
    destruct (is_init x) eqn:Hi.
    + apply (IH (S k)); assumption.
    + destruct (x =c PDI) eqn:Hp.
      * destruct k as [|k']; [discriminate|].
        replace (S k' + d - 1) with (k' + d) by lia. apply IH; assumption.
      * destruct (is_strong x).
        -- assert (E : (k + d =? 0) = false) by (apply Nat.eqb_neq; lia). rewrite E. apply IH; assumption.
        -- apply IH; assumption.
Qed.

Lemma fsu_bal c : forall k d rest, iso_bal k c = true -> 1 <= d ->
  fsu (k + d) (c ++ rest) = fsu d rest.
Proof.
  induction c as [|x t IH]; intros k d rest Hb Hd.
  - cbn [iso_bal] in Hb. apply Nat.eqb_eq in Hb. subst k. reflexivity.
  - cbn [iso_bal] in Hb. cbn [app fsu].
    destruct (is_init x) eqn:Hi.
    + apply (IH (S k)); assumption.
    + destruct (x =c PDI) eqn:Hp.
      * destruct k as [|k']; [discriminate|].
        assert (E : (S k' + d =? 0) = false) by (apply Nat.eqb_neq; lia). rewrite E.
        replace (S k' + d - 1) with (k' + d) by lia. apply IH; assumption.
      * destruct (is_strong x).
        -- assert (E : (k + d =? 0) = false) by (apply Nat.eqb_neq; lia). rewrite E. apply IH; assumption.
        -- apply IH; assumption.
Qed.

Lemma mp_bal c : forall k d j rest, iso_bal k c = true -> 1 <= d ->
  match_pdi_from (c ++ rest) (k + d) j = match_pdi_from rest d (j + length c).
Proof.
  induction c as [|x t IH]; intros k d j rest Hb Hd.
  - cbn [iso_bal] in Hb. apply Nat.eqb_eq in Hb. subst k. cbn [app length]. rewrite Nat.add_0_r. reflexivity.
  - cbn [iso_bal] in Hb. cbn [app match_pdi_from length].
    replace (j + S (length t)) with (S j + length t) by lia.
    destruct (is_init x) eqn:Hi.
    + apply (IH (S k)); assumption.
    + destruct (x =c PDI) eqn:Hp.
      * destruct k as [|k']; [discriminate|].
        assert (E : (S k' + d =? 1) = false) by (apply Nat.eqb_neq; lia). rewrite E.
        replace (S k' + d - 1) with (k' + d) by lia. apply IH; assumption.
      * apply IH; assumption.
Qed.

Section Pair.
Variables (ini : bclass) (c1 c2 suffix : list bclass).
Hypothesis Hini : is_init ini = true.
Hypothesis Hb1 : iso_bal 0 c1 = true.
Hypothesis Hb2 : iso_bal 0 c2 = true.

Lemma fs_pair_one c d : iso_bal 0 c = true ->
  fs d (ini :: c ++ PDI :: suffix) = fs d suffix.
Proof.
  intros Hb. cbn [fs]. rewrite Hini.
  rewrite (fs_bal c 0 (S d) _ Hb) by lia. cbn [fs is_init ceq bclass_beq].
  replace (S d - 1) with d by lia. reflexivity.
Qed.

Lemma fsu_pair_one c d : iso_bal 0 c = true ->
  fsu d (ini :: c ++ PDI :: suffix) = fsu d suffix.
Proof.
  intros Hb. cbn [fsu]. rewrite Hini.
  rewrite (fsu_bal c 0 (S d) _ Hb) by lia. cbn [fsu is_init ceq bclass_beq Nat.eqb].
  replace (S d - 1) with d by lia. reflexivity.
Qed.

Lemma fs_pair p : forall d,
  fs d (p ++ ini :: c1 ++ PDI :: suffix) = fs d (p ++ ini :: c2 ++ PDI :: suffix).
Proof.
  induction p as [|x t IH]; intros d.
  - cbn [app]. rewrite !fs_pair_one by assumption. reflexivity.
  - cbn [app fs]. rewrite !IH. reflexivity.
Qed.

Lemma fsu_pair p : forall d,
  fsu d (p ++ ini :: c1 ++ PDI :: suffix) = fsu d (p ++ ini :: c2 ++ PDI :: suffix).
Proof.
  induction p as [|x t IH]; intros d.
  - cbn [app]. rewrite !fsu_pair_one by assumption. reflexivity.
  - cbn [app fsu]. rewrite !IH. reflexivity.
Qed.
End Pair.

(* the X1-X8 run of a concatenation; it depends on the text only through fsi_strong *)

Fixpoint x_end (cls0 : list bclass) (pl : nat) (s : xstate) (i : nat) (l : list bclass) : xstate :=
  match l with
  | [] => s
  | c :: r => x_end cls0 pl (fst (fst (x_step cls0 pl s i c))) (S i) r
  end.

Lemma x_run_app cls0 pl a : forall s i b,
  x_run cls0 pl s i (a ++ b) =
  (fst (x_run cls0 pl s i a) ++ fst (x_run cls0 pl (x_end cls0 pl s i a) (i + length a) b),
   snd (x_run cls0 pl s i a) ++ snd (x_run cls0 pl (x_end cls0 pl s i a) (i + length a) b)).
Proof.
  induction a as [|c r IH]; intros s i b.
  - cbn [app x_run x_end length fst snd]. rewrite Nat.add_0_r. destruct (x_run cls0 pl s i b); reflexivity.
  - cbn [app x_run x_end length].
    destruct (x_step cls0 pl s i c) as [[s' lv] k] eqn:E. cbn [fst snd].
    rewrite IH. replace (i + S (length r)) with (S i + length r) by lia.
    destruct (x_run cls0 pl s' (S i) r) as [la ca]. cbn [fst snd]. reflexivity.
Qed.

Lemma x_end_app cls0 pl a : forall s i b,
  x_end cls0 pl s i (a ++ b) = x_end cls0 pl (x_end cls0 pl s i a) (i + length a) b.
Proof.
  induction a as [|c r IH]; intros s i b.
  - cbn [app x_end length]. rewrite Nat.add_0_r. reflexivity.
  - cbn [app x_end length]. rewrite IH. f_equal. lia.
Qed.

Lemma x_state_after_end cls0 pl a : forall s i b,
  x_state_after cls0 pl s i (a ++ b) (length a) = x_end cls0 pl s i a.
Proof.
  induction a as [|c r IH]; intros s i b.
  - destruct b; reflexivity.
  - cbn [app length x_state_after x_end].
    destruct (x_step cls0 pl s i c) as [[s' lv] k]. cbn [fst]. apply IH.
Qed.

Lemma x_step_ext cls0 cls0' pl s i i' c0 :
  (c0 = FSI -> fsi_strong cls0 i = fsi_strong cls0' i') ->
  x_step cls0 pl s i c0 = x_step cls0' pl s i' c0.
Proof.
  intros H. unfold x_step. destruct (c0 =c FSI) eqn:E; [|reflexivity].
  apply ceq_eq in E. rewrite (H E). reflexivity.
Qed.

Lemma x_run_ext cls0 cls0' pl l : forall s i i',
  (forall k, k < length l -> nth k l ON = FSI -> fsi_strong cls0 (i + k) = fsi_strong cls0' (i' + k)) ->
  x_run cls0 pl s i l = x_run cls0' pl s i' l /\ x_end cls0 pl s i l = x_end cls0' pl s i' l.
Proof.
  induction l as [|c r IH]; intros s i i' H; [split; reflexivity|].
  cbn [x_run x_end].
  rewrite (x_step_ext cls0 cls0' pl s i i' c).
  2:{ intros Hc. specialize (H 0). rewrite !Nat.add_0_r in H. apply H; [cbn [length]; lia|exact Hc]. }
  destruct (x_step cls0' pl s i' c) as [[s' lv] k]. cbn [fst].
  destruct (IH s' (S i) (S i')) as [E1 E2].
  { intros k0 Hk Hn. specialize (H (S k0)). replace (S i + k0) with (i + S k0) by lia.
    replace (S i' + k0) with (i' + S k0) by lia. apply H; [cbn [length]; lia|exact Hn]. }
  rewrite E1, E2. split; reflexivity.
Qed.

(* processing balanced content on top of a pushed isolate entry *)

Section Content.
Variables (nl vi0 : nat) (base : list sentry).

(* the stack is [ce] on top of the entry pushed by the initiator; [d] isolates are open inside the content:
   those that were pushed ([count_iso ce]) and those that overflowed *)
Definition CInv (d : nat) (s : xstate) : Prop :=
  exists ce : list sentry, x_stack s = ce ++ ((nl, ONone, true) : sentry) :: base /\ x_vi s = vi0 + 1 + count_iso ce /\
             d = count_iso ce + x_oi s /\ Forall (fun e => nl <= slev e) ce.

Definition bal_next (d : nat) (c : bclass) : option nat :=
  if is_init c then Some (S d)
  else if c =c PDI then match d with O => None | S d' => Some d' end
  else Some d.

Definition lv_ok (lv : option nat) : Prop := match lv with None => True | Some l => nl <= l end.

Lemma CInv_top d s pl : CInv d s -> nl <= toplev pl (x_stack s).
Proof.
  intros (ce & Hs & _ & _ & Hf). rewrite Hs. destruct ce as [|e ce]; cbn [app top_of toplev].
  - cbn. lia.
  - inversion Hf; assumption.
Qed.

Lemma CInv_same d s s' : CInv d s ->
  x_stack s' = x_stack s -> x_oi s' = x_oi s -> x_vi s' = x_vi s -> CInv d s'.
Proof. intros (ce & Hs & Hv & Hd & Hf) E1 E2 E3. exists ce. rewrite E1, E2, E3. auto. Qed.

Lemma CInv_step cls0 pl d s i c d' :
  CInv d s -> c <> B -> bal_next d c = Some d' ->
  CInv d' (fst (fst (x_step cls0 pl s i c))) /\ lv_ok (snd (fst (x_step cls0 pl s i c))).
Proof.
  intros HI HB Hn. pose proof (CInv_top d s pl HI) as Htop.
  change (CInv d' (xs_of cls0 pl s i c) /\ lv_ok (xl_of cls0 pl s i c)).
  unfold bal_next in Hn. destruct (is_init c) eqn:Ei; [|destruct (c =c PDI) eqn:Ep].
  - (* an initiator is pushed, or overflows *)
    injection Hn as <-. destruct (step_init cls0 pl s i c Ei) as (El & nl' & Hnl & Es).
    rewrite El, Es. split; [|exact Htop]. destruct HI as (ce & Hs & Hv & Hd & Hf). destruct (room nl' s).
    + exists ((nl', ONone, true) :: ce). cbn [x_stack x_vi x_oi count_iso siso snd app]. rewrite Hs.
      repeat split; try lia. constructor; [cbn; lia | exact Hf].
    + exists ce. cbn [x_stack x_vi x_oi]. repeat split; try assumption; lia.
  - (* a PDI closes an overflow isolate, or pops down to the last isolate entry of [ce] *)
    apply ceq_eq in Ep. subst c. destruct d as [|d0]; [discriminate|]. injection Hn as <-.
    destruct (step_pdi cls0 pl s i) as [Es El]. cbv zeta in Es, El. rewrite El, Es. clear Es El.
    match goal with |- CInv d0 ?s' /\ _ => assert (H : CInv d0 s'); [|split; [exact H | exact (CInv_top _ _ pl H)]] end.
    destruct HI as (ce & Hs & Hv & Hd & Hf). destruct (0 <? x_oi s) eqn:Eoi.
    + apply Nat.ltb_lt in Eoi. exists ce. cbn [x_stack x_vi x_oi]. repeat split; try assumption; lia.
    + apply Nat.ltb_ge in Eoi. replace (x_vi s =? 0) with false by (symmetry; apply Nat.eqb_neq; lia).
      destruct (pop_isolate_count ce (((nl, ONone, true) : sentry) :: base) ltac:(lia)) as (P1 & P2 & P3).
      exists (pop_isolate ce). cbn [x_stack x_vi x_oi]. rewrite Hs, P1. repeat split; try lia. apply P3, Hf.
  - injection Hn as <-.
    assert (Hk : is_plain c = true \/ c = BN \/ is_emb c = true \/ c = PDF)
      by (destruct c; auto; discriminate || contradiction).
    destruct Hk as [Hk|[->|[Hk| ->]]].
    + destruct (step_plain cls0 pl s i c Hk) as [-> ->]. split; [exact HI | exact Htop].
    + destruct (step_bn cls0 pl s i) as [-> ->]. split; [exact HI | exact I].
    + (* an embedding pushes an entry above the top, or changes the embedding overflow only *)
      destruct (step_emb cls0 pl s i c Hk) as [-> [(Ho & e & He & Hlt & E1 & E2 & E3)|(E1 & E2 & E3)]];
        (split; [|exact I]); [|exact (CInv_same _ _ _ HI E1 E2 E3)].
      destruct HI as (ce & Hs & Hv & Hd & Hf). exists (e :: ce). rewrite E1, E2, E3. cbn [count_iso app]. rewrite He, Hs.
      repeat split; try lia. constructor; [lia | exact Hf].
    + (* a PDF pops an embedding entry of [ce], never the isolate entry below it *)
      destruct (step_pdf cls0 pl s i) as (-> & E2 & E3 & [E1|(_ & e & He & E1 & _)]);
        (split; [|exact I]); [exact (CInv_same _ _ _ HI E1 E2 E3)|].
      destruct HI as (ce & Hs & Hv & Hd & Hf). rewrite Hs in E1.
      destruct ce as [|e0 ce']; cbn [app] in E1; injection E1 as <- E1; [discriminate He|].
      exists ce'. cbn [count_iso] in Hv, Hd. rewrite He in Hv, Hd. inversion Hf; subst.
      rewrite E2, E3. split; [symmetry; exact E1|]. repeat split; try assumption; lia.
Qed.
End Content.

Lemma iso_bal_next d x r : iso_bal d (x :: r) = match bal_next d x with Some d' => iso_bal d' r | None => false end.
Proof.
  cbn [iso_bal]. unfold bal_next. destruct (is_init x); [reflexivity|].
  destruct (x =c PDI); [destruct d; reflexivity|reflexivity].
Qed.

Lemma CInv_run nl vi0 base cls0 pl c : forall d s i,
  CInv nl vi0 base d s -> Forall (fun x => x <> B) c -> iso_bal d c = true ->
  CInv nl vi0 base 0 (x_end cls0 pl s i c) /\ Forall (lv_ok nl) (fst (x_run cls0 pl s i c)).
Proof.
  induction c as [|x r IH]; intros d s i HI HB Hb.
  - cbn [iso_bal] in Hb. apply Nat.eqb_eq in Hb. subst d. cbn [x_end x_run fst]. split; [exact HI|constructor].
  - rewrite iso_bal_next in Hb. destruct (bal_next d x) as [d'|] eqn:En; [|discriminate].
    inversion HB as [|? ? Hx Hr]; subst.
    destruct (CInv_step nl vi0 base cls0 pl d s i x d' HI Hx En) as [H1 H2].
    cbn [x_end x_run]. destruct (x_step cls0 pl s i x) as [[s' lv] k]. cbn [fst snd] in *.
    destruct (IH d' s' (S i) H1 Hr Hb) as [H3 H4]. split; [exact H3|].
    destruct (x_run cls0 pl s' (S i) r). cbn [fst] in *. constructor; assumption.
Qed.

Lemma x_step_ini cls0 pl s i ini :
  ini = LRI \/ ini = RLI -> x_oi s = 0 -> x_oe s = 0 ->
  let '(tl_, to, _) := top_of (x_stack s) pl in
  let nl := match ini with RLI => next_odd tl_ | _ => next_even tl_ end in
  nl <= max_depth_spec ->
  x_step cls0 pl s i ini =
    ({| x_stack := (nl, ONone, true) :: x_stack s; x_oi := 0; x_oe := 0; x_vi := S (x_vi s) |},
     Some tl_, ovr_class to ini).
Proof.
  intros Hini Hoi Hoe. destruct (top_of (x_stack s) pl) as [[tl_ to] tb] eqn:Et.
  intros nl Hnl. unfold x_step. rewrite Et. subst nl.
  destruct Hini as [-> | ->]; cbn [ceq bclass_beq]; rewrite Hoi, Hoe;
    apply Nat.leb_le in Hnl; rewrite Hnl; reflexivity.
Qed.

(* at depth 0 of the content the PDI is the one that closes the pair *)
Lemma x_step_close nl vi0 base cls0 pl s i :
  CInv nl vi0 base 0 s ->
  x_step cls0 pl s i PDI =
    let '(tl2, to2, _) := top_of base pl in
    ({| x_stack := base; x_oi := 0; x_oe := 0; x_vi := vi0 |}, Some tl2, ovr_class to2 PDI).
Proof.
  intros (ce & Hs & Hv & Hd & Hf).
  assert (Hc : count_iso ce = 0) by lia. assert (Hoi : x_oi s = 0) by lia.
  unfold x_step. cbn [ceq bclass_beq].
  destruct (top_of (x_stack s) pl) as [[tl_ to] tb].
  rewrite Hoi. cbn [Nat.ltb Nat.leb].
  assert (Hvi : (x_vi s =? 0) = false) by (apply Nat.eqb_neq; lia). rewrite Hvi.
  cbn [x_stack]. rewrite Hs, pop_isolate_noiso by (exact Hc || reflexivity).
  destruct (top_of base pl) as [[tl2 to2] tb2].
  replace (x_vi s - 1) with vi0 by lia. reflexivity.
Qed.

Lemma nth_outside {A} (P : list A) a C b D d j :
  nth (if j <=? length P then j else j + length C) (P ++ [a] ++ C ++ [b] ++ D) d
  = nth j (P ++ [a] ++ [b] ++ D) d.
Proof.
  destruct (j <=? length P) eqn:E.
  - apply Nat.leb_le in E. destruct (Nat.eq_dec j (length P)) as [->|Hne].
    + rewrite (app_nth2 P) by lia. rewrite (app_nth2 P) by lia. rewrite Nat.sub_diag. reflexivity.
    + rewrite !app_nth1 by lia. reflexivity.
  - apply Nat.leb_gt in E.
    assert (Hj : j = length P + 1 + (j - length P - 1)) by lia.
    generalize dependent (j - length P - 1). intros k Hk. subst j. clear E.
    rewrite (app_nth2 P) by lia. rewrite (app_nth2 P) by lia.
    replace (length P + 1 + k + length C - length P) with (S (length C + k)) by lia.
    replace (length P + 1 + k - length P) with (S k) by lia.
    cbn [app nth]. rewrite app_nth2 by lia. replace (length C + k - length C) with k by lia.
    reflexivity.
Qed.

(* the shape of the explicit levels / classes of a text with a valid pair *)

Definition txt (prefix : list bclass) (ini : bclass) (c suffix : list bclass) : list bclass :=
  prefix ++ [ini] ++ c ++ [PDI] ++ suffix.
Definition good_content (c : list bclass) : Prop := iso_bal 0 c = true /\ Forall (fun x => x <> B) c.
Definition above (tl : nat) (lv : option nat) : Prop := match lv with None => True | Some l => tl < l end.

Lemma para_level_pair prefix ini c1 c2 suffix dir :
  is_init ini = true -> iso_bal 0 c1 = true -> iso_bal 0 c2 = true ->
  para_level (txt prefix ini c1 suffix) dir = para_level (txt prefix ini c2 suffix) dir.
Proof.
  intros Hi H1 H2. unfold para_level. destruct dir; [reflexivity|].
  rewrite !first_strong_fs. unfold txt. cbn [app].
  rewrite (fs_pair ini c1 c2 suffix Hi H1 H2). reflexivity.
Qed.

Lemma skipn_app_lt {A} (l1 l2 : list A) n : n <= length l1 -> skipn n (l1 ++ l2) = skipn n l1 ++ l2.
Proof. intros H. rewrite skipn_app. replace (n - length l1) with 0 by lia. reflexivity. Qed.

Lemma skipn_app_ge {A} (l1 l2 : list A) n : length l1 <= n -> skipn n (l1 ++ l2) = skipn (n - length l1) l2.
Proof. intros H. rewrite skipn_app. rewrite skipn_all2 by lia. reflexivity. Qed.

Lemma fsi_prefix prefix ini c1 c2 suffix k :
  is_init ini = true -> iso_bal 0 c1 = true -> iso_bal 0 c2 = true -> k < length prefix ->
  fsi_strong (txt prefix ini c1 suffix) k = fsi_strong (txt prefix ini c2 suffix) k.
Proof.
  intros Hi H1 H2 Hk. rewrite !fsi_strong_fsu. unfold txt. rewrite !skipn_app_lt by lia. cbn [app].
  apply fsu_pair; assumption.
Qed.

Lemma txt_length prefix ini c suffix :
  length (txt prefix ini c suffix) = length prefix + 2 + length c + length suffix.
Proof. unfold txt. rewrite !app_length. cbn [length]. lia. Qed.

Lemma fsi_suffix prefix ini c suffix k :
  fsi_strong (txt prefix ini c suffix) (length prefix + 2 + length c + k) = fsu 0 (skipn (S k) suffix).
Proof.
  rewrite fsi_strong_fsu. unfold txt.
  replace (prefix ++ [ini] ++ c ++ [PDI] ++ suffix) with ((prefix ++ [ini] ++ c ++ [PDI]) ++ suffix)
    by (rewrite <- !app_assoc; reflexivity).
  rewrite skipn_app_ge by (rewrite !app_length; cbn [length]; lia).
  f_equal. f_equal. rewrite !app_length. cbn [length]. lia.
Qed.

Lemma xstate_eta s : {| x_stack := x_stack s; x_oi := x_oi s; x_oe := x_oe s; x_vi := x_vi s |} = s.
Proof. destruct s; reflexivity. Qed.

Lemma lri_rli_init ini : ini = LRI \/ ini = RLI -> is_init ini = true.
Proof. intros [-> | ->]; reflexivity. Qed.

Section Shape.
Variables (prefix suffix c1 : list bclass) (ini : bclass) (pl : nat).
Hypothesis Hini : ini = LRI \/ ini = RLI.
Hypothesis Hg1 : good_content c1.
Hypothesis Hvalid : initiator_valid (txt prefix ini c1 suffix) pl (length prefix).

Let np := length prefix.
Let t1 := txt prefix ini c1 suffix.
Let sP := x_end t1 pl (x_init pl) 0 prefix.

Lemma pair_shape :
  exists LP CP tl to LS CS,
    length LP = np /\ length CP = np /\ length LS = length suffix /\ length CS = length suffix /\
    forall c, good_content c ->
      exists LC CC,
        explicit_levels (txt prefix ini c suffix) pl =
          (LP ++ [Some tl] ++ LC ++ [Some tl] ++ LS,
           CP ++ [ovr_class to ini] ++ CC ++ [ovr_class to PDI] ++ CS) /\
        length LC = length c /\ length CC = length c /\ Forall (above tl) LC.
Proof.
  pose proof (lri_rli_init ini Hini) as Hi.
  pose proof Hvalid as Hv. unfold initiator_valid in Hv.
  change (txt prefix ini c1 suffix) with t1 in Hv.
  assert (Ht1 : t1 = prefix ++ ([ini] ++ c1 ++ [PDI] ++ suffix)) by reflexivity.
  replace (x_state_after t1 pl (x_init pl) 0 t1 (length prefix)) with sP in Hv
    by (symmetry; apply (x_state_after_end t1 pl prefix (x_init pl) 0 ([ini] ++ c1 ++ [PDI] ++ suffix))).
  assert (Hn : nth (length prefix) t1 ON = ini).
  { rewrite Ht1, app_nth2 by lia. rewrite Nat.sub_diag. reflexivity. }
  rewrite Hn in Hv.
  destruct (top_of (x_stack sP) pl) as [[tl to] tb] eqn:Etop.
  destruct Hv as (Hoi & Hoe & Hnl).
  set (nl := match ini with RLI => next_odd tl | _ => next_even tl end) in *.
  assert (Hgt : tl < nl).
  { subst nl. destruct ini; try apply next_even_gt. apply next_odd_gt. }
  exists (fst (x_run t1 pl (x_init pl) 0 prefix)), (snd (x_run t1 pl (x_init pl) 0 prefix)), tl, to,
         (fst (x_run t1 pl sP (np + 2 + length c1) suffix)), (snd (x_run t1 pl sP (np + 2 + length c1) suffix)).
  destruct (x_run_length t1 pl prefix (x_init pl) 0) as [L1 L2].
  destruct (x_run_length t1 pl suffix sP (np + 2 + length c1)) as [L3 L4].
  split; [exact L1|]. split; [exact L2|]. split; [exact L3|]. split; [exact L4|].
  intros c [Hb HB].
  set (t := txt prefix ini c suffix).
  assert (Ht : t = prefix ++ (ini :: (c ++ (PDI :: suffix)))) by reflexivity.
  destruct (x_run_ext t t1 pl prefix (x_init pl) 0 0) as [EP1 EP2].
  { intros k Hk _. cbn [Nat.add]. apply fsi_prefix; try assumption. apply Hg1. }
  fold sP in EP2.
  pose proof (x_step_ini t pl sP np ini Hini Hoi Hoe) as Sini. rewrite Etop in Sini. cbn zeta in Sini.
  specialize (Sini Hnl). fold nl in Sini.
  set (s1 := {| x_stack := (nl, ONone, true) :: x_stack sP; x_oi := 0; x_oe := 0; x_vi := S (x_vi sP) |}) in *.
  assert (HI1 : CInv nl (x_vi sP) (x_stack sP) 0 s1).
  { exists []. unfold s1. cbn [app x_stack x_vi x_oi count_iso]. repeat split; try lia. constructor. }
  destruct (CInv_run nl (x_vi sP) (x_stack sP) t pl c 0 s1 (S np) HI1 HB Hb) as [HI2 HLC].
  pose proof (x_step_close nl (x_vi sP) (x_stack sP) t pl _ (S np + length c) HI2) as Scl.
  rewrite Etop in Scl. rewrite <- Hoi in Scl at 1. rewrite <- Hoe in Scl at 1. rewrite xstate_eta in Scl.
  destruct (x_run_ext t t1 pl suffix sP (S (S np + length c)) (np + 2 + length c1)) as [ES1 ES2].
  { intros k Hk _. unfold t, t1, np.
    replace (S (S (length prefix) + length c) + k) with (length prefix + 2 + length c + k) by lia.
    rewrite !fsi_suffix. reflexivity. }
  destruct (x_run_length t pl c s1 (S np)) as [L5 L6].
  exists (fst (x_run t pl s1 (S np) c)), (snd (x_run t pl s1 (S np) c)).
  split.
  - unfold explicit_levels. fold (x_init pl). fold t. rewrite Ht at 2.
    rewrite x_run_app, EP1, EP2. cbn [Nat.add]. fold np.
    rewrite x_run_cons. unfold xs_of, xl_of. rewrite Sini. cbn [fst snd].
    rewrite x_run_app, x_run_cons. unfold xs_of, xl_of. rewrite Scl. cbn [fst snd].
    rewrite ES1. cbn [app]. reflexivity.
  - split; [exact L5|]. split; [exact L6|].
    eapply Forall_impl; [|exact HLC]. intros [l|] Hl; cbn in *; [lia|exact I].
Qed.
End Shape.

Lemma c13_explicit_proof : C13_explicit.
Proof.
  intros prefix suffix c1 c2 ini bp bs b1 b2 dir.
  unfold C13_explicit_spec, c13_hyps.
  intros (Hini & Hb1 & Hb2 & HB1 & HB2 & _ & _ & _ & _ & _ & _ & _ & Hvalid).
  change (prefix ++ [ini] ++ c1 ++ [PDI] ++ suffix) with (txt prefix ini c1 suffix) in *.
  change (prefix ++ [ini] ++ c2 ++ [PDI] ++ suffix) with (txt prefix ini c2 suffix) in *.
  pose proof (lri_rli_init ini Hini) as Hi.
  split; [apply para_level_pair; assumption|].
  cbn zeta.
  destruct (pair_shape prefix suffix c1 ini _ Hini (conj Hb1 HB1) Hvalid)
    as (LP & CP & tl & to & LS & CS & L1 & L2 & L3 & L4 & Hall).
  destruct (Hall c1 (conj Hb1 HB1)) as (LC1 & CC1 & E1 & M1 & M1' & _).
  destruct (Hall c2 (conj Hb2 HB2)) as (LC2 & CC2 & E2 & M2 & M2' & _).
  rewrite E1, E2. intros j _. unfold outside1, outside2.
  rewrite <- L1 at 1 2. rewrite <- M1, <- M2. rewrite !nth_outside.
  rewrite <- L2 at 1 2. rewrite M1, M2, <- M1', <- M2'. rewrite !nth_outside.
  split; reflexivity.
Qed.
