(* Proofs/CLReorderLine.v — reorder_line at character level (ghost encoding U32):
   exactly the line's characters, permuted by L2 of the per-character L1 levels.
   The levels come from LLLevels.cl_reordered_levels, the runs and their visual order from
   VisualRuns.core_spec; what is added here is that every run is read in bounds ([all_runs_ltr_spec],
   [emit_runs32]) and that the two early exits return the line because no level is odd. *)
From Coq Require Import List Permutation.
From BidiVerif Require Import Base ModelText ModelResolve ModelLine Judge Stmts5.
From BidiVerif.Proofs Require Import ListLib Units.
From BidiVerif.Proofs Require Import LevelOps L1 ReorderSpec VisualRuns LLLevels.

Lemma slice_nth {A} (d : A) (l : list A) i : forall n s, i + s + n <= length l ->
  firstn n (skipn (i + s) l) = map (fun x => nth (i + x) l d) (seq s n).
Proof.
  induction n as [|n IH]; intros s H; [reflexivity|].
  rewrite (skipn_nth_error l (i + s) (nth (i + s) l d)) by (apply nth_error_nth'; lia).
  cbn [firstn seq map]. f_equal. rewrite <- Nat.add_succ_r. apply IH. lia.
Qed.

Lemma sub_as_map {A} (d : A) (l : list A) i j : i <= j -> j <= length l ->
  sub l i j = map (fun x => nth (i + x) l d) (seq 0 (j - i)).
Proof.
  intros Hij Hj. unfold sub. rewrite <- (slice_nth d l i) by lia. rewrite Nat.add_0_r. reflexivity.
Qed.

Lemma sub_mid {A} (x y z : list A) i j :
  length x = i -> length y = j - i -> i <= j -> sub (x ++ y ++ z) i j = y.
Proof.
  intros Hx Hy Hij. subst i. unfold sub. rewrite skipn_length_app, <- Hy. apply firstn_length_app.
Qed.

Lemma Forall_even_forallb l : Forall (fun x => Nat.even x = true) l <-> forallb Nat.even l = true.
Proof. rewrite forallb_forall, Forall_forall. reflexivity. Qed.

Lemma no_rtl_even l : levels_has_rtl l = false -> Forall (fun x => Nat.even x = true) l.
Proof.
  intros H. apply Forall_forall. intros x Hx.
  destruct (Nat.even x) eqn:E; [reflexivity|].
  assert (Q : levels_has_rtl l = true).
  { apply has_rtl_spec. exists x. split; [exact Hx|]. rewrite <- Nat.negb_even, E. reflexivity. }
  congruence.
Qed.

Lemma all_runs_ltr_spec LV runs : Forall (rgood LV) runs ->
  exists bb, all_runs_ltr LV runs = Ok bb /\
    (bb = true -> Forall (fun r : run => Nat.even (rlev LV r) = true) runs).
Proof.
  induction 1 as [|r t Hr _ IH].
  - exists true. split; [reflexivity | constructor].
  - destruct Hr as (H1 & H2 & _).
    cbn [all_runs_ltr]. rewrite (get_lv LV 891 (fst r)) by lia. cbn [bind]. fold (rlev LV r).
    destruct (is_ltr (rlev LV r)) eqn:E.
    + destruct IH as (bb & Eb & Hb). exists bb. split; [exact Eb|].
      intros Ht. constructor; [|apply Hb, Ht]. rewrite <- is_ltr_even. exact E.
    + exists false. split; [reflexivity | discriminate].
Qed.

Lemma emit_runs32 a b cps LV runs : length LV = length cps -> Forall (rgood LV) runs ->
  emit_runs U32 false cps LV runs = Ok (map (fun k => nth k cps 0%N) (runs_visual_order a b LV runs)).
Proof.
  intros HL. induction 1 as [|r t Hr _ IH]; [reflexivity|].
  destruct Hr as (H1 & H2 & _).
  cbn [emit_runs]. rewrite (get_lv LV 897 (fst r)) by lia. cbn [bind].
  cbn [t_subrange]. rewrite slice_sub by lia. cbn [bind].
  rewrite IH. unfold runs_visual_order. cbn [flat_map]. rewrite (nth_error_lv LV (fst r)) by lia.
  fold (runs_visual_order a b LV t). rewrite map_app.
  pose proof (slice_nth 0%N cps 0 (snd r - fst r) (fst r) ltac:(lia)) as S. cbn [Nat.add] in S.
  unfold sub. rewrite S. fold (range (fst r) (snd r)).
  rewrite is_rtl_odd. destruct (Nat.odd (lev LV (fst r))); cbn [t_chars_rev bind].
  - rewrite map_rev. reflexivity.
  - reflexivity.
Qed.

Lemma cl_reorder_line_first cps cls lv pl i j :
  length cls = length cps -> length lv = length cps -> i < j -> j <= length cps ->
  Forall (fun l => l <= 126) lv -> pl <= 126 ->
  reorder_line U32 false cps cls lv pl (i, j)
  = Ok (map (fun x => nth (i + x) cps 0%N) (Spec.l2 (Spec.l1 pl (sub cls i j) (sub lv i j)))).
Proof.
  intros Hc Hl Hij Hj H126 Hpl.
  assert (Hij' : i <= j) by lia. assert (Hjl : j <= length lv) by lia. assert (Hjc : j <= length cls) by lia.
  set (l1v := Spec.l1 pl (sub cls i j) (sub lv i j)).
  assert (Hlen : length l1v = j - i).
  { unfold l1v. rewrite l1_length; rewrite !sub_length by assumption; reflexivity. }
  assert (Hid : forallb Nat.even l1v = true ->
                map (fun x => nth (i + x) cps 0%N) (Spec.l2 l1v) = sub cps i j).
  { intros Hev. rewrite (l2_all_even l1v Hev), Hlen. symmetry. apply sub_as_map; assumption. }
  unfold reorder_line. cbn [fst snd]. rewrite (slice_sub 595 lv i j) by assumption. cbn [bind orb].
  destruct (is_ltr pl && negb (levels_has_rtl (sub lv i j))) eqn:Eexit.
  - (* early exit: no odd stored level, even paragraph level *)
    apply andb_true_iff in Eexit as [E1 E2]. apply negb_true_iff in E2.
    cbn [t_subrange]. rewrite slice_sub by assumption. f_equal. symmetry. apply Hid.
    apply Forall_even_forallb. unfold l1v. apply l1_Forall.
    + rewrite <- is_ltr_even. exact E1.
    + apply no_rtl_even. exact E2.
  - rewrite (proj1 (cl_reordered_levels cps cls lv pl i j Hc Hl Hij' Hj)). cbn [bind]. fold l1v.
    set (LV := firstn i lv ++ l1v ++ skipn j lv).
    assert (Hfi : length (firstn i lv) = i) by (rewrite firstn_length; lia).
    assert (HLV : length LV = length cps).
    { unfold LV. rewrite !app_length, Hfi, Hlen, skipn_length. lia. }
    assert (HjL : j <= length LV) by (rewrite HLV; exact Hj).
    assert (LV126 : Forall (fun l => l <= 126) LV).
    { unfold LV. rewrite !Forall_app. split; [apply Forall_firstn; exact H126|].
      split; [|apply Forall_skipn; exact H126].
      unfold l1v. apply l1_Forall; [exact Hpl | apply Forall_sub; exact H126]. }
    assert (Hsub : sub LV i j = l1v) by (apply sub_mid; assumption).
    destruct (core_spec LV i j Hij HjL LV126) as (runs & R0 & Evr & Hperm & Hch & Hmax & Hvis).
    unfold visual_runs_for_line. rewrite Evr. cbn [bind].
    fold (sub LV i j) in Hvis. rewrite Hsub in Hvis.
    assert (Hok : Forall (rgood LV) runs).
    { eapply Permutation_Forall; [apply Permutation_sym; exact Hperm|].
      eapply Forall_impl; [|exact Hmax]. intros r Hr. apply (rmax_good LV i j); assumption. }
    unfold reorder_line_core. cbn [fst snd].
    destruct (all_runs_ltr_spec LV runs Hok) as (bb & Ebb & Hbb). rewrite Ebb. cbn [bind].
    destruct bb.
    + (* every run is LTR, and every position of the line lies in a run: no odd level after L1 *)
      cbn [t_subrange]. rewrite slice_sub by assumption. f_equal. symmetry. apply Hid.
      specialize (Hbb eq_refl). rewrite Forall_forall in Hbb, Hok.
      rewrite <- Hsub, (sub_as_map 0 LV i j) by assumption. apply forallb_forall. intros x Hx.
      apply in_map_iff in Hx as (k & <- & Hk). apply in_seq in Hk.
      destruct (tiles_covers R0 i j (i + k) Hch ltac:(lia)) as (r & Hr & Hik).
      apply (Permutation_in _ (Permutation_sym Hperm)) in Hr.
      destruct (Hok r Hr) as (_ & _ & Hu). fold (lev LV (i + k)). rewrite (Hu _ Hik).
      apply Hbb, Hr.
    + rewrite (emit_runs32 i j cps LV runs HLV Hok). rewrite Hvis, map_map. reflexivity.
Qed.

Lemma cl_reorder_line_proved : CL_reorder_line.
Proof.
  intros cps cls lv pl i j Hc Hl Hij Hj H126 Hpl l1v.
  pose proof (cl_reorder_line_first cps cls lv pl i j Hc Hl Hij Hj H126 Hpl) as H. fold l1v in H.
  split; [exact H|].
  intros Hev. rewrite H. f_equal.
  assert (Hlen : length l1v = j - i).
  { unfold l1v. rewrite l1_length; rewrite !sub_length; lia. }
  rewrite (l2_all_even l1v Hev), Hlen. symmetry. apply sub_as_map; lia.
Qed.
