(* Proofs/Utf16.v — the UTF-16 text source of the model against the lossy decoding of Spec.v (C18),
   and the UTF-8 index iterators against the scalar list. *)
From BidiVerif Require Import Base ModelText Spec Judge Stmts.

(* [cbn] and [simpl] leave arithmetic on [N] alone, here and in the files that import this one (TextView.v) *)
Arguments N.add : simpl never.
Arguments N.sub : simpl never.
Arguments N.mul : simpl never.
Arguments N.land : simpl never.

(* masks (model) against ranges (spec) on 16-bit units: 0xFC00 keeps the top six of sixteen bits, so both
   surrogate tests look only at u / 1024 *)
Lemma land_fc00 u : (u < 65536)%N -> N.land u 64512 = (1024 * (u / 1024))%N.
Proof.
  intros H. change 1024%N with (2 ^ 10)%N.
  rewrite N.mul_comm, <- N.shiftl_mul_pow2, <- N.shiftr_div_pow2, <- N.ldiff_ones_r.
  change 64512%N with (N.shiftl (N.ones 6) 10).
  apply N.bits_inj; intros n.
  rewrite N.land_spec, N.ldiff_spec.
  destruct (N.ltb_spec n 10) as [L|L].
  - rewrite N.shiftl_spec_low, N.ones_spec_low by lia. reflexivity.
  - rewrite N.shiftl_spec_high', (N.ones_spec_high 10) by lia.
    destruct (N.ltb_spec n 16) as [L'|L'].
    + rewrite N.ones_spec_low by lia. reflexivity.
    + rewrite (N.bits_above_log2 u n); [reflexivity|].
      destruct (N.eq_dec u 0) as [->|U]; [cbn; lia|].
      apply N.log2_lt_pow2; [lia|]. apply N.lt_le_trans with (2 ^ 16)%N; [exact H|].
      apply N.pow_le_mono_r; lia.
Qed.

Lemma fc00_range u k :
  (u < 65536)%N -> (N.land u 64512 =? 1024 * k)%N = ((1024 * k <=? u) && (u <=? 1024 * k + 1023))%N.
Proof.
  intros H. rewrite (land_fc00 u H).
  generalize (N.div_mod u 1024 ltac:(discriminate)) (N.mod_lt u 1024 ltac:(discriminate)).
  (* [lia] does not get through [u / 1024] itself *)
  generalize (u / 1024)%N (u mod 1024)%N; intros q r D M.
  destruct (N.eqb_spec (1024 * q) (1024 * k)), (N.leb_spec (1024 * k) u),
    (N.leb_spec u (1024 * k + 1023));
    cbn; try reflexivity; exfalso; lia.
Qed.

Lemma hi_agree u : (u < 65536)%N -> is_high_surrogate u = is_hi u.
Proof. exact (fc00_range u 54). Qed.
Lemma lo_agree u : (u < 65536)%N -> is_low_surrogate u = is_lo u.
Proof. exact (fc00_range u 55). Qed.

Lemma ok_agree u : from_u32_ok u = negb (is_hi u || is_lo u).
Proof.
  unfold from_u32_ok, is_hi, is_lo.
  destruct (N.leb_spec 55296 u), (N.leb_spec u 57343), (N.leb_spec u 56319), (N.leb_spec 56320 u);
    cbn; try reflexivity; lia.
Qed.

(* the three kinds of 16-bit unit; all five predicates are decided at once *)
Inductive unit_kind (u : N) : Prop :=
| UK_hi : is_high_surrogate u = true -> is_low_surrogate u = false -> from_u32_ok u = false ->
          is_hi u = true -> is_lo u = false -> unit_kind u
| UK_lo : is_high_surrogate u = false -> is_low_surrogate u = true -> from_u32_ok u = false ->
          is_hi u = false -> is_lo u = true -> unit_kind u
| UK_other : is_high_surrogate u = false -> is_low_surrogate u = false -> from_u32_ok u = true ->
          is_hi u = false -> is_lo u = false -> unit_kind u.

Lemma classify u : (u < 65536)%N -> unit_kind u.
Proof.
  intros H. pose proof (hi_agree u H) as Eh. pose proof (lo_agree u H) as El.
  pose proof (ok_agree u) as Eo.
  assert (Hex : is_hi u && is_lo u = false).
  { unfold is_hi, is_lo.
    destruct (N.leb_spec 55296 u), (N.leb_spec u 56319), (N.leb_spec 56320 u), (N.leb_spec u 57343);
      cbn; try reflexivity; lia. }
  destruct (is_hi u) eqn:A, (is_lo u) eqn:B; cbn in Eo, Hex; try discriminate.
  - apply UK_hi; assumption || reflexivity.
  - apply UK_lo; assumption || reflexivity.
  - apply UK_other; assumption || reflexivity.
Qed.

Lemma low_not_ok u : (u < 65536)%N -> is_low_surrogate u = true -> from_u32_ok u = false.
Proof. intros H E. destruct (classify u H); congruence. Qed.

Lemma char_at16_nil i : char_at16 [] i = None.
Proof. unfold char_at16. destruct i; reflexivity. Qed.

Lemma char_at16_0 u r :
  char_at16 (u :: r) 0 =
  if from_u32_ok u then Some (u, 1) else Some (decode_first (u :: r) 0 u).
Proof.
  unfold char_at16. cbn [nth_error]. destruct (from_u32_ok u); [reflexivity|].
  change (0 <? 0) with false. rewrite andb_false_r. reflexivity.
Qed.

Lemma char_at16_shift u r i :
  (i = 0 -> match r with
            | d :: _ => is_low_surrogate d && is_high_surrogate u = false
            | [] => True
            end) ->
  char_at16 (u :: r) (S i) = char_at16 r i.
Proof.
  intros H. unfold char_at16. cbn [nth_error].
  destruct (nth_error r i) as [c|] eqn:E; [|reflexivity].
  destruct (from_u32_ok c); [reflexivity|].
  change (decode_first (u :: r) (S i) c) with (decode_first r i c).
  destruct i as [|j].
  - destruct r as [|d r']; [discriminate|]. cbn [nth_error] in E. injection E as ->.
    specialize (H eq_refl). cbn beta iota in H.
    change (1 - 1) with 0. cbn [nth_error].
    change (0 <? 1) with true. change (0 <? 0) with false.
    rewrite andb_true_r, andb_false_r. cbn [andb]. rewrite H. reflexivity.
  - change (S (S j) - 1) with (S j). cbn [nth_error].
    replace (S j - 1) with j by lia. reflexivity.
Qed.

Lemma char_at16_mid u d r :
  from_u32_ok d = false -> is_low_surrogate d = true -> is_high_surrogate u = true ->
  char_at16 (u :: d :: r) 1 = None.
Proof.
  intros A B C. unfold char_at16. cbn [nth_error]. rewrite A, B.
  change (1 - 1) with 0. cbn [nth_error]. rewrite C. reflexivity.
Qed.

Definition slen (d : list (N * nat)) : nat := list_sum (map snd d).
Definition lens12 (d : list (N * nat)) : Prop := Forall (fun x => snd x = 1 \/ snd x = 2) d.

Lemma slen_nil : slen [] = 0.
Proof. reflexivity. Qed.
Lemma slen_cons c l d : slen ((c, l) :: d) = l + slen d.
Proof. reflexivity. Qed.
Lemma slen_app a b : slen (a ++ b) = slen a + slen b.
Proof. unfold slen. rewrite map_app, list_sum_app. reflexivity. Qed.

Lemma lens12_app a b : lens12 (a ++ b) <-> lens12 a /\ lens12 b.
Proof. apply Forall_app. Qed.

Lemma lens12_length d : lens12 d -> length d <= slen d.
Proof.
  induction 1 as [|[c l] d H _ IH]; [apply le_n|].
  rewrite slen_cons. cbn [length snd] in *. lia.
Qed.

Lemma cas_nil i : char_at_spec [] i = None.
Proof. reflexivity. Qed.
Lemma cas_cons_0 c l r : char_at_spec ((c, l) :: r) 0 = Some (c, l).
Proof. reflexivity. Qed.
Lemma cas_cons_2_1 c r : char_at_spec ((c, 2) :: r) 1 = None.
Proof. reflexivity. Qed.
Lemma cas_skip c l r j : 1 <= l -> char_at_spec ((c, l) :: r) (l + j) = char_at_spec r j.
Proof.
  intros H. cbn [char_at_spec].
  destruct (Nat.eqb_spec (l + j) 0) as [E|_]; [lia|].
  destruct (Nat.ltb_spec (l + j) l) as [E|_]; [lia|].
  replace (l + j - l) with j by lia. reflexivity.
Qed.

Lemma cas_cons_1 c r j : char_at_spec ((c, 1) :: r) (S j) = char_at_spec r j.
Proof. apply (cas_skip c 1 r j), le_n. Qed.
Lemma cas_cons_2 c r j : char_at_spec ((c, 2) :: r) (S (S j)) = char_at_spec r j.
Proof. apply (cas_skip c 2 r j). lia. Qed.

Lemma cas_app f r j : lens12 f -> char_at_spec (f ++ r) (slen f + j) = char_at_spec r j.
Proof.
  intros H. revert j. induction H as [|[c l] f Hl _ IH]; intros j.
  - reflexivity.
  - rewrite slen_cons, <- app_comm_cons, <- Nat.add_assoc. cbn [snd] in Hl.
    rewrite cas_skip by lia. apply IH.
Qed.

Lemma cas_no_overlap d : lens12 d ->
  forall i c, char_at_spec d i = Some (c, 2) -> char_at_spec d (S i) = None.
Proof.
  induction 1 as [|[c0 l0] d Hl _ IH]; intros i c E; [discriminate|].
  cbn [snd] in Hl. destruct i as [|j].
  - rewrite cas_cons_0 in E. injection E as -> ->. apply cas_cons_2_1.
  - cbn [char_at_spec] in *. change (S j =? 0) with false in E. cbv beta iota in E.
    change (S (S j) =? 0) with false. cbv beta iota.
    destruct (Nat.ltb_spec (S j) l0) as [L|L]; [discriminate|].
    destruct (Nat.ltb_spec (S (S j)) l0) as [L'|L']; [lia|].
    replace (S (S j) - l0) with (S (S j - l0)) by lia. exact (IH _ _ E).
Qed.

Lemma decode16_ind2 (P : list N -> Prop) :
  P [] ->
  (forall u r, P r -> (forall d r', r = d :: r' -> P r') -> P (u :: r)) ->
  forall t, P t.
Proof.
  intros H0 H1 t.
  enough (H : P t /\ (forall d r', t = d :: r' -> P r')) by exact (proj1 H).
  induction t as [|u r [IHa IHb]].
  - split; [exact H0 | discriminate].
  - split.
    + apply H1; assumption.
    + intros d r' E. injection E as _ <-. exact IHa.
Qed.

(* induction over the steps of the decoder: a unit that does not open a surrogate pair (it gives itself, or U+FFFD
   for a lone surrogate), or a pair *)
Lemma decode16_cases (Q : list N -> list (N * nat) -> Prop) :
  Q [] [] ->
  (forall u r c, Q r (decode16 r) ->
     c = 65533%N \/ (c = u /\ is_hi u = false /\ is_lo u = false) ->
     Q (u :: r) ((c, 1) :: decode16 r)) ->
  (forall u d r, Q r (decode16 r) -> is_hi u = true -> is_lo d = true ->
     Q (u :: d :: r) (((65536 + (u - 55296) * 1024 + (d - 56320))%N, 2) :: decode16 r)) ->
  forall t, Q t (decode16 t).
Proof.
  intros Q0 Q1 Q2. induction t as [|u r IHr IHr'] using decode16_ind2; [exact Q0|].
  cbn [decode16]. destruct (is_hi u) eqn:Eh.
  - destruct r as [|d r']; [apply (Q1 u [] _ Q0); left; reflexivity|].
    destruct (is_lo d) eqn:El.
    + apply Q2; [exact (IHr' _ _ eq_refl) | exact Eh | exact El].
    + apply Q1; [exact IHr | left; reflexivity].
  - destruct (is_lo u) eqn:El; (apply Q1; [exact IHr | auto]).
Qed.

Lemma decode16_lens12 t : lens12 (decode16 t).
Proof.
  apply (decode16_cases (fun _ d => lens12 d)); [constructor | |]; intros; constructor; auto.
Qed.

Lemma decode16_slen t : slen (decode16 t) = length t.
Proof.
  apply (decode16_cases (fun t d => slen d = length t)); [reflexivity | |]; intros; rewrite slen_cons; cbn [length]; lia.
Qed.

Lemma decode16_length t : length (decode16 t) <= length t.
Proof. rewrite <- decode16_slen. apply lens12_length, decode16_lens12. Qed.

Lemma fold_add_slen d a : fold_left Nat.add (map snd d) a = a + slen d.
Proof.
  revert a. induction d as [|[c l] d IH]; intros a.
  - cbn. lia.
  - cbn [map fold_left snd]. rewrite IH, slen_cons. lia.
Qed.

Lemma char_at16_single u r x :
  (forall i, char_at16 r i = char_at_spec (decode16 r) i) ->
  char_at16 (u :: r) 0 = Some (x, 1) ->
  match r with d :: _ => is_low_surrogate d && is_high_surrogate u = false | [] => True end ->
  forall i, char_at16 (u :: r) i = char_at_spec ((x, 1) :: decode16 r) i.
Proof.
  intros IH E0 Hc i. destruct i as [|j].
  - rewrite cas_cons_0. exact E0.
  - rewrite cas_cons_1, char_at16_shift by (intros _; exact Hc). apply IH.
Qed.

Lemma char_at16_spec t : is_u16 t -> forall i, char_at16 t i = char_at_spec (decode16 t) i.
Proof.
  induction t as [|u r IHr IHr'] using decode16_ind2; intros Hu.
  - intros i. rewrite char_at16_nil. reflexivity.
  - inversion Hu as [|? ? Hu1 Hur]; subst.
    specialize (IHr Hur).
    cbn [decode16].
    destruct (classify u Hu1) as [Eh El Eo Eh' El' | Eh El Eo Eh' El' | Eh El Eo Eh' El'];
      rewrite Eh'; [|rewrite El'..].
    + (* u is a high surrogate *)
      destruct r as [|d r'].
      * apply char_at16_single; [exact IHr | | exact I].
        rewrite char_at16_0, Eo. unfold decode_first. rewrite Eh. reflexivity.
      * inversion Hur as [|? ? Hd1 Hr']; subst.
        destruct (classify d Hd1) as [Dh Dl Do Dh' Dl' | Dh Dl Do Dh' Dl' | Dh Dl Do Dh' Dl'];
          rewrite Dl'.
        -- apply char_at16_single; [exact IHr | | rewrite Dl; reflexivity].
           rewrite char_at16_0, Eo. unfold decode_first. rewrite Eh. cbn [nth_error].
           rewrite Dl. reflexivity.
        -- (* a surrogate pair *)
           intros i. destruct i as [|[|j]].
           ++ rewrite cas_cons_0, char_at16_0, Eo. unfold decode_first. rewrite Eh.
              cbn [nth_error]. rewrite Dl. reflexivity.
           ++ rewrite cas_cons_2_1. apply char_at16_mid; assumption.
           ++ rewrite cas_cons_2.
              rewrite char_at16_shift by discriminate.
              rewrite char_at16_shift.
              ** apply (IHr' _ _ eq_refl Hr').
              ** intros _. destruct r' as [|d2 r'']; [exact I|]. rewrite Dh. apply andb_false_r.
        -- apply char_at16_single; [exact IHr | | rewrite Dl; reflexivity].
           rewrite char_at16_0, Eo. unfold decode_first. rewrite Eh. cbn [nth_error].
           rewrite Dl. reflexivity.
    + (* u is a lone low surrogate *)
      apply char_at16_single; [exact IHr | | ].
      * rewrite char_at16_0, Eo. unfold decode_first. rewrite Eh. reflexivity.
      * destruct r as [|d r']; [exact I|]. rewrite Eh. apply andb_false_r.
    + (* u is a scalar value *)
      apply char_at16_single; [exact IHr | | ].
      * rewrite char_at16_0, Eo. reflexivity.
      * destruct r as [|d r']; [exact I|]. rewrite Eh. apply andb_false_r.
Qed.

Lemma iter16_positions t d :
  lens12 d ->
  forall fuel off,
    (forall i, char_at16 t (off + i) = char_at_spec d i) ->
    length d < fuel ->
    iter16 fuel t off = positions off d.
Proof.
  induction 1 as [|[c l] d Hl Hd IH]; intros fuel off H Hf.
  - destruct fuel as [|f]; [reflexivity|]. cbn [iter16 positions].
    specialize (H 0). rewrite Nat.add_0_r in H. rewrite H. reflexivity.
  - destruct fuel as [|f]; [cbn in Hf; lia|]. cbn [iter16 positions].
    pose proof (H 0) as H0. rewrite Nat.add_0_r, cas_cons_0 in H0. rewrite H0.
    f_equal. apply IH.
    + intros i. rewrite <- Nat.add_assoc, H. cbn [snd] in Hl. apply cas_skip. lia.
    + cbn [length] in Hf. lia.
Qed.

Lemma positions_chars pos d :
  map snd (map (fun x : nat * N * nat => match x with (p, c, _) => (p, c) end) (positions pos d))
  = map fst d.
Proof.
  revert pos. induction d as [|[c l] d IH]; intros pos; [reflexivity|].
  cbn [positions map fst snd]. rewrite IH. reflexivity.
Qed.

Lemma char_at16_len1 t s c :
  char_at16 t s = Some (c, 1) ->
  exists u, nth_error t s = Some u /\ c = (if from_u32_ok u then u else REPLACEMENT).
Proof.
  unfold char_at16. destruct (nth_error t s) as [u|]; [|discriminate].
  intros H. exists u. split; [reflexivity|].
  destruct (from_u32_ok u).
  - injection H as <-. reflexivity.
  - destruct (_ && _ && _); [discriminate|].
    unfold decode_first in H.
    destruct (is_high_surrogate u).
    + destruct (nth_error t (S s)) as [d|].
      * destruct (is_low_surrogate d); [discriminate|]. injection H as <-. reflexivity.
      * injection H as <-. reflexivity.
    + injection H as <-. reflexivity.
Qed.

Lemma char_at16_len2 t s c :
  char_at16 t s = Some (c, 2) ->
  exists d, nth_error t (S s) = Some d /\ is_low_surrogate d = true.
Proof.
  unfold char_at16. destruct (nth_error t s) as [u|]; [|discriminate].
  destruct (from_u32_ok u); [discriminate|].
  destruct (_ && _ && _); [discriminate|].
  unfold decode_first.
  destruct (is_high_surrogate u); [|discriminate].
  destruct (nth_error t (S s)) as [d|]; [|discriminate].
  destruct (is_low_surrogate d) eqn:E; [|discriminate].
  intros _. exists d. split; [reflexivity | exact E].
Qed.

Section Deque.
  Variable t : list N.
  Variable dec : list (N * nat).
  Hypothesis Hu : is_u16 t.
  Hypothesis H1 : forall i, char_at16 t i = char_at_spec dec i.
  Hypothesis H2 : lens12 dec.

  Lemma at_boundary f c l r : dec = f ++ (c, l) :: r -> char_at16 t (slen f) = Some (c, l).
  Proof.
    intros E. rewrite H1, E, <- (Nat.add_0_r (slen f)), cas_app.
    - apply cas_cons_0.
    - rewrite E in H2. apply lens12_app in H2. exact (proj1 H2).
  Qed.

  Lemma next_nil cur : chars16_next t (cur, cur + slen []) = (None, (cur, cur + slen [])).
  Proof.
    unfold chars16_next. rewrite slen_nil, Nat.add_0_r, Nat.leb_refl. reflexivity.
  Qed.

  Lemma next_cons f c l m b :
    dec = f ++ ((c, l) :: m) ++ b ->
    chars16_next t (slen f, slen f + slen ((c, l) :: m))
    = (Some c, (slen (f ++ [(c, l)]), slen (f ++ [(c, l)]) + slen m)).
  Proof.
    intros E. unfold chars16_next.
    assert (Hl : l = 1 \/ l = 2).
    { rewrite E in H2. apply lens12_app in H2 as [_ H2']. cbn [app] in H2'.
      inversion H2' as [|? ? Hl _]. exact Hl. }
    rewrite slen_cons.
    destruct (Nat.leb_spec (slen f + (l + slen m)) (slen f)) as [L|_]; [lia|].
    rewrite (at_boundary f c l (m ++ b)) by exact E.
    rewrite slen_app, slen_cons, slen_nil.
    f_equal. f_equal; lia.
  Qed.

  Lemma next_back_nil cur :
    chars16_next_back t (cur, cur + slen []) = Ok (None, (cur, cur + slen [])).
  Proof.
    unfold chars16_next_back. rewrite slen_nil, Nat.add_0_r, Nat.leb_refl. reflexivity.
  Qed.

  Lemma next_back_snoc f m c l b :
    dec = f ++ (m ++ [(c, l)]) ++ b ->
    chars16_next_back t (slen f, slen f + slen (m ++ [(c, l)]))
    = Ok (Some c, (slen f, slen f + slen m)).
  Proof.
    intros E.
    assert (E' : dec = (f ++ m) ++ (c, l) :: b).
    { rewrite E, <- !app_assoc. reflexivity. }
    assert (Hl : l = 1 \/ l = 2).
    { rewrite E' in H2. apply lens12_app in H2 as [_ H2'].
      inversion H2' as [|? ? Hl _]. exact Hl. }
    pose proof (at_boundary _ _ _ _ E') as Hs. rewrite slen_app in Hs.
    rewrite slen_app, slen_cons, slen_nil.
    set (s := slen f + slen m) in *.
    unfold chars16_next_back. cbv zeta.
    destruct Hl as [-> | ->].
    - (* the last character is one unit long *)
      replace (slen f + (slen m + (1 + 0))) with (S s) by lia.
      destruct (Nat.leb_spec (S s) (slen f)) as [L|_]; [lia|].
      replace (S s - 1) with s by lia.
      destruct (char_at16_len1 _ _ _ Hs) as (u & Eu & Ec).
      unfold get. rewrite Eu. cbn [bind].
      destruct (from_u32_ok u).
      + rewrite Ec. reflexivity.
      + rewrite Ec.
        destruct (Nat.ltb_spec (slen f) s) as [L|_]; [|reflexivity].
        destruct (char_at16 t (s - 1)) as [[c' [|[|[|n]]]]|] eqn:Ep; try reflexivity.
        exfalso. rewrite H1 in Ep. apply (cas_no_overlap _ H2) in Ep.
        replace (S (s - 1)) with s in Ep by lia.
        rewrite <- H1, Hs in Ep. discriminate.
    - (* the last character is a surrogate pair *)
      replace (slen f + (slen m + (2 + 0))) with (S (S s)) by lia.
      destruct (Nat.leb_spec (S (S s)) (slen f)) as [L|_]; [lia|].
      replace (S (S s) - 1) with (S s) by lia.
      destruct (char_at16_len2 _ _ _ Hs) as (d & Ed & Dl).
      unfold get. rewrite Ed. cbn [bind].
      assert (Hd : (d < 65536)%N).
      { unfold is_u16 in Hu. rewrite Forall_forall in Hu. apply Hu.
        eapply nth_error_In. exact Ed. }
      rewrite (low_not_ok d Hd Dl).
      destruct (Nat.ltb_spec (slen f) (S s)) as [_|L]; [|lia].
      replace (S s - 1) with s by lia.
      rewrite Hs. reflexivity.
  Qed.

  Lemma run_inv ops : forall f m b,
    dec = f ++ m ++ b ->
    iter16_run false t (slen f, slen f + slen m) ops = Ok (deque_run (map fst m) ops).
  Proof.
    induction ops as [|[|] ops IH]; intros f m b E.
    - reflexivity.
    - cbn [iter16_run deque_run]. destruct m as [|[c l] m'].
      + rewrite next_nil. cbn [map]. rewrite (IH f [] b E). reflexivity.
      + rewrite (next_cons f c l m' b E). cbn [map fst].
        rewrite (IH (f ++ [(c, l)]) m' b).
        * reflexivity.
        * rewrite E, <- !app_assoc. reflexivity.
    - cbn [iter16_run deque_run]. destruct m as [|[c l] m' _] using rev_ind.
      + rewrite next_back_nil. cbn [bind fst snd map rev]. rewrite (IH f [] b E). reflexivity.
      + rewrite (next_back_snoc f m' c l b E). cbn [bind fst snd].
        rewrite map_app, rev_app_distr. cbn [map fst rev app].
        rewrite rev_involutive.
        rewrite (IH f m' ((c, l) :: b)).
        * reflexivity.
        * rewrite E, <- !app_assoc. reflexivity.
  Qed.

  Lemma rev_fuel_inv fuel : forall f m b,
    dec = f ++ m ++ b ->
    length m < fuel ->
    chars16_rev_fuel fuel t (slen f, slen f + slen m) = Ok (rev (map fst m)).
  Proof.
    induction fuel as [|fuel IH]; intros f m b E Hf; [lia|].
    cbn [chars16_rev_fuel]. destruct m as [|[c l] m' _] using rev_ind.
    - rewrite next_back_nil. reflexivity.
    - rewrite (next_back_snoc f m' c l b E). cbn [bind].
      rewrite (IH f m' ((c, l) :: b)).
      + cbn [bind]. rewrite map_app, rev_app_distr. reflexivity.
      + rewrite E, <- !app_assoc. reflexivity.
      + rewrite app_length in Hf. cbn [length] in Hf. lia.
  Qed.
End Deque.

Theorem utf16_text_access : C18_statement.
Proof.
  intros t Hu.
  pose proof (char_at16_spec t Hu) as H1.
  pose proof (decode16_lens12 t) as H2.
  pose proof (decode16_length t) as H3.
  assert (Hit : iter16 (S (length t)) t 0 = positions 0 (decode16 t)).
  { apply iter16_positions; [exact H2 | exact H1 | lia]. }
  split; [exact H1|].
  split; [exact Hit|].
  split. { unfold chars16, char_indices16. rewrite Hit. apply positions_chars. }
  split. { rewrite fold_add_slen. apply decode16_slen. }
  split.
  { unfold chars16_rev, chars16_new. rewrite <- (decode16_slen t).
    change (0, slen (decode16 t)) with (slen [], slen [] + slen (decode16 t)).
    apply (rev_fuel_inv t (decode16 t) Hu H1 H2 _ [] (decode16 t) []).
    - rewrite app_nil_r. reflexivity.
    - rewrite decode16_slen. lia. }
  intros ops. unfold iter16_program, chars16_new. rewrite <- (decode16_slen t).
  change (0, slen (decode16 t)) with (slen [], slen [] + slen (decode16 t)).
  apply (run_inv t (decode16 t) Hu H1 H2 ops [] (decode16 t) []).
  rewrite app_nil_r. reflexivity.
Qed.

Lemma indices8_positions t : forall pos,
  map (fun x : nat * N => (fst x, len_utf8 (snd x))) (char_indices8_from pos t)
  = map (fun x : nat * N * nat => (fst (fst x), snd x))
        (positions pos (map (fun c => (c, len_utf8 c)) t)).
Proof.
  induction t as [|c r IH]; intros pos; [reflexivity|].
  cbn [char_indices8_from map positions fst snd]. rewrite IH. reflexivity.
Qed.

Lemma char_at8_spec t : forall i,
  char_at8 t i = char_at_spec (map (fun c => (c, len_utf8 c)) t) i.
Proof.
  induction t as [|c r IH]; intros i; [reflexivity|].
  cbn [char_at8 map char_at_spec]. rewrite IH. reflexivity.
Qed.

Theorem utf8_text_access : C18_utf8_statement.
Proof.
  intros t. split.
  - unfold t_indices_lengths, char_indices8. apply indices8_positions.
  - apply char_at8_spec.
Qed.
