(* Proofs/SeqModel.v — prepare::isolating_run_sequences in closed form.  On class and level vectors of one
   length k and runs inside [0,k) no indexing panics, and each helper of ModelResolve.v returns a value that is
   written down here once: the level before / after a position ([pred_level_eq], [succ_level_eq]), the
   sequence of the fast path ([fast_seq]) and of the general path ([general_seq]), one step of the BD13 fold
   ([bd13_step_eq]).  Totality, length independence and agreement with the specification all start from these
   equations.  Without isolate initiators the general path computes what the fast path computes
   ([sequences_noinit]).  The searches of the model become the head / last element of [lives oc a b] by the
   lemmas of CSSequencesFast.v, the library of live positions. *)
From BidiVerif Require Import Base ModelText ModelResolve StageRel Stmts2 Stmts3.
From BidiVerif.Proofs Require Import ListLib SeqIter CSSequencesFast.

Lemma get_nth {A} site (l : list A) d i : i < length l -> get site l i = Ok (nth i l d).
Proof. intros H. apply get_some, nth_error_nth', H. Qed.

Lemma get_last {A} site (l : list A) d : l <> [] -> get site l (length l - 1) = Ok (last l d).
Proof.
  intros H. destruct (exists_last H) as [t [x ->]]. rewrite app_length, Nat.add_sub, last_last.
  apply get_some, nth_error_mid.
Qed.

Lemma map_res_map {A B} (f : A -> res B) (g : A -> B) l :
  (forall x, In x l -> f x = Ok (g x)) -> map_res f l = Ok (map g l).
Proof.
  induction l as [|x t IH]; intros H; cbn [map_res map]; [reflexivity|].
  rewrite (H x (or_introl eq_refl)), IH by (intros y Hy; apply H; right; exact Hy). reflexivity.
Qed.

Lemma tile_le k : forall runs pos, tile_from pos k runs -> pos <= k.
Proof.
  induction runs as [|[s en] t IH]; intros pos H; cbn [tile_from] in H.
  - lia.
  - destruct H as [-> [H2 H3]]. apply IH in H3. lia.
Qed.

Lemma tile_run_in k : forall runs pos, tile_from pos k runs -> Forall (run_in k) runs.
Proof.
  induction runs as [|[s en] t IH]; intros pos H; cbn [tile_from] in H; [constructor|].
  destruct H as [-> [H2 H3]]. constructor.
  - split; [exact H2|]. apply (tile_le k t en H3).
  - apply (IH en H3).
Qed.

Lemma runs_range_lt k sg : Forall (run_in k) sg -> Forall (fun i => i < k) (flat_map run_range sg).
Proof.
  intros H. apply Forall_forall. intros i Hi. apply in_flat_map in Hi as (r & Hr & Hi).
  rewrite Forall_forall in H. destruct (H r Hr) as [_ Hk]. apply in_range in Hi. lia.
Qed.

Lemma iter_forwards_first r0 t :
  iter_forwards_from (r0 :: t) (fst r0) 0 = Ok (flat_map run_range (r0 :: t)).
Proof. reflexivity. Qed.

Lemma iter_backwards_last sg : sg <> [] ->
  iter_backwards_from sg (snd (last sg (0, 0))) (length sg - 1) = Ok (rev (flat_map run_range sg)).
Proof.
  intros H. destruct (exists_last H) as [t [r ->]]. rewrite last_last, app_length, Nat.add_sub.
  rewrite (iter_backwards_nth _ _ _ r (nth_error_mid t r [])), firstn_length_app.
  rewrite flat_map_app, rev_app_distr. cbn [flat_map]. rewrite app_nil_r, rev_flat_map. reflexivity.
Qed.

Definition lvl_or (lv : list nat) (pl : nat) (o : option nat) : nat :=
  match o with Some i => nth i lv 0 | None => pl end.
Definition cls_or (oc : list bclass) (o : option nat) (d : bclass) : bclass :=
  match o with Some i => nth i oc BN | None => d end.

Section Para.
Variable pl : nat.
Variable oc : list bclass.
Variable lv : list nat.
Variable k : nat.
Hypothesis Hoc : length oc = k.

Lemma find_live site idxs : Forall (fun i => i < k) idxs ->
  find_index_by site not_removed_by_x9 oc idxs = Ok (hd_error (filter (live oc) idxs)).
Proof. intros H. apply (find_index_by_filter site not_removed_by_x9 oc BN). rewrite Hoc. exact H. Qed.

Lemma position_live a b : a <= b -> b <= k ->
  option_map (Nat.add a) (position not_removed_by_x9 (firstn (b - a) (skipn a oc))) = hd_error (lives oc a b).
Proof. intros Ha Hb. apply (position_slice not_removed_by_x9 BN oc a b Ha). rewrite Hoc. exact Hb. Qed.

Lemma rposition_live a b : a <= b -> b <= k ->
  option_map (Nat.add a) (rposition not_removed_by_x9 (firstn (b - a) (skipn a oc))) = olast (lives oc a b).
Proof. intros Ha Hb. apply (rposition_slice not_removed_by_x9 BN oc a b Ha). rewrite Hoc. exact Hb. Qed.

Lemma rfind_live a b : a <= b -> b <= k ->
  rfind not_removed_by_x9 (firstn (b - a) (skipn a oc)) = option_map (fun i => nth i oc BN) (olast (lives oc a b)).
Proof. intros Ha Hb. apply (rfind_slice not_removed_by_x9 BN oc a b Ha). rewrite Hoc. exact Hb. Qed.

Lemma bd13_step_eq s en rest stack seqs : s < en -> en <= k -> stack <> [] ->
  bd13_fold oc ((s, en) :: rest) stack seqs =
  let '(sequence, stack1) :=
    if (nth s oc BN =c PDI) && (1 <? length stack) then (hd [] stack, tl stack) else ([], stack) in
  if is_isolate_init (cls_or oc (olast (lives oc s en)) (nth s oc BN))
  then bd13_fold oc rest ((sequence ++ [(s, en)]) :: stack1) seqs
  else bd13_fold oc rest stack1 (seqs ++ [sequence ++ [(s, en)]]).
Proof.
  intros H1 H2 Hne. destruct stack as [|top below]; [congruence|]. cbn [bd13_fold hd tl].
  destruct (Nat.leb_spec en s); [lia|].
  rewrite (get_nth 127 oc BN), slice_ok by lia. cbn [bind]. rewrite rfind_live by lia.
  replace (opt_or (option_map (fun i => nth i oc BN) (olast (lives oc s en))) (nth s oc BN))
    with (cls_or oc (olast (lives oc s en)) (nth s oc BN)) by (destruct (olast (lives oc s en)); reflexivity).
  reflexivity.
Qed.

Hypothesis Hlv : length lv = k.

Lemma pred_level_eq s : s <= k -> pred_level_of pl oc lv s = Ok (lvl_or lv pl (olast (lives oc 0 s))).
Proof.
  intros Hs. unfold pred_level_of. destruct (Nat.ltb_spec (length oc) s); [lia|].
  rewrite <- (rposition_live 0 s), <- firstn_as_slice by lia.
  destruct (rposition not_removed_by_x9 (firstn s oc)) as [j|] eqn:Ej; [|reflexivity].
  apply rposition_lt in Ej. rewrite firstn_length in Ej. apply get_nth. lia.
Qed.

Lemma succ_level_eq en : en <= k -> succ_level_of pl oc lv en = Ok (lvl_or lv pl (hd_error (lives oc en k))).
Proof.
  intros Hs. unfold succ_level_of. destruct (Nat.ltb_spec (length oc) en); [lia|].
  rewrite <- (position_live en k), <- Hoc, <- skipn_as_slice by lia.
  destruct (position not_removed_by_x9 (skipn en oc)) as [j|] eqn:Ej; [|reflexivity].
  apply position_lt in Ej. rewrite skipn_length in Ej. apply get_nth. lia.
Qed.

Definition fast_seq (r : run) : irs :=
  let '(s, en) := r in
  {| irs_runs := [r];
     irs_sos := level_class (Nat.max (nth (opt_or (hd_error (lives oc s en)) s) lv 0)
                                     (lvl_or lv pl (olast (lives oc 0 s))));
     irs_eos := level_class (Nat.max (nth (opt_or (olast (lives oc s en)) (en - 1)) lv 0)
                                     (lvl_or lv pl (hd_error (lives oc en k)))) |}.

Lemma irs_fast_one_eq r : run_in k r -> irs_fast_one pl oc lv r = Ok (fast_seq r).
Proof.
  destruct r as [s en]. intros [H1 H2]. cbn [fst snd] in H1, H2. unfold irs_fast_one, fast_seq.
  rewrite <- (position_live s en), <- (rposition_live s en) by lia.
  set (rc := firstn (en - s) (skipn s oc)).
  set (i1 := opt_or (position not_removed_by_x9 rc) 0).
  set (i2 := opt_or (rposition not_removed_by_x9 rc) (en - s - 1)).
  assert (Hrc : length rc = en - s) by (apply length_slice; lia).
  assert (Hi1 : i1 < en - s /\ opt_or (option_map (Nat.add s) (position not_removed_by_x9 rc)) s = s + i1).
  { unfold i1. destruct (position _ rc) as [j|] eqn:Ej; cbn [opt_or option_map]; [apply position_lt in Ej|]; lia. }
  assert (Hi2 : i2 < en - s /\ opt_or (option_map (Nat.add s) (rposition not_removed_by_x9 rc)) (en - 1) = s + i2).
  { unfold i2. destruct (rposition _ rc) as [j|] eqn:Ej; cbn [opt_or option_map]; [apply rposition_lt in Ej|]; lia. }
  destruct Hi1 as [Hi1 ->], Hi2 as [Hi2 ->].
  rewrite !slice_ok by lia. cbn [bind]. fold rc.
  rewrite (get_nth 75 _ 0), nth_slice by (rewrite ?length_slice; lia). cbn [bind].
  destruct (Nat.leb_spec en s); [lia|]. cbn [bind].
  rewrite (get_nth 80 _ 0), nth_slice by (rewrite ?length_slice; lia). cbn [bind].
  rewrite pred_level_eq, succ_level_eq by lia. reflexivity.
Qed.

Definition general_seq (sg : list run) : irs :=
  let s := fst (hd (0, 0) sg) in
  let en := snd (last sg (0, 0)) in
  let li := filter (live oc) (flat_map run_range sg) in
  {| irs_runs := sg;
     irs_sos := level_class (Nat.max (nth (opt_or (hd_error li) s) lv 0) (lvl_or lv pl (olast (lives oc 0 s))));
     irs_eos := level_class (Nat.max (nth (opt_or (olast li) (en - 1)) lv 0)
                  (if is_isolate_init (cls_or oc (olast (lives oc 0 en)) BN) then pl
                   else lvl_or lv pl (hd_error (lives oc en k)))) |}.

Lemma irs_general_one_eq sg : sg <> [] -> Forall (run_in k) sg ->
  irs_general_one pl oc lv sg = Ok (general_seq sg).
Proof.
  intros Hne Hin. pose proof (runs_range_lt k sg Hin) as Hlt.
  assert (Hli : forall i, In i (filter (live oc) (flat_map run_range sg)) -> i < k).
  { intros i Hi. apply filter_In in Hi as [Hi _]. rewrite Forall_forall in Hlt. apply Hlt, Hi. }
  assert (Hen : 0 < snd (last sg (0, 0)) <= k).
  { destruct (exists_last Hne) as [t [r E]]. rewrite E, last_last. rewrite Forall_forall in Hin.
    destruct (Hin r) as [? ?]; [rewrite E; apply in_or_app; right; left; reflexivity|]. lia. }
  unfold irs_general_one, general_seq. destruct sg as [|r0 t]; [congruence|]. cbn [hd].
  assert (Hs : fst r0 < k) by (destruct (Forall_inv Hin); lia).
  set (sg := r0 :: t) in *. cbv zeta.
  rewrite (get_last 167 sg (0, 0) Hne). cbn [bind].
  unfold sg at 1. rewrite iter_forwards_first. cbn [bind]. fold sg.
  rewrite find_live by exact Hlt. cbn [bind].
  rewrite (get_nth 176 lv 0) by
    (rewrite Hlv; destruct (hd_error _) as [i|] eqn:Ei; cbn [opt_or]; [apply Hli, hd_error_in, Ei|lia]).
  cbn [bind]. rewrite (iter_backwards_last sg Hne). cbn [bind]. set (en := snd (last sg (0, 0))) in *.
  rewrite find_live by (apply Forall_rev, Hlt). cbn [bind]. rewrite filter_rev. fold (olast (filter (live oc) (flat_map run_range sg))).
  destruct (Nat.eqb_spec en 0); [lia|]. cbn [bind].
  rewrite (get_nth 183 lv 0) by
    (rewrite Hlv; destruct (olast _) as [i|] eqn:Ei; cbn [opt_or]; [apply Hli, olast_in, Ei|lia]).
  cbn [bind]. rewrite pred_level_eq by lia. cbn [bind].
  destruct (Nat.ltb_spec (length oc) en); [lia|]. cbn [bind].
  rewrite firstn_as_slice, rfind_live by lia.
  replace (opt_or (option_map (fun i => nth i oc BN) (olast (lives oc 0 en))) BN)
    with (cls_or oc (olast (lives oc 0 en)) BN) by (destruct (olast (lives oc 0 en)); reflexivity).
  destruct (is_isolate_init _); [reflexivity|]. rewrite succ_level_eq by lia. reflexivity.
Qed.

Lemma sequences_fast_eq runs : Forall (run_in k) runs ->
  isolating_run_sequences pl oc lv runs false = Ok (map fast_seq runs).
Proof.
  intros H. apply map_res_map. intros r Hr. apply irs_fast_one_eq. rewrite Forall_forall in H. apply H, Hr.
Qed.

Lemma sequences_general_eq runs out : bd13_fold oc runs [[]] [] = Ok out ->
  Forall (fun sg => sg <> [] /\ Forall (run_in k) sg) out ->
  isolating_run_sequences pl oc lv runs true = Ok (map general_seq out).
Proof.
  intros Ho H. unfold isolating_run_sequences. cbn [negb]. rewrite Ho. cbn [bind].
  apply map_res_map. intros sg Hsg. rewrite Forall_forall in H. destruct (H sg Hsg). apply irs_general_one_eq; assumption.
Qed.

Hypothesis Hno : forall i, is_isolate_init (nth i oc BN) = false.

Lemma bd13_noinit : forall runs seqs, Forall (run_in k) runs ->
  bd13_fold oc runs [[]] seqs = Ok (seqs ++ map (fun r => [r]) runs).
Proof.
  induction runs as [|[s en] rest IH]; intros seqs H.
  - cbn. rewrite app_nil_r. reflexivity.
  - apply Forall_cons_iff in H as [[H1 H2] Hr]. cbn [fst snd] in H1, H2.
    rewrite bd13_step_eq by (assumption || discriminate). rewrite andb_false_r.
    replace (is_isolate_init (cls_or oc (olast (lives oc s en)) (nth s oc BN))) with false
      by (destruct (olast (lives oc s en)); symmetry; apply Hno).
    rewrite (IH _ Hr), <- app_assoc. reflexivity.
Qed.

Lemma general_seq_single r : general_seq [r] = fast_seq r.
Proof.
  destruct r as [s en]. unfold general_seq, fast_seq. cbn [flat_map hd last fst snd]. rewrite app_nil_r.
  replace (is_isolate_init (cls_or oc (olast (lives oc 0 en)) BN)) with false
    by (destruct (olast (lives oc 0 en)); symmetry; [apply Hno|reflexivity]).
  reflexivity.
Qed.

Lemma sequences_noinit runs : Forall (run_in k) runs ->
  isolating_run_sequences pl oc lv runs true = isolating_run_sequences pl oc lv runs false.
Proof.
  intros H. rewrite (sequences_fast_eq runs H), (sequences_general_eq runs _ (bd13_noinit runs [] H)).
  - cbn [app]. rewrite map_map. f_equal. apply map_ext. intros r. apply general_seq_single.
  - apply Forall_forall. intros sg Hsg. apply in_map_iff in Hsg as (r & <- & Hr).
    rewrite Forall_forall in H. split; [discriminate|]. constructor; [apply H, Hr|constructor].
Qed.

End Para.

Lemma bd13_fold_Forall oc (Q : run -> Prop) : forall runs stack seqs out,
  Forall Q runs -> Forall (Forall Q) stack -> Forall (fun sq => sq <> [] /\ Forall Q sq) seqs ->
  bd13_fold oc runs stack seqs = Ok out -> Forall (fun sq => sq <> [] /\ Forall Q sq) out.
Proof.
  induction runs as [|[s en] rest IH]; intros stack seqs out F Fs Fq H.
  - cbn [bd13_fold] in H. injection H as <-. apply Forall_app; split; [assumption|].
    rewrite Forall_forall in *. intros x Hx. apply filter_In in Hx as [Hx Hl]. split; [|auto].
    intros ->. discriminate.
  - inversion F as [|? ? Q0 Fr]; subst. cbn [bd13_fold] in H.
    destruct (en <=? s); [discriminate|]. destruct stack as [|top below]; [discriminate|].
    inversion Fs as [|? ? Ft Fb]; subst.
    apply bind_ok in H as (sc & Hsc & H). apply bind_ok in H as (sl & Hsl & H).
    assert (Q1 : Forall Q [(s, en)]) by (constructor; [assumption | constructor]).
    assert (N1 : forall sq, sq ++ [(s, en)] <> []) by (intros []; discriminate).
    destruct ((sc =c PDI) && (1 <? length (top :: below)));
      destruct (is_isolate_init _);
      (eapply IH; [exact Fr | | | exact H]);
      repeat first [assumption | apply Forall_app; split | constructor | apply N1].
Qed.
