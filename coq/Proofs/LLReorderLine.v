(* Proofs/LLReorderLine.v — LENGTH INDEPENDENCE of reorder_line, for EVERY text of every encoding
   (ill-formed UTF-16 included).

   UTF-16 round trip: the characters produced by [decode16] are scalar values (never surrogates,
   below 0x110000); on scalar values [decode16 (flat_map encode_utf16 cs)] gives the characters back
   with their lengths, and the encoding is a list of 16-bit units.  A well-formed text cut on character
   boundaries is the encoding of its characters ([wf_subrange]).  The per-run readers [t_chars] /
   [t_chars_rev] on a valid text are its view (forwards / reversed).  On expansions, [all_runs_ltr] and
   [emit_runs] see every run mapped with [urun]; the sub-range is the text of the run's characters
   (subrange_view), so every emitted chunk is the encoding of the character-level chunk.  [reorder_line_gen]
   goes through the three exits of reorder_line (stored-levels early exit, all-LTR raw copy, emit_runs). *)
From BidiVerif Require Import Base ModelText ModelLine Spec Judge Stmts Stmts2 Stmts3 Stmts5 Stmts6.
From BidiVerif.Proofs Require Import ListLib Units.
From BidiVerif.Proofs Require Import Utf16 TextView LLLevels LLRuns.
From Coq Require Import List.
Import ListNotations.

Section RoundTrip.
Local Open Scope N_scope.

Definition scalar (c : N) : Prop := c < 1114112 /\ (c < 55296 \/ 57343 < c).

Lemma scalar_repl : scalar 65533.
Proof. unfold scalar. lia. Qed.

Lemma is_hi_spec u : is_hi u = true <-> 55296 <= u /\ u <= 56319.
Proof. unfold is_hi. rewrite Bool.andb_true_iff, !N.leb_le. reflexivity. Qed.

Lemma is_lo_spec u : is_lo u = true <-> 56320 <= u /\ u <= 57343.
Proof. unfold is_lo. rewrite Bool.andb_true_iff, !N.leb_le. reflexivity. Qed.

Lemma is_hi_false u : is_hi u = false <-> (u < 55296 \/ 56319 < u).
Proof.
  destruct (is_hi u) eqn:E.
  - apply is_hi_spec in E. split; [discriminate | lia].
  - split; [intros _|reflexivity].
    destruct (N.lt_ge_cases u 55296) as [H|H]; [left; exact H|].
    destruct (N.lt_ge_cases 56319 u) as [H'|H']; [right; exact H'|].
    assert (X : is_hi u = true) by (apply is_hi_spec; lia). congruence.
Qed.

Lemma is_lo_false u : is_lo u = false <-> (u < 56320 \/ 57343 < u).
Proof.
  destruct (is_lo u) eqn:E.
  - apply is_lo_spec in E. split; [discriminate | lia].
  - split; [intros _|reflexivity].
    destruct (N.lt_ge_cases u 56320) as [H|H]; [left; exact H|].
    destruct (N.lt_ge_cases 57343 u) as [H'|H']; [right; exact H'|].
    assert (X : is_lo u = true) by (apply is_lo_spec; lia). congruence.
Qed.

Lemma decode16_scalars t : is_u16 t -> Forall scalar (map fst (decode16 t)).
Proof.
  apply (decode16_cases (fun t d => is_u16 t -> Forall scalar (map fst d))); [constructor | |].
  - intros u r c IH Hc Hu. inversion Hu as [|? ? Hu1 Hur]; subst. constructor; [|exact (IH Hur)].
    destruct Hc as [-> | (-> & Eh & El)]; [apply scalar_repl|].
    apply is_hi_false in Eh. apply is_lo_false in El. unfold scalar. cbn [fst]. lia.
  - intros u d r IH Eh El Hu. inversion Hu as [|? ? _ Hur]; subst. inversion Hur as [|? ? _ Hr]; subst.
    constructor; [|exact (IH Hr)].
    apply is_hi_spec in Eh. apply is_lo_spec in El. unfold scalar. cbn [fst]. lia.
Qed.

Lemma encode_utf16_small c : c < 65536 -> encode_utf16 c = [c].
Proof. intros H. unfold encode_utf16. destruct (N.ltb_spec c 65536) as [_|H']; [reflexivity | lia]. Qed.

Lemma encode_utf16_big c : 65536 <= c ->
  encode_utf16 c = [55296 + (c - 65536) / 1024; 56320 + (c - 65536) mod 1024].
Proof. intros H. unfold encode_utf16. destruct (N.ltb_spec c 65536) as [H'|_]; [lia | reflexivity]. Qed.

Lemma big_parts c : 65536 <= c -> c < 1114112 ->
  let q := (c - 65536) / 1024 in let m := (c - 65536) mod 1024 in
  q < 1024 /\ m < 1024 /\ c = 65536 + q * 1024 + m.
Proof.
  intros H1 H2 q m.
  assert (Hm : m < 1024) by (apply N.mod_lt; lia).
  assert (Hq : q < 1024) by (apply N.div_lt_upper_bound; lia).
  pose proof (N.div_mod (c - 65536) 1024 ltac:(lia)) as D. fold q m in D.
  split; [exact Hq | split; [exact Hm | lia]].
Qed.

Lemma decode16_encode c r : scalar c ->
  decode16 (encode_utf16 c ++ r) = (c, len_utf16 c) :: decode16 r.
Proof.
  intros [Hc Hs].
  destruct (N.lt_ge_cases c 65536) as [Hlt|Hge].
  - rewrite (encode_utf16_small c Hlt). cbn [app decode16].
    assert (Eh : is_hi c = false) by (apply is_hi_false; lia).
    assert (El : is_lo c = false) by (apply is_lo_false; lia).
    rewrite Eh, El. rewrite (len_utf16_unit c Hlt). reflexivity.
  - rewrite (encode_utf16_big c Hge). cbn [app].
    destruct (big_parts c Hge Hc) as (Hq & Hm & Ec).
    set (q := (c - 65536) / 1024) in *. set (m := (c - 65536) mod 1024) in *.
    assert (Eh : is_hi (55296 + q) = true) by (apply is_hi_spec; lia).
    assert (El : is_lo (56320 + m) = true) by (apply is_lo_spec; lia).
    cbn [decode16]. rewrite Eh, El.
    f_equal. f_equal.
    + lia.
    + unfold len_utf16. destruct (N.ltb_spec c 65536) as [H'|_]; [lia | reflexivity].
Qed.

Lemma decode16_encode_all cs : Forall scalar cs ->
  decode16 (flat_map encode_utf16 cs) = map (fun c => (c, len_utf16 c)) cs.
Proof.
  induction 1 as [|c cs Hc _ IH]; [reflexivity|].
  cbn [flat_map map]. rewrite (decode16_encode c _ Hc), IH. reflexivity.
Qed.

Lemma encode_utf16_u16 c : scalar c -> is_u16 (encode_utf16 c).
Proof.
  intros [Hc Hs]. unfold is_u16.
  destruct (N.lt_ge_cases c 65536) as [Hlt|Hge].
  - rewrite (encode_utf16_small c Hlt). constructor; [exact Hlt | constructor].
  - rewrite (encode_utf16_big c Hge).
    destruct (big_parts c Hge Hc) as (Hq & Hm & _).
    constructor; [lia|]. constructor; [lia | constructor].
Qed.

Lemma encode_all_u16 cs : Forall scalar cs -> is_u16 (flat_map encode_utf16 cs).
Proof.
  induction 1 as [|c cs Hc _ IH]; [constructor|].
  cbn [flat_map]. apply is_u16_app. split; [apply encode_utf16_u16; exact Hc | exact IH].
Qed.

Lemma encode_utf16_length c : length (encode_utf16 c) = len_utf16 c.
Proof. unfold encode_utf16, len_utf16. destruct (c <? 65536); reflexivity. Qed.

End RoundTrip.

Lemma encode_chars_app e a b : encode_chars e (a ++ b) = encode_chars e a ++ encode_chars e b.
Proof. destruct e; cbn [encode_chars]; try reflexivity. apply flat_map_app. Qed.

Lemma view_fst_8 t : map fst (view_of U8 t) = t.
Proof. cbn [view_of]. rewrite map_map. cbn [fst]. apply map_id. Qed.

Lemma view_fst_32 t : map fst (view_of U32 t) = t.
Proof. cbn [view_of]. rewrite map_map. cbn [fst]. apply map_id. Qed.

Lemma view_scalars e t : valid_text e t ->
  match e with U16 => Forall scalar (map fst (view_of e t)) | _ => True end.
Proof. destruct e; intros H; try exact I. apply decode16_scalars. exact H. Qed.

Lemma encode_chars_ok e text out' :
  valid_text e text -> incl out' (map fst (view_of e text)) ->
  valid_text e (encode_chars e out') /\ map fst (view_of e (encode_chars e out')) = out'.
Proof.
  intros Hv Hin. destruct e.
  - split; [exact I | apply view_fst_8].
  - assert (Hs : Forall scalar out').
    { apply Forall_forall. intros c Hc.
      pose proof (decode16_scalars text Hv) as F. rewrite Forall_forall in F. apply F, Hin, Hc. }
    cbn [encode_chars valid_text view_of]. split; [apply encode_all_u16; exact Hs|].
    rewrite (decode16_encode_all out' Hs), map_map. cbn [fst]. apply map_id.
  - split; [exact I | apply view_fst_32].
Qed.

(* a well-formed text cut on character boundaries *)

Lemma flat_encode_length d :
  Forall (fun ch : N * nat => snd ch = char_len U16 (fst ch) /\ 0 < snd ch) d ->
  length (flat_map encode_utf16 (map fst d)) = slen d.
Proof.
  induction 1 as [|[c l] d [Hl _] _ IH]; [reflexivity|].
  cbn [map fst flat_map]. rewrite app_length, IH, slen_cons, encode_utf16_length.
  cbn [fst snd char_len] in Hl. lia.
Qed.

Lemma In_sub {A} (x : A) l i j : In x (sub l i j) -> In x l.
Proof. intros H. eapply in_skipn, in_firstn, H. Qed.

Lemma wf_subrange site e text i j subt :
  valid_text e text -> well_formed e text -> i <= j -> j <= length (view_of e text) ->
  t_subrange site e text (ustart (map snd (view_of e text)) i) (ustart (map snd (view_of e text)) j) = Ok subt ->
  view_of e subt = sub (view_of e text) i j ->
  subt = encode_chars e (map fst (view_of e subt)).
Proof.
  intros Hv Hwf Hij Hj Hsub Hview. destruct e.
  - cbn [encode_chars]. symmetry. apply view_fst_8.
  - cbn [encode_chars view_of valid_text] in *. unfold well_formed in Hwf. cbn [encode_chars view_of] in Hwf.
    set (d := decode16 text) in *.
    pose proof (decode16_char_len text Hv) as HF. fold d in HF.
    unfold ustart in Hsub. rewrite !total_firstn_slen in Hsub.
    cbn [t_subrange] in Hsub. unfold slice in Hsub.
    destruct ((slen (firstn i d) <=? slen (firstn j d)) && (slen (firstn j d) <=? length text))%bool;
      [|discriminate].
    injection Hsub as <-. rewrite Hview.
    pose proof (split_sub d i j Hij) as Hd.
    assert (Ht : text = flat_map encode_utf16 (map fst (firstn i d))
                        ++ flat_map encode_utf16 (map fst (sub d i j))
                        ++ flat_map encode_utf16 (map fst (skipn j d))).
    { rewrite <- Hwf at 1. rewrite Hd at 1. rewrite !map_app, !flat_map_app. reflexivity. }
    assert (L1 : length (flat_map encode_utf16 (map fst (firstn i d))) = slen (firstn i d)).
    { apply flat_encode_length, Forall_firstn, HF. }
    assert (L2 : length (flat_map encode_utf16 (map fst (sub d i j))) = slen (sub d i j)).
    { apply flat_encode_length, Forall_sub, HF. }
    assert (Hb : slen (firstn j d) = slen (firstn i d) + slen (sub d i j))
      by (apply slen_firstn_split; exact Hij).
    rewrite Ht, <- L1, skipn_length_app.
    replace (slen (firstn j d) - _) with (length (flat_map encode_utf16 (map fst (sub d i j)))) by lia.
    apply firstn_length_app.
  - cbn [encode_chars]. symmetry. apply view_fst_32.
Qed.

Lemma t_chars_view e t : valid_text e t -> t_chars e t = map fst (view_of e t).
Proof.
  intros Hv. destruct (view_of_proved e t Hv) as (_ & _ & H & _). exact H.
Qed.

Lemma t_chars_rev_view e t : valid_text e t -> t_chars_rev e t = Ok (rev (map fst (view_of e t))).
Proof.
  intros Hv. destruct e.
  - cbn [t_chars_rev]. rewrite view_fst_8. reflexivity.
  - cbn [t_chars_rev view_of valid_text] in *.
    destruct (utf16_text_access t Hv) as (_ & _ & _ & _ & H & _). exact H.
  - cbn [t_chars_rev]. rewrite view_fst_32. reflexivity.
Qed.

Section Emit.
Variable e : enc.
Variable text : list N.
Hypothesis Hvalid : valid_text e text.
Let chars := view_of e text.
Let cps := map fst chars.
Let lens := map snd chars.
Let k := length chars.

Variable lv : list nat.
Hypothesis Elv : length lv = k.

Lemma lens_allpos : Forall (fun n => 0 < n) lens.
Proof. apply view_lens_pos. exact Hvalid. Qed.

Lemma lens_len : length lv = length lens.
Proof. unfold lens. rewrite map_length. exact Elv. Qed.

Lemma cps_len : length cps = k.
Proof. unfold cps. apply map_length. Qed.

Lemma all_runs_ltr_expand runs : forall b,
  all_runs_ltr lv runs = Ok b ->
  all_runs_ltr (expand lens lv) (map (urun lens) runs) = Ok b.
Proof.
  induction runs as [|r rest IH]; intros b H; cbn [all_runs_ltr map] in *; [exact H|].
  apply bind_ok in H as (l & Hl & H).
  change (fst (urun lens r)) with (ustart lens (fst r)).
  rewrite (get_expand_start 891 lens lv _ _ lens_allpos lens_len Hl). cbn [bind].
  destruct (is_ltr l); [apply IH; exact H | exact H].
Qed.

Lemma subrange_chars site s t sub' :
  t_subrange site U32 cps s t = Ok sub' ->
  s <= t /\ t <= k /\ sub' = sub cps s t /\
  exists subt,
    t_subrange site e text (ustart lens s) (ustart lens t) = Ok subt /\
    view_of e subt = sub chars s t /\ valid_text e subt.
Proof.
  intros H. cbn [t_subrange] in H.
  apply slice_ok_inv in H as (Hst & Ht & ->). rewrite cps_len in Ht.
  split; [exact Hst|]. split; [exact Ht|]. split; [reflexivity|].
  destruct (subrange_line_view site e text s t Hvalid Hst Ht) as (subt & Hsub & Hvs & Hview & _).
  exists subt. split; [exact Hsub | split; [exact Hview | exact Hvs]].
Qed.

Lemma emit_runs_expand runs : forall out',
  emit_runs U32 false cps lv runs = Ok out' ->
  emit_runs e false text (expand lens lv) (map (urun lens) runs) = Ok (encode_chars e out') /\
  incl out' cps.
Proof.
  induction runs as [|r rest IH]; intros out' H; cbn [emit_runs map] in *.
  - injection H as <-. split; [destruct e; reflexivity | intros x []].
  - apply bind_ok in H as (l & Hl & H).
    apply bind_ok in H as (sub' & Hsub & H).
    apply bind_ok in H as (o & Ho & H).
    apply bind_ok in H as (rest' & Hrest & H). injection H as <-.
    destruct (IH rest' Hrest) as [IH1 IH2].
    change (fst (urun lens r)) with (ustart lens (fst r)).
    change (snd (urun lens r)) with (ustart lens (snd r)).
    rewrite (get_expand_start 897 lens lv _ _ lens_allpos lens_len Hl). cbn [bind].
    destruct (subrange_chars 898 _ _ _ Hsub) as (Hst & Ht & -> & subt & Hs & Hview & Hvs).
    rewrite Hs. cbn [bind].
    assert (Hfst : map fst (view_of e subt) = sub cps (fst r) (snd r)).
    { rewrite Hview. symmetry. apply sub_map. }
    assert (Hinc : incl (sub cps (fst r) (snd r)) cps).
    { intros x Hx. eapply In_sub, Hx. }
    destruct (is_rtl l).
    + cbn [t_chars_rev bind] in Ho. injection Ho as <-.
      rewrite (t_chars_rev_view e subt Hvs), Hfst. cbn [bind].
      rewrite IH1. cbn [bind]. split.
      * rewrite encode_chars_app. destruct e; reflexivity.
      * apply incl_app; [|exact IH2]. intros x Hx. apply Hinc, in_rev, Hx.
    + injection Ho as <-. cbn [bind]. rewrite IH1. cbn [bind]. split.
      * rewrite encode_chars_app. f_equal. f_equal.
        destruct e; cbn [encode_chars].
        -- rewrite <- Hfst. symmetry. apply view_fst_8.
        -- rewrite (t_chars_view U16 subt Hvs), Hfst. reflexivity.
        -- rewrite <- Hfst. symmetry. apply view_fst_32.
      * apply incl_app; [exact Hinc | exact IH2].
Qed.

End Emit.

Section Main.
Variable e : enc.
Variable text : list N.
Hypothesis Hvalid : valid_text e text.
Let chars := view_of e text.
Let cps := map fst chars.
Let lens := map snd chars.
Let k := length chars.

(* the two exits of reorder_line that return the sub-range as it stands (no RTL level stored; every run LTR) *)
Lemma raw_exit site i j out' :
  t_subrange site U32 cps i j = Ok out' ->
  exists out,
    t_subrange site e text (ustart lens i) (ustart lens j) = Ok out /\
    valid_text e out /\ map fst (view_of e out) = out' /\
    (well_formed e text -> out = encode_chars e out').
Proof.
  intros H.
  destruct (subrange_chars e text Hvalid site i j out' H) as (Hij & Hj & -> & subt & Hs & Hview & Hvs).
  exists subt. split; [exact Hs|]. split; [exact Hvs|].
  assert (Hfst : map fst (view_of e subt) = sub (map fst (view_of e text)) i j).
  { rewrite Hview. symmetry. apply sub_map. }
  split; [exact Hfst|].
  intros Hwf. rewrite <- Hfst.
  apply (wf_subrange site e text i j subt Hvalid Hwf Hij Hj Hs Hview).
Qed.

Lemma reorder_line_core_expand lv i j runs out' :
  length lv = k ->
  reorder_line_core U32 false cps (i, j) lv runs = Ok out' ->
  exists out,
    reorder_line_core e false text (ustart lens i, ustart lens j) (expand lens lv) (map (urun lens) runs) = Ok out /\
    valid_text e out /\ map fst (view_of e out) = out' /\
    (well_formed e text -> out = encode_chars e out').
Proof.
  intros Elv H. unfold reorder_line_core in *.
  apply bind_ok in H as (b & Hb & H).
  pose proof (all_runs_ltr_expand e text Hvalid lv Elv runs b Hb) as A. fold chars lens in A.
  rewrite A. cbn [bind fst snd] in *.
  destruct b.
  - apply raw_exit. exact H.
  - destruct (emit_runs_expand e text Hvalid lv Elv runs out' H) as [E1 E2]. fold chars lens in E1.
    exists (encode_chars e out'). split; [exact E1|].
    destruct (encode_chars_ok e text out' Hvalid E2) as [V1 V2].
    split; [exact V1|]. split; [exact V2|]. intros _. reflexivity.
Qed.

Lemma reorder_line_gen cls lv pl i j out' :
  length cls = k -> length lv = k -> i < j -> j <= k ->
  reorder_line U32 false cps cls lv pl (i, j) = Ok out' ->
  exists out,
    reorder_line e false text (expand lens cls) (expand lens lv) pl (ustart lens i, ustart lens j) = Ok out /\
    valid_text e out /\ map fst (view_of e out) = out' /\
    (well_formed e text -> out = encode_chars e out').
Proof.
  intros Hc Hl Hij Hj H. unfold reorder_line in *. cbn [fst snd orb] in *.
  assert (Hk : length lens = k) by (unfold lens; apply map_length).
  apply bind_ok in H as (ll & Hll & H).
  rewrite (slice_expand 595 lens lv i j) by lia. cbn [bind].
  apply slice_ok_inv in Hll as (_ & _ & ->). fold (sub lv i j) in *.
  assert (Hex : levels_has_rtl (expand (sub lens i j) (sub lv i j)) = levels_has_rtl (sub lv i j)).
  { unfold levels_has_rtl. apply existsb_expand.
    - apply Forall_sub, view_lens_pos, Hvalid.
    - rewrite !sub_length by lia. reflexivity. }
  rewrite Hex.
  destruct (is_ltr pl && negb (levels_has_rtl (sub lv i j)))%bool.
  - apply raw_exit. exact H.
  - apply bind_ok in H as (lv1 & H1 & H).
    apply bind_ok in H as ([lv2 runs] & H2 & H).
    assert (Hcps : length cps = k) by (unfold cps; apply map_length).
    assert (Elv1 : length lv1 = k).
    { destruct (cl_reordered_levels cps cls lv pl i j) as [C _]; try lia.
      rewrite C in H1. injection H1 as <-. apply lline_length; lia. }
    destruct (ll_reordered_levels_proved e text Hvalid cls lv pl i j lv1 Hc Hl ltac:(lia) Hj H1) as [R _].
    fold chars lens in R. rewrite R. cbn [bind].
    assert (lv2 = lv1).
    { unfold visual_runs_for_line in H2. apply bind_ok in H2 as (rr & _ & H2). injection H2 as <- _. reflexivity. }
    subst lv2.
    pose proof (ll_visual_runs_main e text Hvalid lv1 i j runs Elv1 Hij Hj H2) as V.
    fold chars lens in V. rewrite V. cbn [bind].
    apply reorder_line_core_expand; assumption.
Qed.

End Main.

Lemma ll_reorder_line2_proof : LL_reorder_line2.
Proof.
  intros e text Hvalid cls lv pl i j out' Hc Hl Hij Hj H.
  apply (reorder_line_gen e text Hvalid cls lv pl i j out' Hc Hl Hij Hj H).
Qed.

Lemma ll_reorder_line_proof : LL_reorder_line.
Proof.
  intros e text Hvalid cls lv pl i j out' Hc Hl Hij Hj Hwf H.
  destruct (reorder_line_gen e text Hvalid cls lv pl i j out' Hc Hl Hij Hj H) as (out & R & _ & _ & W).
  rewrite R. f_equal. apply W, Hwf.
Qed.
