(* Proofs/TotalWeak.v — totality (no panic), length preservation and frame property of
   implicit::resolve_weak at character level (ghost encoding U32).  Every step is evaluated by
   [weak_step_eval]; the invariant says that the array has kept its length and its entries outside
   the sequence, and that the pending indices lie inside the sequence. *)
From BidiVerif Require Import Base ModelText ModelResolve Stmts4.
(* ListLib after LIWeak, so that [lset] and [lset_all] are ListLib's here (LIWeak.v ends with its own) *)
From BidiVerif.Proofs Require Import LIWeak.
From BidiVerif.Proofs Require Import ListLib Units SeqIter.

Lemma indexed_units_in (runs : list run) : forall (runs' : list run) k,
  (forall j r, nth_error runs' j = Some r -> nth_error runs (k + j) = Some r) ->
  forall ri i, In (ri, i) (indexed_units k runs') ->
  exists r, nth_error runs ri = Some r /\ In i (run_range r).
Proof.
  induction runs' as [|r0 rest IH]; intros k Hk ri i Hin; cbn in Hin; [contradiction|].
  apply in_app_or in Hin as [Hin|Hin].
  - apply in_map_iff in Hin as (i' & Eq & Hi'). injection Eq as <- <-.
    exists r0. split; [|assumption]. specialize (Hk 0 r0 eq_refl). now rewrite Nat.add_0_r in Hk.
  - apply (IH (S k)); [|assumption].
    intros j r Ej. specialize (Hk (S j) r Ej). now rewrite Nat.add_succ_r in Hk.
Qed.

Section Weak.
Variable cps : list N.
Variable sq : irs.
Variable pc0 : list bclass.
Let IS : list nat := flat_map run_range (irs_runs sq).
Hypothesis Hlen : length pc0 = length cps.
Hypothesis HS : forall i, In i IS -> i < length pc0.

Definition good (pc : list bclass) : Prop :=
  length pc = length pc0 /\ forall i, ~ In i IS -> nth_error pc i = nth_error pc0 i.

Definition inv (st : w_state) : Prop :=
  good (w_pc st) /\ incl (w_et st) IS /\ incl (w_bn st) IS.

Lemma good_lset_all pc idxs x : good pc -> incl idxs IS -> good (lset_all pc idxs x).
Proof.
  intros [Hl Hf] Hi. split; [rewrite lset_all_length; exact Hl|].
  intros u Hu. rewrite nth_error_lset_all_notin by (intros H; apply Hu, Hi, H). apply Hf, Hu.
Qed.

Lemma weak_step_ok st ri i r :
  inv st -> nth_error (irs_runs sq) ri = Some r -> In i (run_range r) ->
  exists st', weak_step U32 cps sq st (ri, i) = Ok st' /\ inv st'.
Proof.
  intros ([Hl Hf] & Het & Hbn) Hr Hi.
  assert (HiS : In i IS).
  { apply in_flat_map. exists r. split; [eapply nth_error_In; eauto | assumption]. }
  assert (Hb : forall l, incl l IS -> forall j, In j l -> j < length (w_pc st)).
  { intros l Hl' j Hj. rewrite Hl. apply HS, Hl', Hj. }
  pose proof (Hb [i] (incl_cons HiS (incl_nil_l _)) i (or_introl eq_refl)) as Hlt.
  apply in_range in Hi.
  destruct (bclass_eq_dec (nth i (w_pc st) BN) BN) as [E|E].
  - rewrite weak_step_bn by (rewrite <- E; apply nth_error_nth', Hlt).
    eexists. split; [reflexivity|]. split; [split; assumption|]. split; [exact Het|].
    apply incl_app; [exact Hbn | intros j [<-|[]]; exact HiS].
  - destruct (t_char_at_U32 cps i) as (c & Hc); [rewrite <- Hlen, <- Hl; exact Hlt|].
    pose proof (iter_forwards_incl _ (i + 1) _ _ Hr ltac:(lia)) as Hfw.
    pose proof (iter_backwards_incl _ i _ _ Hr ltac:(lia)) as Hbw.
    rewrite (weak_step_eval U32 cps sq st ri i c 1 _ _ Hlt E (Hb _ Het) Hc
               (iter_forwards_nth _ _ _ _ Hr) (iter_backwards_nth _ _ _ _ Hr) (Hb _ Hfw) (Hb _ Hbw)).
    eexists. split; [reflexivity|].
    assert (Hpend : incl (w_et st ++ w_bn st ++ [i]) IS).
    { repeat apply incl_app; try assumption. intros j [<-|[]]; exact HiS. }
    split; [split|split].
    + rewrite wstep_length. exact Hl.
    + intros u Hu. rewrite wstep_notin; [apply Hf, Hu|].
      intros [<-|H]; [exact (Hu HiS)|].
      exact (Hu (incl_app Het (incl_app Hbn (incl_app Hfw Hbw)) u H)).
    + intros j Hj. apply Hpend. revert Hj. apply wstep_et.
    + intros j [].
Qed.

Lemma weak_fold_ok : forall l st,
  inv st ->
  (forall ri i, In (ri, i) l -> exists r, nth_error (irs_runs sq) ri = Some r /\ In i (run_range r)) ->
  exists st', weak_fold U32 cps sq st l = Ok st' /\ inv st'.
Proof.
  induction l as [|[ri i] rest IH]; intros st Hinv Hl; cbn [weak_fold]; [eauto|].
  destruct (Hl ri i (or_introl eq_refl)) as (r & Hr & Hi).
  destruct (weak_step_ok st ri i r Hinv Hr Hi) as (st' & -> & Hinv'). cbn [bind].
  apply IH; [assumption|]. intros ri' i' H. apply Hl. right; assumption.
Qed.

(* the only write of W7 puts L at an index of the sequence *)
Lemma w7_fold_ok : forall idxs pc b, good pc -> incl idxs IS ->
  exists out, w7_fold pc b idxs = Ok out /\ good out.
Proof.
  induction idxs as [|j rest IH]; intros pc b Hg Hi; cbn [w7_fold]; [eauto|].
  apply incl_cons_inv in Hi as [Hj Hr].
  assert (Hlt : j < length pc) by (destruct Hg as [-> _]; apply HS, Hj).
  rewrite (get_some _ _ _ _ (nth_error_nth' pc BN Hlt)). cbn [bind].
  destruct (nth j pc BN); try (apply IH; assumption).
  destruct b; [|apply IH; assumption].
  rewrite upd_lset by exact Hlt. cbn [bind].
  apply IH; [|assumption]. apply (good_lset_all pc [j] L Hg). intros a [<-|[]]. exact Hj.
Qed.

Lemma resolve_weak_ok :
  exists out, resolve_weak U32 cps sq pc0 = Ok out /\ good out.
Proof.
  unfold resolve_weak.
  destruct (weak_fold_ok (indexed_units 0 (irs_runs sq))
              {| w_prev4 := irs_sos sq; w_prev5 := irs_sos sq; w_prev1 := irs_sos sq; w_al := false;
                 w_et := []; w_bn := []; w_pc := pc0 |}) as (st & -> & ([Hl Hf] & Het & Hbn)).
  - repeat split; cbn [w_et w_bn]; apply incl_nil_l.
  - apply (indexed_units_in (irs_runs sq) (irs_runs sq) 0). intros j r E. exact E.
  - cbn [bind]. rewrite set_all_lset_all by (intros j Hj; rewrite Hl; apply HS, Het, Hj). cbn [bind].
    apply w7_fold_ok; [apply good_lset_all; [split|]; assumption | apply incl_refl].
Qed.

End Weak.

Lemma t_weak_main : T_weak.
Proof.
  intros cps sq pc Hlen (_ & Hin & _).
  destruct (resolve_weak_ok cps sq pc Hlen) as (out & E & Hl & Hf).
  - intros i Hi. rewrite Hlen. exact (run_in_bound _ _ i Hin Hi).
  - exists out. repeat split; assumption.
Qed.
