(* Proofs/CSNeutralN0.v — N0: one step of n0_pairs against Spec.n0_one, with the invariant on the
   working classes of X9-removed positions that N0 maintains and N1/N2 needs.  Both sides write one
   class on a set of indices: the model on [Mset pc] (NeutralPair), the specification on the two
   brackets and the runs of original NSMs after them; on the live positions the two sets agree. *)
From BidiVerif Require Import Base ModelText ModelResolve Spec StageRel Stmts4.
From BidiVerif.Proofs Require Import ListLib SeqIter CSNeutralBase NeutralLoops NeutralPair TotalNeutral CSNeutralBD16.

Definition alphab (c : bclass) : bool := is_ni c || hasdir c.

Lemma nibn_hasdir c : nibn c = true -> hasdir c = false.
Proof. destruct c; cbn; congruence. Qed.

Lemma alphab_not_BN c : alphab c = true -> (c =c BN) = false.
Proof. destruct c; cbn; congruence. Qed.

Definition odir (o : option bclass) : option bclass := match o with Some c => strong_dir c | None => None end.

Lemma setnth_lset {A} (t : list A) i x : setnth t i x = lset t i x.
Proof. reflexivity. Qed.

Lemma nsm_follow_lset_all onsm d : forall fuel k t,
  nsm_follow onsm d k fuel t = lset_all t (takewhile (fun m => snth onsm m false) (seq k fuel)) d.
Proof.
  induction fuel as [|f IH]; intros k t; cbn [nsm_follow seq takewhile]; [reflexivity|].
  destruct (snth onsm k false); [|reflexivity]. rewrite IH, setnth_lset. reflexivity.
Qed.

Lemma nth_lset_all_dec {A} (l : list A) idxs x u d : u < length l ->
  nth u (lset_all l idxs x) d = if in_dec Nat.eq_dec u idxs then x else nth u l d.
Proof.
  intros Hu. destruct (in_dec Nat.eq_dec u idxs); [apply nth_lset_all_in | apply nth_lset_all_notin]; assumption.
Qed.

Lemma pfind_find p pc l : pfind p pc l = find p (at_ BN pc l).
Proof. induction l as [|j l IH]; [reflexivity|]. cbn [pfind at_ map find]. rewrite IH. reflexivity. Qed.

Section N0.
Variable cps : list N.
Variable sq : irs.
Variable oc : list bclass.
Variable k : nat.
Hypothesis Hcps : length cps = k.
Hypothesis Hoc : length oc = k.
Hypothesis Hwf : seq_wf k sq.
Variable e : bclass.
Hypothesis He : e = L \/ e = R.
Let runs := irs_runs sq.
Let Sq := seq_idx sq.
Let li := live_idx oc sq.
Let sos := irs_sos sq.
Let onsm := map (fun i => nth i oc BN =c NSM) li.

Lemma seq_asc : asc Sq.
Proof. destruct Hwf as (_ & _ & H & _). apply (asc_runs _ _ H). Qed.

Lemma live_asc : asc li.
Proof. apply asc_filter. exact seq_asc. Qed.

Lemma HSk : forall j, In j Sq -> j < k.
Proof. destruct Hwf as (_ & H & _). apply S_bound. exact H. Qed.

Lemma sos_LR : sos = L \/ sos = R.
Proof. destruct Hwf as (_ & _ & _ & H & _). exact H. Qed.

Lemma in_li x : In x li <-> In x Sq /\ live oc x = true.
Proof. apply filter_In. Qed.

Definition nolive (u v : nat) : Prop := forall y, In y Sq -> u < y < v -> live oc y = false.
Definition prevlive (p x : nat) : Prop := In p Sq /\ live oc p = true /\ p < x /\ nolive p x.
Definition nextlive (j q : nat) : Prop := In q Sq /\ live oc q = true /\ j < q /\ nolive j q.

(* the invariant on X9-removed positions that N0 maintains and N1/N2 relies on *)
Definition okP (pc : list bclass) : Prop :=
  forall j, In j Sq -> live oc j = false ->
    nibn (nth j pc BN) = true \/
    (exists q, nextlive j q /\ nth j pc BN = nth q pc BN) \/
    (exists p, prevlive p j /\ nth j pc BN = nth p pc BN).

(* a bracket of a pair that is still to be processed *)
Definition brk_ok (pc : list bclass) (x : nat) : Prop :=
  nth x pc BN = ON \/
  (nth x oc BN = NSM /\ exists p, prevlive p x /\ nth x pc BN = nth p pc BN).

Definition Inv (pc : list bclass) (mps : list bracket_pair) : Prop :=
  length pc = k /\ (forall x, In x li -> alphab (nth x pc BN) = true) /\ okP pc /\
  forall x, In x (flat_map ends mps) -> brk_ok pc x.

Lemma prevlive_exists c j : In c Sq -> live oc c = true -> In j Sq -> c < j ->
  exists p, prevlive p j /\ c <= p.
Proof.
  intros Hc Hlc Hj Hcj. pose proof seq_asc as Ha.
  destruct (in_split _ _ Hj) as (pre & post & E). rewrite E in Ha, Hc.
  assert (Hcp : In c pre) by (eapply asc_in_before; eauto).
  destruct (asc_split _ _ _ Ha) as (Hap & _ & Hpl & _).
  assert (Hne : filter (live oc) pre <> []).
  { intros En. assert (In c (filter (live oc) pre)) by (apply filter_In; auto). rewrite En in H. exact H. }
  destruct (exists_last Hne) as (L1 & p & EL).
  assert (Hp : In p (filter (live oc) pre)) by (rewrite EL; apply in_or_app; right; left; reflexivity).
  apply filter_In in Hp as [Hpp Hlp].
  pose proof (asc_filter (live oc) _ Hap) as HaL. rewrite EL in HaL.
  apply asc_app in HaL as (_ & _ & HL).
  exists p. split.
  - split; [rewrite E; apply in_or_app; left; exact Hpp|]. split; [exact Hlp|]. split; [apply Hpl; exact Hpp|].
    intros y Hy Hr. destruct (live oc y) eqn:Ely; [exfalso | reflexivity].
    rewrite E in Hy. assert (Hyp : In y pre) by (eapply asc_in_before; eauto; lia).
    assert (HyL : In y (L1 ++ [p])) by (rewrite <- EL; apply filter_In; auto).
    apply in_app_or in HyL as [HyL|[<-|[]]]; [|lia].
    specialize (HL y p HyL (or_introl eq_refl)). lia.
  - assert (HcL : In c (L1 ++ [p])) by (rewrite <- EL; apply filter_In; auto).
    apply in_app_or in HcL as [HcL|[<-|[]]]; [|lia].
    specialize (HL c p HcL (or_introl eq_refl)). lia.
Qed.

Lemma nextlive_unique j q q' : nextlive j q -> nextlive j q' -> q = q'.
Proof.
  intros (H1 & H2 & H3 & H4) (H1' & H2' & H3' & H4').
  destruct (Nat.lt_trichotomy q q') as [H|[H|H]]; [|exact H|].
  - specialize (H4' q H1 ltac:(lia)). congruence.
  - specialize (H4 q' H1' ltac:(lia)). congruence.
Qed.

Lemma prevlive_unique x p p' : prevlive p x -> prevlive p' x -> p = p'.
Proof.
  intros (H1 & H2 & H3 & H4) (H1' & H2' & H3' & H4').
  destruct (Nat.lt_trichotomy p p') as [H|[H|H]]; [|exact H|].
  - specialize (H4 p' H1' ltac:(lia)). congruence.
  - specialize (H4' p H1 ltac:(lia)). congruence.
Qed.

Lemma prevlive_shift p q j : prevlive p q -> nextlive j q -> live oc j = false -> prevlive p j.
Proof.
  intros (H1 & H2 & H3 & H4) (H1' & H2' & H3' & H4') Hj.
  assert (Hpj : p < j).
  { destruct (Nat.lt_trichotomy p j) as [H|[H|H]]; [exact H | subst; congruence |].
    specialize (H4' p H1 ltac:(lia)). congruence. }
  split; [exact H1|]. split; [exact H2|]. split; [exact Hpj|].
  intros y Hy Hr. apply H4; [exact Hy | lia].
Qed.

Lemma prevlive_last pre x post p : Sq = pre ++ x :: post -> prevlive p x ->
  exists pre1 gap, pre = pre1 ++ p :: gap /\ forall y, In y gap -> live oc y = false.
Proof.
  intros E (H1 & H2 & H3 & H4). pose proof seq_asc as Ha. rewrite E in Ha, H1.
  assert (Hp : In p pre) by (eapply asc_in_before; eauto).
  destruct (in_split _ _ Hp) as (pre1 & gap & ->). exists pre1, gap. split; [reflexivity|].
  intros y Hy. apply H4.
  - rewrite E. apply in_or_app. left. apply in_or_app. right. right. exact Hy.
  - destruct (asc_split _ _ _ Ha) as (Hap & _ & Hpl & _).
    destruct (asc_split _ _ _ Hap) as (_ & _ & _ & Hg & _). split; [apply Hg; exact Hy|].
    apply Hpl. apply in_or_app. right. right. exact Hy.
Qed.

(* the backward search for the preceding strong type *)
Lemma find_back pc : okP pc -> forall pre gap x post,
  Sq = pre ++ gap ++ x :: post -> (forall y, In y gap -> live oc y = false) -> live oc x = true ->
  (hasdir (nth x pc BN) = false \/ exists p, prevlive p x /\ nth x pc BN = nth p pc BN) ->
  odir (find hasdir (at_ BN pc (rev pre))) = odir (find hasdir (at_ BN pc (rev (filter (live oc) pre)))).
Proof.
  intros HP. induction pre as [|j pre IH] using rev_ind; intros gap x post E Hgap Hlx Hcond; [reflexivity|].
  rewrite rev_app_distr, filter_app. cbn [rev app filter].
  pose proof seq_asc as Ha. rewrite E in Ha. rewrite <- app_assoc in E, Ha. cbn [app] in E, Ha.
  assert (HjS : In j Sq) by (rewrite E; apply in_or_app; right; left; reflexivity).
  destruct (live oc j) eqn:Elj.
  - rewrite rev_app_distr. cbn [rev app at_ map find]. fold (at_ BN pc (rev pre)).
    fold (at_ BN pc (rev (filter (live oc) pre))).
    destruct (hasdir (nth j pc BN)) eqn:Ehd; [reflexivity|].
    apply (IH [] j (gap ++ x :: post)); [exact E | intros y [] | exact Elj | left; exact Ehd].
  - rewrite app_nil_r. cbn [at_ map find]. fold (at_ BN pc (rev pre)).
    destruct (hasdir (nth j pc BN)) eqn:Ehd.
    + (* a removed position holding a strong class: it is a copy of the previous live position *)
      assert (Hnx : nextlive j x).
      { assert (HxS : In x Sq) by (rewrite E; apply in_or_app; right; right; apply in_or_app; right; left; reflexivity).
        destruct (asc_split _ _ _ Ha) as (_ & Ha2 & _ & Hjl & _).
        split; [exact HxS|]. split; [exact Hlx|].
        split; [apply Hjl; apply in_or_app; right; left; reflexivity|].
        intros y Hy Hr. rewrite E in Hy.
        assert (Hy2 : In y (gap ++ x :: post)) by (eapply asc_in_after; eauto; lia).
        apply Hgap. eapply asc_in_before; eauto. lia. }
      assert (Hprev : exists p, prevlive p j /\ nth j pc BN = nth p pc BN).
      { destruct (HP j HjS Elj) as [Hn|[(q & Hq & Eq)|Hp]]; [|  | exact Hp].
        - apply nibn_hasdir in Hn. congruence.
        - rewrite (nextlive_unique _ _ _ Hq Hnx) in Eq.
          destruct Hcond as [Hc|(p & Hp & Ep)]; [rewrite <- Eq in Hc; congruence|].
          exists p. split; [eapply prevlive_shift; eauto | congruence]. }
      destruct Hprev as (p & Hp & Ep).
      destruct (prevlive_last _ _ _ _ E Hp) as (pre1 & g1 & -> & Hg1).
      rewrite filter_app. cbn [filter]. destruct Hp as (_ & Hlp & _). rewrite Hlp.
      rewrite (filter_none _ g1) by exact Hg1. rewrite rev_app_distr. cbn [rev app at_ map find].
      rewrite <- Ep, Ehd. reflexivity.
    + apply (IH (j :: gap) x post); [exact E | | exact Hlx | exact Hcond].
      intros y [<-|Hy]; [exact Elj | apply Hgap; exact Hy].
Qed.

Lemma ctx_eq (o1 o2 : option bclass) l1 l2 : o1 = find hasdir l1 -> o2 = find hasdir l2 -> odir o1 = odir o2 ->
  strong_ctx (opt_or o1 sos) =
  match o2 with Some c => match strong_dir c with Some d => d | None => sos end | None => sos end.
Proof.
  intros E1 E2 Ed. symmetry in E1, E2.
  destruct o1 as [c1|], o2 as [c2|]; cbn [opt_or odir] in *.
  - apply find_some in E1 as [_ E1]. rewrite <- Ed. destruct c1; cbn in E1 |- *; congruence.
  - apply find_some in E1 as [_ E1]. destruct c1; cbn in E1, Ed; congruence.
  - apply find_some in E2 as [_ E2]. destruct c2; cbn in E2, Ed; congruence.
  - destruct sos_LR as [-> | ->]; reflexivity.
Qed.

(* Spec.n0_one, with the decision isolated *)
Definition n0_new (t : list bclass) (ia ib : nat) : option bclass :=
  let inside := firstn (ib - ia - 1) (skipn (S ia) t) in
  if existsb (sfe e) inside then Some e
  else if existsb (sfo e) inside then
    Some (match find hasdir (rev (firstn ia t)) with
          | Some c => match strong_dir c with Some d => d | None => sos end
          | None => sos
          end)
  else None.

(* the indices of the original NSMs that follow index i *)
Definition nsm_run (n i : nat) : list nat := takewhile (fun m => snth onsm m false) (seq (S i) n).

Lemma n0_one_eq t ia ib : n0_one sos e onsm t (ia, ib) =
  match n0_new t ia ib with
  | None => t
  | Some d => lset_all t ([ia; ib] ++ nsm_run (length t) ia ++ nsm_run (length t) ib) d
  end.
Proof.
  unfold n0_one, n0_new. cbv zeta. fold (sfe e) (sfo e) hasdir.
  destruct (if existsb (sfe e) _ then _ else _); [|reflexivity].
  rewrite !nsm_follow_lset_all, !setnth_lset, !lset_length, !lset_all_app. reflexivity.
Qed.

Lemma n0_new_LR t ia ib d : n0_new t ia ib = Some d -> d = L \/ d = R.
Proof.
  unfold n0_new. cbv zeta. destruct (existsb (sfe e) _); [intros [= <-]; exact He|].
  destruct (existsb (sfo e) _); [|discriminate]. intros [= <-].
  destruct (find hasdir _) as [c|]; [|exact sos_LR].
  destruct c; cbn; auto; exact sos_LR.
Qed.

Lemma find_ext {A} (f g : A -> bool) l : (forall x, f x = g x) -> find f l = find g l.
Proof. intros H. induction l as [|x l IH]; [reflexivity|]. cbn [find]. rewrite H, IH. reflexivity. Qed.

Section Pair.
Variables (pre mid post : list nat) (a b : nat).
Hypothesis HSq : Sq = pre ++ a :: mid ++ b :: post.
Hypothesis Hla : live oc a = true.
Hypothesis Hlb : live oc b = true.

Notation Mset := (Mset oc pre mid post a b).
Notation walked := (walked oc Sq).

Lemma a_in_seq : In a Sq.
Proof. apply (cut_in Sq pre _ a HSq). Qed.

Lemma b_in_seq : In b Sq.
Proof. apply (cut_in Sq _ post b (cut_snd Sq pre mid post a b HSq)). Qed.

Lemma li_cut : li = filter (live oc) pre ++ a :: filter (live oc) mid ++ b :: filter (live oc) post.
Proof.
  unfold li, live_idx. fold Sq. rewrite HSq. rewrite filter_app. cbn [filter]. rewrite Hla.
  rewrite filter_app. cbn [filter]. rewrite Hlb. reflexivity.
Qed.

Lemma lidx_a : lidx li a = length (filter (live oc) pre).
Proof. pose proof live_asc as H. rewrite li_cut in *. apply lidx_split. exact H. Qed.

Lemma lidx_b : lidx li b = length (filter (live oc) pre) + 1 + length (filter (live oc) mid).
Proof.
  pose proof live_asc as H. rewrite li_cut in *. rewrite app_comm_cons, app_assoc in *.
  rewrite (lidx_split _ _ _ H), app_length. cbn [length]. lia.
Qed.

Lemma inside_eq pc : firstn (lidx li b - lidx li a - 1) (skipn (S (lidx li a)) (at_ BN pc li))
                     = at_ BN pc (filter (live oc) mid).
Proof.
  rewrite lidx_a, lidx_b, li_cut.
  replace (at_ BN pc (filter (live oc) pre ++ a :: filter (live oc) mid ++ b :: filter (live oc) post))
    with (at_ BN pc (filter (live oc) pre ++ [a]) ++ at_ BN pc (filter (live oc) mid) ++ at_ BN pc (b :: filter (live oc) post))
    by (rewrite <- !at_app, <- app_assoc; reflexivity).
  replace (S (length (filter (live oc) pre))) with (length (at_ BN pc (filter (live oc) pre ++ [a])))
    by (rewrite at_length, app_length; cbn [length]; lia).
  rewrite skipn_length_app.
  replace (_ - _ - 1) with (length (at_ BN pc (filter (live oc) mid))) by (rewrite at_length; lia).
  apply firstn_length_app.
Qed.

Lemma before_eq pc : rev (firstn (lidx li a) (at_ BN pc li)) = at_ BN pc (rev (filter (live oc) pre)).
Proof.
  rewrite lidx_a, li_cut, at_app, <- (at_length BN pc (filter (live oc) pre)), firstn_length_app.
  unfold at_. rewrite map_rev. reflexivity.
Qed.

Lemma n0_decide_new pc : okP pc -> brk_ok pc a ->
  n0_decide sq oc e pre mid pc = n0_new (at_ BN pc li) (lidx li a) (lidx li b).
Proof.
  intros HP Hba. unfold n0_decide, n0_new. cbv zeta. rewrite inside_eq, before_eq.
  destruct (existsb (sfe e) _); [reflexivity|]. destruct (existsb (sfo e) _); [|reflexivity]. f_equal.
  rewrite pfind_find, (find_ext _ hasdir) by (intros c; destruct c; reflexivity).
  eapply ctx_eq; [reflexivity | reflexivity|].
  apply (find_back pc HP pre [] a (mid ++ b :: post)); [exact HSq | intros y [] | exact Hla|].
  destruct Hba as [Hon|[_ Hp]]; [left; rewrite Hon; reflexivity | right; exact Hp].
Qed.

Lemma in_M pc j : In j (Mset pc) <-> walked a j \/ walked b j \/ In j (Bs pre pc).
Proof.
  rewrite (walked_W oc Sq pre _ a seq_asc HSq), (walked_W oc Sq _ post b seq_asc (cut_snd Sq pre mid post a b HSq)).
  unfold NeutralPair.Mset. rewrite !in_app_iff. cbn [In]. fold (Wa oc mid post b) (Wb oc post). split.
  - intros [[E|[E|[]]]|[H|[H|H]]]; subst; auto 6.
  - intros [[E|H]|[[E|H]|H]]; subst; auto 6.
Qed.

Lemma walked_down c x z : walked c x -> In z Sq -> c <= z <= x -> walked c z.
Proof.
  intros (H1 & H2 & H3) Hz Hr. split; [exact Hz|]. split; [lia|]. intros y Hy Hyr. apply H3; [exact Hy | lia].
Qed.

Lemma walked_up c x y : walked c x -> In y Sq -> x < y ->
  (forall z, In z Sq -> x < z <= y -> walkable oc z = true) -> walked c y.
Proof.
  intros (H1 & H2 & H3) Hy Hxy Hw. split; [exact Hy|]. split; [lia|]. intros z Hz Hr.
  destruct (Nat.le_gt_cases z x); [apply H3; [exact Hz | lia] | apply Hw; [exact Hz | lia]].
Qed.

Lemma walked_prev c j : c = a \/ c = b -> walked c j -> j <> c -> exists p, prevlive p j /\ walked c p.
Proof.
  intros Hc Hw Hne. pose proof Hw as (H1 & H2 & _).
  assert (HcS : In c Sq /\ live oc c = true) by (destruct Hc as [-> | ->]; split; auto using a_in_seq, b_in_seq).
  destruct (prevlive_exists c j (proj1 HcS) (proj2 HcS) H1 ltac:(lia)) as (p & Hp & Hcp).
  exists p. split; [exact Hp|]. destruct Hp as (Hp1 & _ & Hp3 & _). eapply walked_down; eauto. lia.
Qed.

Section Step.
Variables (pc : list bclass) (d : bclass) (rest : list bracket_pair).
Let pc' := lset_all pc (Mset pc) d.
Hypothesis Hd : d = L \/ d = R.
Hypothesis Hk : length pc = k.
Hypothesis Halpha : forall x, In x li -> alphab (nth x pc BN) = true.
Hypothesis HP : okP pc.
Hypothesis Hba : brk_ok pc a.
Hypothesis Hbb : brk_ok pc b.
Hypothesis Hbrest : forall x, In x (flat_map ends rest) -> brk_ok pc x.
Hypothesis Hrest : forall x, In x (flat_map ends rest) -> In x li /\ x <> a /\ x <> b.

Lemma live_not_Bs x : In x li -> ~ In x (Bs pre pc).
Proof.
  intros Hx HB. apply (in_Bs Sq pre mid post a b seq_asc HSq) in HB as (H1 & H2 & H3). specialize (H3 x H1 ltac:(lia)).
  apply Halpha in Hx. apply alphab_not_BN in Hx. rewrite H3 in Hx. discriminate.
Qed.

Lemma set_in_M j : In j (Mset pc) -> nth j pc' BN = d.
Proof.
  intros H. apply nth_lset_all_in; [exact H|]. rewrite Hk. apply HSk, (Mset_incl oc Sq pre mid post a b seq_asc HSq pc), H.
Qed.

Lemma keep_not_M j : ~ In j (Mset pc) -> nth j pc' BN = nth j pc BN.
Proof. apply nth_lset_all_notin. Qed.

Lemma walked_M c j : c = a \/ c = b -> walked c j -> In j (Mset pc).
Proof. intros [-> | ->] H; apply in_M; auto. Qed.

Lemma walked_copy c j : c = a \/ c = b -> walked c j -> j <> c ->
  exists p, prevlive p j /\ nth j pc' BN = nth p pc' BN.
Proof.
  intros Hc Hw Hne. destruct (walked_prev c j Hc Hw Hne) as (p & Hp & Hwp). exists p. split; [exact Hp|].
  rewrite !set_in_M by (eapply walked_M; eauto). reflexivity.
Qed.

Lemma M_up p j : prevlive p j -> In j Sq -> (forall z, In z Sq -> p < z <= j -> walkable oc z = true) ->
  In p (Mset pc) -> walked a j \/ walked b j.
Proof.
  intros (Hp1 & Hp2 & Hp3 & _) Hj Hup Hin. apply in_M in Hin as [Hw|[Hw|HB]].
  - left. eapply walked_up; eauto.
  - right. eapply walked_up; eauto.
  - exfalso. eapply live_not_Bs; [|exact HB]. apply in_li; auto.
Qed.

Lemma okP_step : okP pc'.
Proof.
  intros j HjS Hlj. destruct (in_dec Nat.eq_dec j (Mset pc)) as [Em|Em].
  - apply in_M in Em as [Hw|[Hw|HB]].
    + right. right. apply (walked_copy a); auto. intros ->. congruence.
    + right. right. apply (walked_copy b); auto. intros ->. congruence.
    + (* a BN just before the opening bracket *)
      right. left. exists a. pose proof HB as HB'. apply (in_Bs Sq pre mid post a b seq_asc HSq) in HB as (H1 & H2 & H3).
      split.
      * split; [exact a_in_seq|]. split; [exact Hla|]. split; [exact H2|].
        intros y Hy Hr. destruct (live oc y) eqn:Ely; [exfalso | reflexivity].
        assert (Hyl : In y li) by (apply in_li; auto).
        apply Halpha in Hyl. apply alphab_not_BN in Hyl. rewrite (H3 y Hy ltac:(lia)) in Hyl. discriminate.
      * rewrite !set_in_M; [reflexivity | | apply in_M; auto].
        apply in_M. left. apply (walked_W oc Sq pre _ a seq_asc HSq). left. reflexivity.
  - rewrite (keep_not_M j Em).
    assert (Hnw : ~ walked a j /\ ~ walked b j) by (rewrite in_M in Em; tauto). destruct Hnw as [Hna Hnb].
    assert (HPcopy : forall p, prevlive p j -> nth j pc BN = nth p pc BN ->
              exists p, prevlive p j /\ nth j pc BN = nth p pc' BN).
    { intros p Hp Ep. exists p. split; [exact Hp|].
      destruct (in_dec Nat.eq_dec p (Mset pc)) as [Emp|Emp]; [|rewrite (keep_not_M p Emp); exact Ep].
      exfalso. destruct (M_up p j Hp HjS) as [H|H]; auto.
      intros z Hz Hr. apply walkable_removed. destruct (Nat.eq_dec z j) as [->|Hzj]; [exact Hlj|].
      destruct Hp as (_ & _ & _ & Hp4). apply Hp4; [exact Hz | lia]. }
    destruct (HP j HjS Hlj) as [Hn|[(q & Hq & Eq)|(p & Hp & Ep)]];
      [left; exact Hn | | right; right; apply HPcopy with p; assumption].
    destruct (in_dec Nat.eq_dec q (Mset pc)) as [Emq|Emq].
    2:{ right. left. exists q. split; [exact Hq|]. rewrite (keep_not_M q Emq). exact Eq. }
    pose proof Hq as (Hq1 & Hq2 & Hq3 & Hq4).
    (* the next live position q is rewritten: it is a bracket, since a walk that passes j rewrites j *)
    assert (Hcase : forall c, c = a \/ c = b -> brk_ok pc c -> In c Sq -> live oc c = true -> walked c q -> ~ walked c j ->
              nibn (nth j pc BN) = true \/ exists p, prevlive p j /\ nth j pc BN = nth p pc' BN).
    { intros c Hc Hbc HcS Hlc Hw Hnw. destruct (Nat.eq_dec q c) as [->|Hqc].
      - destruct Hbc as [Hon|(_ & p & Hp & Ep)].
        + left. rewrite Eq, Hon. reflexivity.
        + right. apply HPcopy with p; [eapply prevlive_shift; eauto | congruence].
      - exfalso. apply Hnw. eapply walked_down; [exact Hw | exact HjS|]. destruct Hw as (_ & Hw2 & _).
        destruct (Nat.lt_trichotomy c j) as [H|[H|H]]; [lia | subst; congruence |].
        specialize (Hq4 c HcS ltac:(lia)). congruence. }
    assert (Hfin : nibn (nth j pc BN) = true \/ exists p, prevlive p j /\ nth j pc BN = nth p pc' BN).
    { apply in_M in Emq as [Hw|[Hw|HB]].
      - apply (Hcase a); auto using a_in_seq.
      - apply (Hcase b); auto using b_in_seq.
      - exfalso. eapply live_not_Bs; [|exact HB]. apply in_li; auto. }
    destruct Hfin as [H|H]; [left; exact H | right; right; exact H].
Qed.

Lemma brk_step x : In x (flat_map ends rest) -> brk_ok pc' x.
Proof.
  intros Hx. destruct (Hrest x Hx) as (Hxl & Hxa & Hxb). pose proof Hxl as Hxl'. apply in_li in Hxl' as [HxS Hlx].
  destruct (in_dec Nat.eq_dec x (Mset pc)) as [Em|Em].
  - (* a live position the walk from c reaches has original class NSM *)
    assert (Hc : forall c, c = a \/ c = b -> x <> c -> walked c x -> brk_ok pc' x).
    { intros c Hc Hne Hw. right. split; [|apply (walked_copy c); assumption].
      destruct Hw as (H1 & H2 & H3). specialize (H3 x H1 ltac:(lia)).
      rewrite (walkable_live _ _ Hlx) in H3. apply ceq_eq. exact H3. }
    apply in_M in Em as [Hw|[Hw|HB]]; [apply (Hc a); auto | apply (Hc b); auto | exfalso; eapply live_not_Bs; eauto].
  - unfold brk_ok. rewrite (keep_not_M x Em).
    destruct (Hbrest x Hx) as [Hon|(Hnsm & p & Hp & Ep)]; [left; exact Hon|].
    right. split; [exact Hnsm|]. exists p. split; [exact Hp|].
    destruct (in_dec Nat.eq_dec p (Mset pc)) as [Emp|Emp]; [|rewrite (keep_not_M p Emp); exact Ep].
    exfalso. apply Em, in_M. destruct (M_up p x Hp HxS) as [H|H]; auto.
    intros z Hz Hr. destruct (Nat.eq_dec z x) as [->|Hzx].
    + rewrite (walkable_live _ _ Hlx), Hnsm. reflexivity.
    + apply walkable_removed. destruct Hp as (_ & _ & _ & Hp4). apply Hp4; [exact Hz | lia].
Qed.

Lemma Inv_step : Inv pc' rest.
Proof.
  split; [unfold pc'; rewrite lset_all_length; exact Hk|]. split; [|split; [exact okP_step | exact brk_step]].
  intros x Hx. destruct (in_dec Nat.eq_dec x (Mset pc)) as [Em|Em].
  - rewrite (set_in_M x Em). destruct Hd as [-> | ->]; reflexivity.
  - rewrite (keep_not_M x Em). apply Halpha, Hx.
Qed.

Lemma onsm_nth m : m < length li -> snth onsm m false = (nth (nth m li 0) oc BN =c NSM).
Proof.
  intros Hm. unfold snth, onsm.
  rewrite (nth_indep _ false (nth 0 oc BN =c NSM)) by (rewrite map_length; exact Hm).
  apply (map_nth (fun i => nth i oc BN =c NSM)).
Qed.

Lemma in_nsm_run n i m : In m (nsm_run n i) <-> i < m <= i + n /\ forall m', i < m' <= m -> snth onsm m' false = true.
Proof.
  unfold nsm_run. rewrite (takewhile_asc _ _ _ (asc_seq n (S i))), in_seq. split.
  - intros [H1 H2]. split; [lia|]. intros m' Hm'. apply H2; [apply in_seq|]; lia.
  - intros [H1 H2]. split; [lia|]. intros z Hz Hle. apply in_seq in Hz. apply H2. lia.
Qed.

Lemma walk_idx c x : In c li -> In x li ->
  (walked c x <-> lidx li x = lidx li c \/ In (lidx li x) (nsm_run (length li) (lidx li c))).
Proof.
  intros Hc Hx. pose proof live_asc as Hal. rewrite in_nsm_run.
  pose proof (lidx_len li x Hal Hx) as Hxl. pose proof (lidx_len li c Hal Hc) as Hcl.
  pose proof Hc as Hc'. apply in_li in Hc' as [HcS Hlc]. pose proof Hx as Hx'. apply in_li in Hx' as [HxS Hlx].
  split.
  - intros (H1 & H2 & H3). destruct (Nat.eq_dec x c) as [->|Hne]; [left; reflexivity|]. right.
    pose proof (lidx_lt li c x Hal Hc ltac:(lia)) as Hlt. split; [lia|].
    intros m' Hm'. assert (Hml : m' < length li) by lia.
    set (z := nth m' li 0). assert (Hz : In z li) by (apply nth_In; exact Hml).
    assert (Ez : lidx li z = m') by (apply lidx_nth; assumption).
    assert (Hcz : c < z).
    { destruct (Nat.le_gt_cases z c) as [H|H]; [|exact H]. pose proof (lidx_mono li z c H). lia. }
    assert (Hzx : z <= x).
    { destruct (Nat.le_gt_cases z x) as [H|H]; [exact H|]. pose proof (lidx_lt li x z Hal Hx H). lia. }
    rewrite (onsm_nth m' Hml). fold z. apply in_li in Hz as [HzS Hlz].
    rewrite <- (walkable_live _ _ Hlz). apply H3; [exact HzS | lia].
  - intros [E|[Hle Hrun]].
    + apply (lidx_inj li x c Hal Hx Hc) in E. subst x. split; [exact HcS|]. split; [lia|]. intros z _ Hz. lia.
    + assert (Hcx : c < x).
      { destruct (Nat.le_gt_cases x c) as [H|H]; [|exact H]. pose proof (lidx_mono li x c H). lia. }
      split; [exact HxS|]. split; [lia|]. intros z Hz Hr.
      destruct (live oc z) eqn:Elz; [|apply walkable_removed; exact Elz].
      rewrite (walkable_live _ _ Elz). assert (Hzl : In z li) by (apply in_li; auto).
      pose proof (lidx_lt li c z Hal Hc ltac:(lia)) as H1.
      pose proof (lidx_mono li z x ltac:(lia)) as H2.
      specialize (Hrun (lidx li z) ltac:(lia)).
      rewrite (onsm_nth _ (lidx_len li z Hal Hzl)) in Hrun. rewrite (nth_lidx li z 0 Hal Hzl) in Hrun. exact Hrun.
Qed.

Lemma n0_step_eq :
  at_ BN pc' li =
  lset_all (at_ BN pc li) ([lidx li a; lidx li b] ++ nsm_run (length li) (lidx li a) ++ nsm_run (length li) (lidx li b)) d.
Proof.
  pose proof live_asc as Hal.
  assert (Hal' : In a li) by (apply in_li; auto using a_in_seq).
  assert (Hbl' : In b li) by (apply in_li; auto using b_in_seq).
  apply (list_ext BN); [rewrite lset_all_length, !at_length; reflexivity|].
  intros m Hm. rewrite at_length in Hm.
  set (x := nth m li 0). assert (Hx : In x li) by (apply nth_In; exact Hm).
  assert (Ex : lidx li x = m) by (apply lidx_nth; assumption).
  pose proof Hx as Hx'. apply in_li in Hx' as [HxS Hlx].
  rewrite (nth_at BN BN pc' li m Hm). fold x. unfold pc'.
  rewrite !nth_lset_all_dec by (rewrite ?at_length, ?Hk; auto using HSk). rewrite (nth_at BN BN pc li m Hm). fold x.
  assert (Hiff : In x (Mset pc) <-> In m ([lidx li a; lidx li b] ++ nsm_run (length li) (lidx li a) ++ nsm_run (length li) (lidx li b))).
  { rewrite in_M, (walk_idx a x Hal' Hx), (walk_idx b x Hbl' Hx), Ex, !in_app_iff. cbn [In].
    pose proof (live_not_Bs x Hx). intuition congruence. }
  destruct (in_dec Nat.eq_dec x (Mset pc)), (in_dec Nat.eq_dec m _); tauto.
Qed.

End Step.

End Pair.

Lemma n0_pair_sim pc mp rest pc' :
  Inv pc (mp :: rest) -> pair_ok runs mp ->
  live oc (bp_start mp) = true -> live oc (bp_end mp) = true ->
  NoDup (flat_map ends (mp :: rest)) -> (forall x, In x (flat_map ends rest) -> In x li) ->
  n0_pair U32 false iter_backwards_from cps sq oc e (if e =c L then R else L) pc mp = Ok pc' ->
  Inv pc' rest /\ at_ BN pc' li = n0_one sos e onsm (at_ BN pc li) (gp li mp).
Proof.
  intros (Hk & Halpha & HP & Hbrk) (Hpa & Hpb & Hlt) Hla Hlb Hnd Hrl H.
  set (a := bp_start mp) in *. set (b := bp_end mp) in *.
  destruct (pair_cut Sq a b seq_asc (pos_ok_S _ _ _ Hpa) (pos_ok_S _ _ _ Hpb) Hlt) as (pre & mid & post & HSq).
  assert (Hba : brk_ok pc a) by (apply Hbrk; cbn [flat_map ends]; left; reflexivity).
  assert (Hbb : brk_ok pc b) by (apply Hbrk; cbn [flat_map ends]; right; left; reflexivity).
  assert (Hbrest : forall x, In x (flat_map ends rest) -> brk_ok pc x).
  { intros x Hx. apply Hbrk. cbn [flat_map ends app]. right. right. exact Hx. }
  rewrite (n0_pair_eq cps sq oc k Hcps Hoc e He seq_asc HSk pre mid post a b HSq pc mp Hk eq_refl eq_refl Hpa Hpb) in H.
  injection H as <-. unfold gp. fold a b.
  rewrite n0_one_eq, <- (n0_decide_new pre mid post a b HSq Hla Hlb pc HP Hba), at_length.
  destruct (n0_decide sq oc e pre mid pc) as [d|] eqn:En.
  - rewrite (n0_decide_new pre mid post a b HSq Hla Hlb pc HP Hba) in En. apply n0_new_LR in En.
    cbn [flat_map ends app] in Hnd. fold a b in Hnd.
    apply NoDup_cons_iff in Hnd as [Hna Hnd]. apply NoDup_cons_iff in Hnd as [Hnb Hnd].
    assert (Hrest : forall x, In x (flat_map ends rest) -> In x li /\ x <> a /\ x <> b).
    { intros x Hx. split; [apply Hrl; exact Hx|]. split; intros ->.
      - apply Hna. right. exact Hx.
      - apply Hnb. exact Hx. }
    split.
    + apply (Inv_step pre mid post a b HSq Hla Hlb pc d rest); assumption.
    + apply (n0_step_eq pre mid post a b HSq Hla Hlb pc d); assumption.
  - split; [|reflexivity]. split; [exact Hk|]. split; [exact Halpha|]. split; [exact HP | exact Hbrest].
Qed.

Lemma n0_pairs_sim : forall mps pc pc',
  Inv pc mps -> Forall (pair_ok runs) mps ->
  Forall (fun p => live oc (bp_start p) = true /\ live oc (bp_end p) = true) mps ->
  NoDup (flat_map ends mps) ->
  n0_pairs U32 false iter_backwards_from cps sq oc e (if e =c L then R else L) pc mps = Ok pc' ->
  Inv pc' [] /\ at_ BN pc' li = fold_left (n0_one sos e onsm) (map (gp li) mps) (at_ BN pc li).
Proof.
  induction mps as [|mp rest IH]; intros pc pc' HI Hok Hlive Hnd H; cbn [n0_pairs] in H.
  - injection H as <-. split; [exact HI | reflexivity].
  - apply bind_ok in H as (pc1 & E1 & H).
    inversion Hok as [|x1 l1 Hok1 Hok2]; subst. inversion Hlive as [|x2 l2 [Hl1 Hl2] Hlive2]; subst.
    assert (Hrl : forall x, In x (flat_map ends rest) -> In x li).
    { intros x Hx. apply in_flat_map in Hx as (p & Hp & Hx).
      rewrite Forall_forall in Hok2, Hlive2. destruct (Hok2 p Hp) as (A & B & _). destruct (Hlive2 p Hp) as [C D].
      apply in_li. destruct Hx as [<-|[<-|[]]]; split; auto; eapply pos_ok_S; eauto. }
    destruct (n0_pair_sim pc mp rest pc1 HI Hok1 Hl1 Hl2 Hnd Hrl E1) as [HI1 Eq1].
    cbn [flat_map] in Hnd. apply NoDup_app_r in Hnd.
    destruct (IH pc1 pc' HI1 Hok2 Hlive2 Hnd H) as [HI2 Eq2].
    split; [exact HI2|]. cbn [map fold_left]. rewrite <- Eq1. exact Eq2.
Qed.

Lemma find_first {A} (f : A -> bool) : forall l q, find f l = Some q ->
  exists l1 l2, l = l1 ++ q :: l2 /\ f q = true /\ forall y, In y l1 -> f y = false.
Proof.
  induction l as [|x l IH]; intros q H; cbn [find] in H; [discriminate|].
  destruct (f x) eqn:E.
  - injection H as <-. exists [], l. split; [reflexivity|]. split; [exact E | intros y []].
  - destruct (IH q H) as (l1 & l2 & -> & Hq & Hl1). exists (x :: l1), l2. split; [reflexivity|].
    split; [exact Hq|]. intros y [<-|Hy]; auto.
Qed.

Lemma transparent_from_inv v : forall l1 j r, transparent_from oc v (l1 ++ j :: r) = true -> live oc j = false ->
  nth j v BN = BN \/ nth j v BN = ON \/ exists q, find (live oc) r = Some q /\ nth q v BN = nth j v BN.
Proof.
  induction l1 as [|x l1 IH]; intros j r H Hj; cbn [app transparent_from] in H;
    apply andb_true_iff in H as [H1 H2].
  - rewrite Hj in H1. apply orb_true_iff in H1 as [H1|H1]; [apply orb_true_iff in H1 as [H1|H1]|].
    + left. apply ceq_eq. exact H1.
    + right. left. apply ceq_eq. exact H1.
    + right. right. destruct (find (live oc) r) as [q|]; [|discriminate]. exists q. split; [reflexivity|].
      apply ceq_eq. exact H1.
  - apply IH; assumption.
Qed.

(* the invariant holds for the output of the weak stage *)
Lemma okP_init pc1 : transparent oc pc1 sq = true -> okP pc1.
Proof.
  intros Ht j HjS Hlj. unfold transparent in Ht. fold Sq in Ht.
  destruct (in_split _ _ HjS) as (l1 & r & E). rewrite E in Ht.
  destruct (transparent_from_inv _ _ _ _ Ht Hlj) as [H|[H|(q & Hq & Eq)]].
  - left. rewrite H. reflexivity.
  - left. rewrite H. reflexivity.
  - right. left. exists q. split; [|congruence].
    destruct (find_first _ _ _ Hq) as (r1 & r2 & -> & Hlq & Hr1).
    pose proof seq_asc as Ha. rewrite E in Ha.
    destruct (asc_split _ _ _ Ha) as (_ & Har & _ & Hjr & _).
    split; [rewrite E; apply in_or_app; right; right; apply in_or_app; right; left; reflexivity|].
    split; [exact Hlq|]. split; [apply Hjr; apply in_or_app; right; left; reflexivity|].
    intros y Hy Hr. apply Hr1. rewrite E in Hy.
    assert (Hy2 : In y (r1 ++ q :: r2)) by (eapply asc_in_after; eauto; lia).
    eapply asc_in_before; eauto. lia.
Qed.

Lemma Inv_init pc1 mps : length pc1 = k ->
  (forall x, In x li -> alphab (nth x pc1 BN) = true) ->
  transparent oc pc1 sq = true ->
  Forall (fun p => bracket_pos_ok oc pc1 (bp_start p) /\ bracket_pos_ok oc pc1 (bp_end p)) mps ->
  Inv pc1 mps.
Proof.
  intros Hk Halpha Ht Hb. split; [exact Hk|]. split; [exact Halpha|]. split; [apply okP_init; exact Ht|].
  intros x Hx. apply in_flat_map in Hx as (p & Hp & Hx). rewrite Forall_forall in Hb.
  destruct (Hb p Hp) as [[_ A] [_ B]]. left. destruct Hx as [<-|[<-|[]]]; assumption.
Qed.

End N0.
