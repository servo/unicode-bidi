(* Proofs/ListLib.v — facts about lists and about the vector operations of Base.v ([res], [get], [upd],
   [set_all], [slice], [set_range], [range], [position]) that the proofs of every stage use.  A write [upd s l i x] that
   succeeds is the pure update [lset l i x], and [set_all] is [lset_all]: proofs speak of those. *)
From BidiVerif Require Import Base.

Lemma bind_ok {A B} (e : res A) (f : A -> res B) y :
  bind e f = Ok y -> exists x, e = Ok x /\ f x = Ok y.
Proof. destruct e as [a|s]; cbn [bind]; intros H; [exists a; split; [reflexivity|exact H] | discriminate]. Qed.

Lemma nth_error_ext {A} (l1 l2 : list A) : (forall u, nth_error l1 u = nth_error l2 u) -> l1 = l2.
Proof.
  revert l2. induction l1 as [|h t IH]; intros [|h2 t2] H.
  - reflexivity.
  - specialize (H 0). discriminate.
  - specialize (H 0). discriminate.
  - pose proof (H 0) as H0. cbn in H0. inversion H0. f_equal. apply IH. intros u. exact (H (S u)).
Qed.

Lemma nth_error_lt {A} (l : list A) i x : nth_error l i = Some x -> i < length l.
Proof. intros H. apply nth_error_Some. congruence. Qed.
Lemma nth_error_mid {A} (a : list A) c b : nth_error (a ++ c :: b) (length a) = Some c.
Proof. rewrite nth_error_app2 by lia. rewrite Nat.sub_diag. reflexivity. Qed.
Lemma nth_nth_error {A} (l : list A) : forall i d,
  nth i l d = match nth_error l i with Some x => x | None => d end.
Proof. induction l as [|x l IH]; intros [|i] d; cbn; auto. Qed.
Lemma nth_eq_of_nth_error {A} (a b : list A) i d :
  nth_error a i = nth_error b i -> nth i a d = nth i b d.
Proof. intros H. rewrite !nth_nth_error, H. reflexivity. Qed.

Lemma nth_error_firstn_lt {A} (l : list A) : forall n i, i < n -> nth_error (firstn n l) i = nth_error l i.
Proof.
  induction l as [|x t IH]; intros n i H.
  - rewrite firstn_nil. reflexivity.
  - destruct n as [|n]; [lia|]. destruct i as [|i]; [reflexivity|].
    cbn [firstn nth_error]. apply IH. lia.
Qed.

Lemma nth_firstn_lt {A} (l : list A) n i d : i < n -> nth i (firstn n l) d = nth i l d.
Proof. intros H. apply nth_eq_of_nth_error, nth_error_firstn_lt, H. Qed.
Lemma nth_error_skipn {A} (l : list A) : forall n i, nth_error (skipn n l) i = nth_error l (n + i).
Proof.
  induction l as [|h t IH]; intros [|n] i; try reflexivity.
  - cbn [skipn]. destruct i; reflexivity.
  - cbn [skipn Nat.add nth_error]. apply IH.
Qed.

Lemma skipn_nth_error {A} (l : list A) : forall n x, nth_error l n = Some x -> skipn n l = x :: skipn (S n) l.
Proof.
  induction l as [|h t IH]; intros [|n] x H; try discriminate.
  - injection H as ->. reflexivity.
  - cbn [nth_error] in H. cbn [skipn]. rewrite (IH n x H). reflexivity.
Qed.

Lemma skipn_skipn {A} x y (l : list A) : skipn x (skipn y l) = skipn (x + y) l.
Proof.
  revert y. induction l as [|h t IH]; intros y.
  - rewrite !skipn_nil. reflexivity.
  - destruct y as [|y]; [rewrite Nat.add_0_r; reflexivity|]. rewrite Nat.add_succ_r. cbn [skipn]. apply IH.
Qed.

Lemma firstn_length_app {A} (a b : list A) : firstn (length a) (a ++ b) = a.
Proof.
  rewrite firstn_app, Nat.sub_diag, firstn_all. cbn [firstn]. apply app_nil_r.
Qed.

Lemma skipn_length_app {A} (a b : list A) : skipn (length a) (a ++ b) = b.
Proof.
  rewrite skipn_app, Nat.sub_diag, skipn_all. reflexivity.
Qed.

Lemma in_firstn {A} (l : list A) n x : In x (firstn n l) -> In x l.
Proof. intros H. rewrite <- (firstn_skipn n l). apply in_or_app. left. exact H. Qed.
Lemma in_skipn {A} (l : list A) n x : In x (skipn n l) -> In x l.
Proof. intros H. rewrite <- (firstn_skipn n l). apply in_or_app. right. exact H. Qed.
Lemma Forall_firstn {A} (P : A -> Prop) n (v : list A) : Forall P v -> Forall P (firstn n v).
Proof.
  intros H; revert n; induction H as [|a v Ha Hv IH]; intros [|n]; cbn [firstn]; try constructor; auto.
Qed.

Lemma Forall_skipn {A} (P : A -> Prop) n (v : list A) : Forall P v -> Forall P (skipn n v).
Proof.
  intros H; revert n; induction H as [|a v Ha Hv IH]; intros [|n]; cbn [skipn]; try constructor; auto.
Qed.

Lemma flat_map_flat_map {A B C} (f : B -> list C) (g : A -> list B) l :
  flat_map f (flat_map g l) = flat_map (fun x => flat_map f (g x)) l.
Proof.
  induction l as [|x r IH]; [reflexivity|]. cbn [flat_map]. rewrite flat_map_app, IH. reflexivity.
Qed.

Lemma flat_map_map {A B C} (f : B -> list C) (g : A -> B) l :
  flat_map f (map g l) = flat_map (fun x => f (g x)) l.
Proof. induction l as [|x r IH]; [reflexivity|]. cbn [flat_map map]. rewrite IH. reflexivity. Qed.
Lemma rev_flat_map {A B} (f : A -> list B) l :
  rev (flat_map f l) = flat_map (fun x => rev (f x)) (rev l).
Proof.
  induction l as [|x r IH]; [reflexivity|]. cbn [flat_map rev].
  rewrite rev_app_distr, flat_map_app, IH. cbn [flat_map]. rewrite app_nil_r. reflexivity.
Qed.

Lemma filter_flat_map {A B} (p : B -> bool) (f : A -> list B) (l : list A) :
  filter p (flat_map f l) = flat_map (fun x => filter p (f x)) l.
Proof. induction l as [|x l IH]; cbn [flat_map]; [reflexivity|]. rewrite filter_app, IH. reflexivity. Qed.
Lemma filter_all {A} (f : A -> bool) l : (forall x, In x l -> f x = true) -> filter f l = l.
Proof.
  induction l as [|a l IH]; intros H; [reflexivity|]. cbn [filter]. rewrite (H a (or_introl eq_refl)).
  f_equal. apply IH. intros x Hx. apply H. right; exact Hx.
Qed.

Lemma filter_none {A} (f : A -> bool) l : (forall x, In x l -> f x = false) -> filter f l = [].
Proof.
  induction l as [|a l IH]; intros H; [reflexivity|]. cbn [filter]. rewrite (H a (or_introl eq_refl)).
  apply IH. intros x Hx. apply H. right; exact Hx.
Qed.

Lemma NoDup_app_l {A} (a b : list A) : NoDup (a ++ b) -> NoDup a.
Proof.
  induction a as [|y a IH]; intros H; [constructor|].
  cbn [app] in H. inversion H as [|? ? Hn Hd]; subst. constructor.
  - intros Hy. apply Hn. apply in_or_app. left; exact Hy.
  - apply IH; exact Hd.
Qed.

Lemma NoDup_app_r {A} (a b : list A) : NoDup (a ++ b) -> NoDup b.
Proof.
  induction a as [|y a IH]; intros H; [exact H|].
  cbn [app] in H. inversion H; subst. apply IH; assumption.
Qed.

Lemma existsb_repeat {A} (f : A -> bool) x n : 0 < n -> existsb f (repeat x n) = f x.
Proof.
  induction n as [|n IH]; intros H; [lia|].
  cbn [repeat existsb]. destruct n as [|n]; [cbn [repeat existsb]; apply Bool.orb_false_r|].
  rewrite IH by lia. apply Bool.orb_diag.
Qed.

Lemma list_eqb_refl {A} (eqb : A -> A -> bool) (H : forall x, eqb x x = true) l : list_eqb eqb l l = true.
Proof. induction l as [|x l IH]; [reflexivity|]. cbn [list_eqb]. rewrite H, IH. reflexivity. Qed.
Lemma fold_add_acc l : forall a, fold_left Nat.add l a = a + fold_left Nat.add l 0.
Proof.
  induction l as [|x r IH]; intros a; cbn [fold_left]; [lia|].
  rewrite (IH (a + x)), (IH (0 + x)). lia.
Qed.

Lemma map_add_seq i m : forall a, map (Nat.add i) (seq a m) = seq (i + a) m.
Proof.
  induction m as [|m IH]; intros a; [reflexivity|]. cbn [seq map]. rewrite IH, Nat.add_succ_r. reflexivity.
Qed.

Lemma in_range a b j : In j (range a b) <-> a <= j < b.
Proof. unfold range. rewrite in_seq. lia. Qed.
Lemma range_cons a b : a < b -> range a b = a :: range (S a) b.
Proof. intros H. unfold range. replace (b - a) with (S (b - S a)) by lia. reflexivity. Qed.
Lemma range_snoc a b : a <= b -> range a (S b) = range a b ++ [b].
Proof.
  intros H. unfold range. replace (S b - a) with (S (b - a)) by lia.
  rewrite seq_S. f_equal. f_equal. lia.
Qed.

Lemma position_lt {A} (p : A -> bool) l : forall i, position p l = Some i -> i < length l.
Proof.
  induction l as [|x t IH]; intros i H; cbn in H; [discriminate|].
  destruct (p x).
  - injection H as <-. cbn. lia.
  - destruct (position p t) as [j|]; cbn in H; [|discriminate].
    injection H as <-. specialize (IH j eq_refl). cbn. lia.
Qed.

Lemma rposition_aux_lt {A} (p : A -> bool) l : forall i acc j,
  rposition_aux p l i acc = Some j -> acc = Some j \/ (i <= j /\ j < i + length l).
Proof.
  induction l as [|x t IH]; intros i acc j H; cbn in H; [left; exact H|].
  apply IH in H. cbn [length]. destruct H as [H|H].
  - destruct (p x); [injection H as <-; right; lia | left; exact H].
  - right; lia.
Qed.

Lemma rposition_lt {A} (p : A -> bool) l i : rposition p l = Some i -> i < length l.
Proof.
  unfold rposition. intros H. apply rposition_aux_lt in H. destruct H as [H|H]; [discriminate|lia].
Qed.

Lemma get_ok {A} s (l : list A) i x : get s l i = Ok x <-> nth_error l i = Some x.
Proof. unfold get. destruct (nth_error l i); split; intros H; inversion H; reflexivity. Qed.
Lemma get_some {A} s (l : list A) i x : nth_error l i = Some x -> get s l i = Ok x.
Proof. apply get_ok. Qed.
Lemma get_lt {A} s (l : list A) i x : get s l i = Ok x -> i < length l.
Proof. intros H. apply get_ok in H. eapply nth_error_lt, H. Qed.
Lemma get_total {A} s (l : list A) i : i < length l -> exists x, get s l i = Ok x.
Proof. intros H. unfold get. destruct (nth_error l i) eqn:E; [eauto|]. apply nth_error_None in E. lia. Qed.
Lemma get_mid {A} s (a : list A) c b : get s (a ++ c :: b) (length a) = Ok c.
Proof. apply get_some, nth_error_mid. Qed.

Fixpoint lset {A} (l : list A) (i : nat) (x : A) : list A :=
  match l, i with
  | [], _ => []
  | _ :: t, O => x :: t
  | h :: t, S j => h :: lset t j x
  end.

Lemma lset_length {A} (l : list A) : forall i x, length (lset l i x) = length l.
Proof. induction l as [|h t IH]; intros [|i] x; cbn [lset length]; try reflexivity. rewrite IH. reflexivity. Qed.
Lemma nth_error_lset {A} (l : list A) : forall i x u,
  nth_error (lset l i x) u = if (u =? i) && (i <? length l) then Some x else nth_error l u.
Proof.
  induction l as [|h t IH]; intros i x u.
  - cbn [lset length]. rewrite Bool.andb_false_r. reflexivity.
  - destruct i as [|i]; destruct u as [|u]; cbn [lset nth_error length]; try reflexivity.
    rewrite IH. reflexivity.
Qed.

Lemma nth_error_lset_eq {A} (l : list A) i x : i < length l -> nth_error (lset l i x) i = Some x.
Proof.
  intros H. rewrite nth_error_lset, Nat.eqb_refl. destruct (Nat.ltb_spec i (length l)); [reflexivity|lia].
Qed.

Lemma nth_error_lset_neq {A} (l : list A) i x u : u <> i -> nth_error (lset l i x) u = nth_error l u.
Proof.
  intros H. rewrite nth_error_lset. destruct (Nat.eqb_spec u i); [contradiction|reflexivity].
Qed.

Lemma nth_lset_eq {A} (l : list A) i x d : i < length l -> nth i (lset l i x) d = x.
Proof. intros H. apply nth_error_nth. apply nth_error_lset_eq. exact H. Qed.
Lemma nth_lset_neq {A} (l : list A) i x u d : u <> i -> nth u (lset l i x) d = nth u l d.
Proof. intros H. apply nth_eq_of_nth_error. apply nth_error_lset_neq. exact H. Qed.
Lemma lset_same {A} (l : list A) i x : nth_error l i = Some x -> lset l i x = l.
Proof.
  intros H. apply nth_error_ext. intros u. rewrite nth_error_lset.
  destruct (Nat.eqb_spec u i) as [->|]; [|reflexivity].
  destruct (Nat.ltb_spec i (length l)); cbn [andb]; [symmetry; exact H | reflexivity].
Qed.

Lemma lset_nth {A} (l : list A) i d : lset l i (nth i l d) = l.
Proof.
  destruct (Nat.lt_ge_cases i (length l)) as [H|H].
  - apply lset_same. apply nth_error_nth'. exact H.
  - apply nth_error_ext. intros u. rewrite nth_error_lset.
    destruct (Nat.ltb_spec i (length l)); [lia|]. rewrite Bool.andb_false_r. reflexivity.
Qed.

Lemma lset_lset {A} (l : list A) i x y : lset (lset l i x) i y = lset l i y.
Proof.
  apply nth_error_ext. intros u. rewrite !nth_error_lset, lset_length.
  destruct ((u =? i) && (i <? length l)); reflexivity.
Qed.

Lemma lset_app_l {A} (a b : list A) : forall i x, i < length a -> lset (a ++ b) i x = lset a i x ++ b.
Proof.
  induction a as [|h a IH]; intros [|i] x H; cbn [length] in H; try lia; cbn [app lset]; [reflexivity|].
  rewrite IH by lia. reflexivity.
Qed.

Lemma lset_app_r {A} (a b : list A) i x : lset (a ++ b) (length a + i) x = a ++ lset b i x.
Proof. induction a as [|h a IH]; [reflexivity|]. cbn [app length Nat.add lset]. rewrite IH. reflexivity. Qed.
Lemma Forall_lset {A} (P : A -> Prop) (l : list A) : forall i x, Forall P l -> P x -> Forall P (lset l i x).
Proof.
  induction l as [|h t IH]; intros [|i] x Hl Hx; cbn [lset]; try exact Hl; inversion Hl; subst; constructor; auto.
Qed.

Lemma upd_opt_lset {A} (l : list A) : forall i x, i < length l -> upd_opt l i x = Some (lset l i x).
Proof.
  induction l as [|h t IH]; intros [|i] x H; cbn [length] in H; try lia; cbn [upd_opt lset]; [reflexivity|].
  rewrite IH by lia. reflexivity.
Qed.

Lemma upd_opt_none {A} (l : list A) : forall i x, length l <= i -> upd_opt l i x = None.
Proof.
  induction l as [|h t IH]; intros [|i] x H; cbn [length] in H; try lia; cbn [upd_opt]; try reflexivity.
  rewrite IH by lia. reflexivity.
Qed.

Lemma upd_lset {A} s (l : list A) i x : i < length l -> upd s l i x = Ok (lset l i x).
Proof. intros H. unfold upd. rewrite upd_opt_lset by exact H. reflexivity. Qed.
Lemma upd_ok_inv {A} s (l : list A) i x l' : upd s l i x = Ok l' -> i < length l /\ l' = lset l i x.
Proof.
  unfold upd. intros H. destruct (Nat.lt_ge_cases i (length l)) as [L|L].
  - rewrite upd_opt_lset in H by exact L. inversion H. split; [exact L|reflexivity].
  - rewrite upd_opt_none in H by exact L. discriminate.
Qed.

Lemma upd_length {A} s (l : list A) i x l' : upd s l i x = Ok l' -> length l' = length l.
Proof. intros H. apply upd_ok_inv in H as [_ ->]. apply lset_length. Qed.
Lemma upd_mid {A} s (a : list A) c b x : upd s (a ++ c :: b) (length a) x = Ok (a ++ x :: b).
Proof.
  rewrite upd_lset by (rewrite app_length; cbn [length]; lia). f_equal.
  induction a as [|h a IH]; [reflexivity|]. cbn [app length lset]. rewrite IH. reflexivity.
Qed.

Fixpoint lset_all {A} (l : list A) (idxs : list nat) (x : A) : list A :=
  match idxs with
  | [] => l
  | j :: rest => lset_all (lset l j x) rest x
  end.

Lemma lset_all_length {A} idxs : forall (l : list A) x, length (lset_all l idxs x) = length l.
Proof. induction idxs as [|j r IH]; intros l x; cbn [lset_all]; [reflexivity|]. rewrite IH, lset_length. reflexivity. Qed.
Lemma lset_all_app {A} i1 i2 : forall (l : list A) x, lset_all l (i1 ++ i2) x = lset_all (lset_all l i1 x) i2 x.
Proof. induction i1 as [|j r IH]; intros l x; cbn [lset_all app]; [reflexivity|]. apply IH. Qed.
Lemma nth_error_lset_all_in {A} idxs : forall (l : list A) x u,
  In u idxs -> u < length l -> nth_error (lset_all l idxs x) u = Some x.
Proof.
  induction idxs as [|j r IH]; intros l x u Hin Hu; [destruct Hin|].
  cbn [lset_all].
  destruct (in_dec Nat.eq_dec u r) as [Hr|Hr].
  - apply IH; [exact Hr | rewrite lset_length; exact Hu].
  - destruct Hin as [->|Hin]; [|contradiction].
    clear IH. revert l Hu. induction r as [|j2 r2 IH2]; intros l Hu.
    + cbn [lset_all]. apply nth_error_lset_eq. exact Hu.
    + cbn [lset_all].
      assert (u <> j2) by (intros ->; apply Hr; left; reflexivity).
      assert (Hr2 : ~ In u r2) by (intros H2; apply Hr; right; exact H2).
      specialize (IH2 Hr2).
      (* once [x] is at [u], further writes of [x] leave it there *)
      assert (G : forall (m : list A), nth_error m u = Some x -> nth_error (lset_all m r2 x) u = Some x).
      { clear -Hr2. induction r2 as [|j3 r3 IH3]; intros m Hm; cbn [lset_all]; [exact Hm|].
        apply IH3; [intros H; apply Hr2; right; exact H|].
        rewrite nth_error_lset. destruct ((u =? j3) && (j3 <? length m)); [reflexivity|exact Hm]. }
      apply G. rewrite nth_error_lset_neq by assumption. apply nth_error_lset_eq. exact Hu.
Qed.

Lemma nth_error_lset_all_notin {A} idxs : forall (l : list A) x u,
  ~ In u idxs -> nth_error (lset_all l idxs x) u = nth_error l u.
Proof.
  induction idxs as [|j r IH]; intros l x u Hin; cbn [lset_all]; [reflexivity|].
  rewrite IH by (intros H; apply Hin; right; exact H).
  apply nth_error_lset_neq. intros ->. apply Hin. left. reflexivity.
Qed.

Lemma nth_lset_all_in {A} (l : list A) idxs x u d :
  In u idxs -> u < length l -> nth u (lset_all l idxs x) d = x.
Proof. intros H1 H2. apply nth_error_nth. apply nth_error_lset_all_in; assumption. Qed.
Lemma nth_lset_all_notin {A} (l : list A) idxs x u d :
  ~ In u idxs -> nth u (lset_all l idxs x) d = nth u l d.
Proof. intros H. apply nth_eq_of_nth_error. apply nth_error_lset_all_notin. exact H. Qed.
Lemma lset_all_app_l {A} (b : list A) idxs : forall (a : list A) x,
  (forall j, In j idxs -> j < length a) -> lset_all (a ++ b) idxs x = lset_all a idxs x ++ b.
Proof.
  induction idxs as [|j r IH]; intros a x H; cbn [lset_all]; [reflexivity|].
  rewrite lset_app_l by (apply H; left; reflexivity).
  apply IH. intros j' Hj'. rewrite lset_length. apply H. right. exact Hj'.
Qed.

Lemma Forall_lset_all {A} (P : A -> Prop) idxs : forall (l : list A) x, Forall P l -> P x -> Forall P (lset_all l idxs x).
Proof. induction idxs as [|j r IH]; intros l x Hl Hx; cbn [lset_all]; [exact Hl|]. apply IH; [apply Forall_lset|]; assumption. Qed.

Lemma set_all_lset_all {A} s idxs : forall (l : list A) x,
  (forall j, In j idxs -> j < length l) -> set_all s l idxs x = Ok (lset_all l idxs x).
Proof.
  induction idxs as [|j r IH]; intros l x H; cbn [set_all lset_all]; [reflexivity|].
  rewrite upd_lset by (apply H; left; reflexivity). cbn [bind].
  apply IH. intros j' Hj'. rewrite lset_length. apply H. right. exact Hj'.
Qed.

Lemma set_all_ok_inv {A} s idxs : forall (l : list A) x l',
  set_all s l idxs x = Ok l' -> (forall j, In j idxs -> j < length l) /\ l' = lset_all l idxs x.
Proof.
  induction idxs as [|j r IH]; intros l x l' H; cbn [set_all lset_all] in *.
  - inversion H. split; [intros j []|reflexivity].
  - apply bind_ok in H as (l1 & H1 & H2). apply upd_ok_inv in H1 as [Hj ->].
    apply IH in H2 as [Hr ->]. split; [|reflexivity].
    intros j' [<-|Hj']; [exact Hj|]. specialize (Hr j' Hj'). rewrite lset_length in Hr. exact Hr.
Qed.

Lemma set_all_length {A} s idxs (l : list A) x l' : set_all s l idxs x = Ok l' -> length l' = length l.
Proof. intros H. apply set_all_ok_inv in H as [_ ->]. apply lset_all_length. Qed.

Lemma slice_ok {A} s (l : list A) a b : a <= b -> b <= length l -> slice s l a b = Ok (firstn (b - a) (skipn a l)).
Proof.
  intros Hab Hb. unfold slice. destruct (Nat.leb_spec a b); [|lia]. destruct (Nat.leb_spec b (length l)); [|lia]. reflexivity.
Qed.

Lemma slice_ok_inv {A} s (l : list A) a b r : slice s l a b = Ok r -> a <= b /\ b <= length l /\ r = firstn (b - a) (skipn a l).
Proof.
  unfold slice. destruct (Nat.leb_spec a b); [|discriminate]. destruct (Nat.leb_spec b (length l)); [|discriminate].
  intros E. inversion E. auto.
Qed.

Lemma slice_length {A} s (l : list A) a b l' : slice s l a b = Ok l' -> length l' = b - a /\ a <= b /\ b <= length l.
Proof.
  intros H. apply slice_ok_inv in H as (H1 & H2 & ->). rewrite firstn_length, skipn_length. lia.
Qed.

Lemma set_range_ok {A} s (l : list A) a b x : a <= b -> b <= length l ->
  set_range s l a b x = Ok (firstn a l ++ repeat x (b - a) ++ skipn b l).
Proof.
  intros Hab Hb. unfold set_range. destruct (Nat.leb_spec a b); [|lia]. destruct (Nat.leb_spec b (length l)); [|lia]. reflexivity.
Qed.

Lemma set_range_ok_inv {A} s (l : list A) a b x r : set_range s l a b x = Ok r ->
  a <= b /\ b <= length l /\ r = firstn a l ++ repeat x (b - a) ++ skipn b l.
Proof.
  unfold set_range. destruct (Nat.leb_spec a b); [|discriminate]. destruct (Nat.leb_spec b (length l)); [|discriminate].
  intros E. inversion E. auto.
Qed.

Lemma set_range_length {A} s (l : list A) a b x l' : set_range s l a b x = Ok l' -> length l' = length l.
Proof.
  intros H. apply set_range_ok_inv in H as (H1 & H2 & ->).
  rewrite !app_length, repeat_length, firstn_length, skipn_length. lia.
Qed.

Lemma set_range_lset_all {A} s (l : list A) a b x : a <= b -> b <= length l ->
  set_range s l a b x = Ok (lset_all l (range a b) x).
Proof.
  intros Hab Hb. rewrite set_range_ok by assumption. f_equal. apply nth_error_ext. intros u.
  destruct (Nat.lt_ge_cases u a) as [H1|H1]; [|destruct (Nat.lt_ge_cases u b) as [H2|H2]].
  - rewrite nth_error_lset_all_notin by (rewrite in_range; lia).
    rewrite nth_error_app1 by (rewrite firstn_length; lia). apply nth_error_firstn_lt, H1.
  - rewrite nth_error_lset_all_in by (rewrite ?in_range; lia).
    rewrite nth_error_app2 by (rewrite firstn_length; lia). rewrite firstn_length, Nat.min_l by lia.
    rewrite nth_error_app1 by (rewrite repeat_length; lia). apply nth_error_repeat. lia.
  - rewrite nth_error_lset_all_notin by (rewrite in_range; lia).
    rewrite nth_error_app2 by (rewrite firstn_length; lia). rewrite firstn_length, Nat.min_l by lia.
    rewrite nth_error_app2 by (rewrite repeat_length; lia). rewrite repeat_length, nth_error_skipn.
    f_equal. lia.
Qed.

Lemma set_range_lset_all_inv {A} s (l : list A) a b x r : set_range s l a b x = Ok r ->
  a <= b /\ b <= length l /\ r = lset_all l (range a b) x.
Proof.
  intros H. pose proof (set_range_ok_inv _ _ _ _ _ _ H) as (Hab & Hb & _).
  rewrite set_range_lset_all in H by assumption. inversion H. auto.
Qed.

