(* Proofs/C13Final.v — C13 ("isolates isolate") in final (judge) form: an assembly of
     C01 at character level (the model's levels are the specification's),
     C02 in final form (the paragraph levels are the specification's),
     length independence (the level vector is the per-unit expansion of the character-level one),
     C13 at the level of the specification (c13_full: resolved levels outside the pair agree).
   Steps: (1) each text is one paragraph, so its per-character levels are
   [fill_removed pl (snd (resolve_paragraph ...))] of the whole class list; (2) [fill_removed] outside
   the pair depends on the resolved levels outside only (the PDI is kept by X9, hence carries a level);
   (3) expansion to units: [firstn pu] / [lastn su] of the unit vectors.
   The suffix _f marks the lemmas of this file. *)
From BidiVerif Require Import Base ModelText ModelResolve Spec Obs Judge Stmts2 Stmts5 Stmts6 Stmts7.
From BidiVerif.Proofs Require Import Units.
From BidiVerif.Proofs Require Import JudgeEqb ObsValid ExplicitSteps C01Assemble C13Text.

Lemma fill_app_f : forall a p b,
  exists p', fill_removed p (a ++ b) = fill_removed p a ++ fill_removed p' b.
Proof.
  induction a as [|[x|] a IH]; intros p b; cbn [app fill_removed].
  - exists p. reflexivity.
  - destruct (IH x b) as [p' E]. exists p'. rewrite E. reflexivity.
  - destruct (IH p b) as [p' E]. exists p'. rewrite E. reflexivity.
Qed.

(* the levels after a kept character do not depend on what precedes it *)
Lemma fill_shape_f pl A M x Z : exists VM, length VM = length M /\
  fill_removed pl (A ++ M ++ Some x :: Z) = fill_removed pl A ++ VM ++ x :: fill_removed x Z.
Proof.
  destruct (fill_app_f A pl (M ++ Some x :: Z)) as [p1 E1].
  destruct (fill_app_f M p1 (Some x :: Z)) as [p2 E2].
  exists (fill_removed p1 M). split; [apply fill_removed_length|].
  rewrite E1, E2. reflexivity.
Qed.

Lemma split3_f {A} (R : list A) na m nz : length R = na + m + nz ->
  exists X M Z, R = X ++ M ++ Z /\ length X = na /\ length M = m /\ length Z = nz.
Proof.
  intros H. exists (firstn na R), (firstn m (skipn na R)), (skipn m (skipn na R)).
  rewrite !firstn_skipn. split; [reflexivity|].
  rewrite !firstn_length, !skipn_length. lia.
Qed.

Lemma nth_app3_l {A} (X M Z : list A) d j : j < length X -> nth j (X ++ M ++ Z) d = nth j X d.
Proof. intros H. apply app_nth1. exact H. Qed.

Lemma nth_app3_r {A} (X M Z : list A) d j :
  nth (length X + length M + j) (X ++ M ++ Z) d = nth j Z d.
Proof.
  rewrite app_nth2 by lia. rewrite app_nth2 by lia. f_equal. lia.
Qed.

Lemma outside_fill_f pl (R1 R2 : list (option nat)) na m1 m2 nz :
  length R1 = na + m1 + S nz -> length R2 = na + m2 + S nz ->
  (forall j, j < na -> nth j R1 None = nth j R2 None) ->
  (forall j, j <= nz -> nth (na + m1 + j) R1 None = nth (na + m2 + j) R2 None) ->
  nth (na + m1) R1 None <> None ->
  exists VA VM1 VM2 VZ,
    fill_removed pl R1 = VA ++ VM1 ++ VZ /\ fill_removed pl R2 = VA ++ VM2 ++ VZ /\
    length VA = na /\ length VM1 = m1 /\ length VM2 = m2 /\ length VZ = S nz.
Proof.
  intros L1 L2 HA HZ HQ.
  destruct (split3_f R1 na m1 (S nz) L1) as (A1 & M1 & Z1 & E1 & LA1 & LM1 & LZ1).
  destruct (split3_f R2 na m2 (S nz) L2) as (A2 & M2 & Z2 & E2 & LA2 & LM2 & LZ2).
  assert (EA : A1 = A2).
  { apply (nth_ext _ _ None None); [lia|]. intros j Hj.
    rewrite <- (nth_app3_l A1 M1 Z1 None j Hj), <- (nth_app3_l A2 M2 Z2 None j) by lia.
    rewrite <- E1, <- E2. apply HA. lia. }
  assert (EZ : Z1 = Z2).
  { apply (nth_ext _ _ None None); [lia|]. intros j Hj.
    rewrite <- (nth_app3_r A1 M1 Z1 None j), <- (nth_app3_r A2 M2 Z2 None j).
    rewrite <- E1, <- E2, LA1, LM1, LA2, LM2. apply HZ. lia. }
  subst A2 Z2.
  destruct Z1 as [|z Z]; [cbn [length] in LZ1; lia|].
  assert (Hz : z <> None).
  { intros ->. apply HQ. rewrite E1.
    replace (na + m1) with (length A1 + length M1 + 0) by lia.
    rewrite nth_app3_r. reflexivity. }
  destruct z as [x|]; [|congruence].
  destruct (fill_shape_f pl A1 M1 x Z) as (V1 & LV1 & F1).
  destruct (fill_shape_f pl A1 M2 x Z) as (V2 & LV2 & F2).
  exists (fill_removed pl A1), V1, V2, (x :: fill_removed x Z).
  rewrite E1, E2. split; [exact F1|]. split; [exact F2|].
  rewrite fill_removed_length. cbn [length] in *. rewrite fill_removed_length. lia.
Qed.

Lemma firstn_expand3_f (LA LM LZ VA VM VZ : list nat) :
  length LA = length VA -> length LM = length VM -> length LZ = length VZ ->
  firstn (total LA) (expand (LA ++ LM ++ LZ) (VA ++ VM ++ VZ)) = expand LA VA /\
  lastn (total LZ) (expand (LA ++ LM ++ LZ) (VA ++ VM ++ VZ)) = expand LZ VZ /\
  length (expand (LA ++ LM ++ LZ) (VA ++ VM ++ VZ)) = total LA + total LM + total LZ.
Proof.
  intros HA HM HZ.
  rewrite !expand_app by assumption.
  pose proof (expand_length LA VA (eq_sym HA)) as EA.
  pose proof (expand_length LM VM (eq_sym HM)) as EM.
  pose proof (expand_length LZ VZ (eq_sym HZ)) as EZ.
  split; [|split].
  - rewrite <- EA. rewrite firstn_app, Nat.sub_diag, firstn_all. cbn [firstn]. apply app_nil_r.
  - unfold lastn. rewrite !app_length, EA, EM, EZ.
    replace (total LA + (total LM + total LZ) - total LZ) with (length (expand LA VA ++ expand LM VM))
      by (rewrite app_length; lia).
    rewrite app_assoc. rewrite skipn_app, Nat.sub_diag, skipn_all. reflexivity.
  - rewrite !app_length. lia.
Qed.

Lemma split_one_f {A} (cls : A -> bclass) : forall l cur,
  single_para (map cls l) -> cur ++ l <> [] -> split_paragraphs_from cls cur l = [cur ++ l].
Proof.
  induction l as [|x r IH]; intros cur Hs Hne; cbn [split_paragraphs_from].
  - rewrite app_nil_r in *. destruct cur; [congruence|reflexivity].
  - destruct (cls x =c B) eqn:E.
    + destruct r as [|y r]; [reflexivity|]. exfalso.
      apply (Hs 0); [cbn [map length]; lia|]. cbn [map nth]. apply ceq_eq. exact E.
    + replace (cur ++ x :: r) with ((cur ++ [x]) ++ r) by (rewrite <- app_assoc; reflexivity).
      apply IH.
      * intros i Hi. apply (Hs (S i)). cbn [map length] in *. lia.
      * destruct cur; discriminate.
Qed.

Section OnePara.
Variable c : tcase.
Let ds := tc_ds c.
Let d := tc_dir c.
Let chars := case_chars c.
Let cl := fun ch : N * nat => ds_class ds (fst ch).
Hypothesis Hone : single_para (map cl chars).
Hypothesis Hne : chars <> [].

Lemma split_chars_f : split_paragraphs cl chars = [chars].
Proof. unfold split_paragraphs. apply (split_one_f cl chars [] Hone). exact Hne. Qed.

Lemma spec_text_one_f : spec_text c = [sp_of ds d 0 chars].
Proof.
  unfold spec_text. fold ds d chars cl. rewrite split_chars_f, spec_paras_from_cons. reflexivity.
Qed.

Lemma spec_single_one_f : spec_single c = [sp_of ds d 0 chars].
Proof.
  unfold spec_single. fold ds d chars. destruct chars as [|ch r] eqn:E; [congruence|].
  rewrite spec_paras_from_cons. reflexivity.
Qed.

Lemma is_single_one_f : is_single_paragraph c = true.
Proof. unfold is_single_paragraph. rewrite spec_text_one_f. reflexivity. Qed.
End OnePara.

Lemma paras_follow_one_f s ps : paras_follow_spec [s] ps = true -> map p_level ps = [sp_level s].
Proof.
  unfold paras_follow_spec. destruct ps as [|q [|q2 r]]; cbn [list_eqb2]; try discriminate.
  - intros H. apply andb_true_iff in H as [H _]. apply andb_true_iff in H as [_ H].
    apply Nat.eqb_eq in H. cbn [map]. rewrite H. reflexivity.
  - rewrite andb_false_r. discriminate.
Qed.

(* the observation of a valid one-paragraph case: C01 and C02 in final form, read as equations *)
Lemma case_single_f (HC : C01_char) (H2 : C02_final) c :
  valid_case c ->
  let ds := tc_ds c in let d := tc_dir c in let chars := case_chars c in
  let cl := fun ch : N * nat => ds_class ds (fst ch) in
  single_para (map cl chars) -> chars <> [] ->
  exists b p,
    to_bi (model_obs false c) = Ok b /\ to_pi (model_obs false c) = Ok p /\
    bi_levels b = expand (map snd chars) (sp_levels (sp_of ds d 0 chars)) /\
    pb_levels p = expand (map snd chars) (sp_levels (sp_of ds d 0 chars)) /\
    map p_level (bi_paras b) = [para_level (map cl chars) d] /\
    pb_level p = para_level (map cl chars) d.
Proof.
  intros Hvc ds d chars cl Hone Hne.
  destruct (valid_obs c Hvc) as (b' & p' & lns & CA & _ & E).
  pose proof (c01_final_from HC c Hvc) as J1. pose proof (H2 c Hvc) as J2.
  unfold C01_judge in J1. unfold C02_judge in J2.
  rewrite (is_single_one_f c Hone Hne), (spec_text_one_f c Hone Hne), (spec_single_one_f c Hone Hne), E in J1, J2.
  cbn [lift_obs to_bi to_pi okb xbi xpi bi_levels pb_levels] in J1, J2. fold ds d chars in J1, J2.
  pose proof Hvc as (_ & Hv & _).
  set (lens := map snd (view_of (tc_enc c) (tc_text c))) in *.
  assert (El : flat_map sp_lens [sp_of ds d 0 chars] = lens) by apply app_nil_r.
  assert (Hpos : Forall (fun n => 0 < n) (flat_map sp_lens [sp_of ds d 0 chars]))
    by (rewrite El; exact (fl_lens_pos _ _ Hv)).
  assert (Hk : length lens = length (map fst (view_of (tc_enc c) (tc_text c)))) by (unfold lens; rewrite !map_length; reflexivity).
  rewrite <- El in J1. apply andb_true_iff in J1 as [L1 L2].
  apply lfs_expand_inv in L1; [|exact Hpos | rewrite El, Hk; symmetry; apply CA].
  apply lfs_expand_inv in L2; [|exact Hpos | rewrite El, Hk; symmetry; apply CA].
  cbn [flat_map] in L1, L2. rewrite app_nil_r in L1, L2.
  exists (xbi lens b'), (xpi lens p'). rewrite E.
  split; [reflexivity|]. split; [reflexivity|].
  split; [cbn [xbi bi_levels]; rewrite <- L1; reflexivity|].
  split; [cbn [xpi pb_levels]; rewrite <- L2; reflexivity|].
  apply andb_true_iff in J2 as [J J3]. apply andb_true_iff in J as [_ J].
  apply andb_true_iff in J as [_ J]. apply andb_true_iff in J3 as [_ J3].
  split; [exact (paras_follow_one_f _ _ J) | apply Nat.eqb_eq in J3; exact J3].
Qed.

Lemma resolved_some_f cls brk dir i : i < length cls -> is_removed (nth i cls BN) = false ->
  nth i (snd (resolve_paragraph cls brk dir)) None <> None.
Proof.
  intros Hi Hr. unfold resolve_paragraph.
  pose proof (x_run_level_some cls (para_level cls dir) cls
                {| x_stack := [(para_level cls dir, ONone, false)]; x_oi := 0; x_oe := 0; x_vi := 0 |}
                0 i Hi Hr) as Hx.
  fold (explicit_levels cls (para_level cls dir)) in Hx.
  destruct (explicit_levels cls (para_level cls dir)) as [xlev xcls]. cbn [fst snd] in *.
  match goal with |- nth i (map ?f _) None <> None =>
    rewrite (nth_indep _ None (f 0)) by (rewrite map_length, seq_length; exact Hi);
    rewrite (map_nth f) end.
  rewrite seq_nth by exact Hi. cbn [Nat.add]. unfold snth. rewrite Hr.
  destruct (assoc_nat i _); [discriminate|exact Hx].
Qed.

Theorem c13_final_from : C01_char -> C02_final -> C13_full -> C13_final.
Proof.
  intros HC H2 HF c1 c2 pu su Hv1 Hv2
         (Eenc & Eds & Edir & P & Sf & X1 & X2 & I & Q & E1 & E2 & Epu & Esu & Hh).
  cbv zeta in Hh. destruct Hh as (HQ & Hh).
  set (ds := tc_ds c1) in *. set (d := tc_dir c1) in *.
  set (cl := fun ch : N * nat => ds_class ds (fst ch)) in *.
  set (br := fun ch : N * nat => ds_bracket ds (fst ch)) in *.
  change (cl Q = PDI) in HQ.
  pose proof (HF (map cl P) (map cl Sf) (map cl X1) (map cl X2) (cl I)
                 (map br P) (map br Sf) (map br X1) (map br X2) (br I) (br Q) d Hh) as [Hpl Hout].
  unfold c13_hyps in Hh. destruct Hh as (Hini & _ & _ & _ & _ & Hs1 & Hs2 & _).
  set (t1 := map cl P ++ [cl I] ++ map cl X1 ++ [PDI] ++ map cl Sf) in *.
  set (t2 := map cl P ++ [cl I] ++ map cl X2 ++ [PDI] ++ map cl Sf) in *.
  set (k1 := map br P ++ [br I] ++ map br X1 ++ [br Q] ++ map br Sf) in *.
  set (k2 := map br P ++ [br I] ++ map br X2 ++ [br Q] ++ map br Sf) in *.
  assert (Ec1 : map cl (case_chars c1) = t1)
    by (rewrite E1, !map_app; cbn [map]; rewrite HQ; reflexivity).
  assert (Ec2 : map cl (case_chars c2) = t2)
    by (rewrite E2, !map_app; cbn [map]; rewrite HQ; reflexivity).
  assert (Ek1 : map br (case_chars c1) = k1) by (rewrite E1, !map_app; reflexivity).
  assert (Ek2 : map br (case_chars c2) = k2) by (rewrite E2, !map_app; reflexivity).
  destruct (case_single_f HC H2 c1 Hv1) as (b1 & p1 & Ob1 & Op1 & Lb1 & Lp1 & Pb1 & Pp1).
  { fold ds cl. rewrite Ec1. exact Hs1. }
  { rewrite E1. destruct P; discriminate. }
  destruct (case_single_f HC H2 c2 Hv2) as (b2 & p2 & Ob2 & Op2 & Lb2 & Lp2 & Pb2 & Pp2).
  { rewrite Eds. fold ds cl. rewrite Ec2. exact Hs2. }
  { rewrite E2. destruct P; discriminate. }
  rewrite Eds, Edir in Lb2, Lp2, Pb2, Pp2. fold ds d cl in Lb1, Lp1, Pb1, Pp1, Lb2, Lp2, Pb2, Pp2.
  rewrite Ec1 in Pb1, Pp1. rewrite Ec2 in Pb2, Pp2.
  assert (Hv1' : sp_levels (sp_of ds d 0 (case_chars c1))
                 = fill_removed (para_level t1 d) (snd (resolve_paragraph t1 k1 d))).
  { unfold sp_of. cbv zeta. cbn [sp_levels]. fold cl br. rewrite Ec1, Ek1. reflexivity. }
  assert (Hv2' : sp_levels (sp_of ds d 0 (case_chars c2))
                 = fill_removed (para_level t2 d) (snd (resolve_paragraph t2 k2 d))).
  { unfold sp_of. cbv zeta. cbn [sp_levels]. fold cl br. rewrite Ec2, Ek2. reflexivity. }
  rewrite !resolve_paragraph_fst in Hpl.
  assert (Lt1 : length t1 = (length P + 1) + length X1 + S (length Sf))
    by (unfold t1; rewrite !app_length, !map_length; cbn [length]; lia).
  assert (Lt2 : length t2 = (length P + 1) + length X2 + S (length Sf))
    by (unfold t2; rewrite !app_length, !map_length; cbn [length]; lia).
  destruct (outside_fill_f (para_level t1 d) (snd (resolve_paragraph t1 k1 d)) (snd (resolve_paragraph t2 k2 d))
              (length P + 1) (length X1) (length X2) (length Sf))
    as (VA & VM1 & VM2 & VZ & F1 & F2 & LA & LM1 & LM2 & LZ).
  - rewrite resolve_paragraph_length. exact Lt1.
  - rewrite resolve_paragraph_length. exact Lt2.
  - intros j Hj. specialize (Hout j). rewrite !map_length in Hout.
    unfold outside1, outside2 in Hout. rewrite !map_length in Hout.
    assert (Hle : (j <=? length P) = true) by (apply Nat.leb_le; lia). rewrite Hle in Hout.
    apply Hout. lia.
  - intros j Hj. specialize (Hout (length P + 1 + j)). rewrite !map_length in Hout.
    unfold outside1, outside2 in Hout. rewrite !map_length in Hout.
    assert (Hle : (length P + 1 + j <=? length P) = false) by (apply Nat.leb_gt; lia). rewrite Hle in Hout.
    replace (length P + 1 + length X1 + j) with (length P + 1 + j + length X1) by lia.
    replace (length P + 1 + length X2 + j) with (length P + 1 + j + length X2) by lia.
    apply Hout. lia.
  - apply resolved_some_f; [lia|].
    unfold t1. rewrite app_nth2 by (rewrite map_length; lia). rewrite map_length.
    replace (length P + 1 + length X1 - length P) with (S (length X1)) by lia.
    cbn [app nth]. rewrite app_nth2 by (rewrite map_length; lia). rewrite map_length, Nat.sub_diag.
    reflexivity.
  - rewrite <- Hv1' in F1. rewrite Hpl, <- Hv2' in F2.
    set (LA_ := map snd (P ++ [I])). set (LZ_ := map snd (Q :: Sf)).
    assert (El1 : map snd (case_chars c1) = LA_ ++ map snd X1 ++ LZ_).
    { rewrite E1. unfold LA_, LZ_. rewrite <- !map_app. f_equal. rewrite <- app_assoc. reflexivity. }
    assert (El2 : map snd (case_chars c2) = LA_ ++ map snd X2 ++ LZ_).
    { rewrite E2. unfold LA_, LZ_. rewrite <- !map_app. f_equal. rewrite <- app_assoc. reflexivity. }
    assert (HLA : length LA_ = length VA)
      by (unfold LA_; rewrite map_length, app_length; cbn [length]; lia).
    assert (HLZ : length LZ_ = length VZ) by (unfold LZ_; rewrite map_length; cbn [length]; lia).
    destruct (firstn_expand3_f LA_ (map snd X1) LZ_ VA VM1 VZ HLA) as (Ff1 & Fl1 & Fn1);
      [rewrite map_length; lia | exact HLZ |].
    destruct (firstn_expand3_f LA_ (map snd X2) LZ_ VA VM2 VZ HLA) as (Ff2 & Fl2 & Fn2);
      [rewrite map_length; lia | exact HLZ |].
    rewrite F1, El1 in Lb1, Lp1. rewrite F2, El2 in Lb2, Lp2.
    fold LA_ in Epu. fold LZ_ in Esu.
    unfold C13_judge. rewrite Ob1, Ob2, Op1, Op2. cbn [res_rel].
    rewrite Lb1, Lb2, Lp1, Lp2, Pb1, Pb2, Pp1, Pp2, Epu, Esu.
    rewrite Ff1, Ff2, Fl1, Fl2, Fn1, Fn2, Hpl.
    rewrite !nat_list_eqb_refl, Nat.eqb_refl. cbn [andb].
    assert (G1 : (total LA_ + total LZ_ <=? total LA_ + total (map snd X1) + total LZ_) = true)
      by (apply Nat.leb_le; lia).
    assert (G2 : (total LA_ + total LZ_ <=? total LA_ + total (map snd X2) + total LZ_) = true)
      by (apply Nat.leb_le; lia).
    rewrite G1, G2. reflexivity.
Qed.

Lemma single_para_nob_f t : forallb (fun k => negb (k =c B)) t = true -> single_para t.
Proof.
  intros H i Hi E. rewrite forallb_forall in H.
  assert (Hin : In (nth i t L) t) by (apply nth_In; lia).
  specialize (H _ Hin). rewrite E in H. discriminate H.
Qed.

From BidiVerif.Props Require Import C01 Finals C13.

Lemma c13_final_proof : C13_final.
Proof. exact (c13_final_from c01_char c02_final c13_full). Qed.
