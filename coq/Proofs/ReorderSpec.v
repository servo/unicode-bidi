(* Proofs/ReorderSpec.v — rule L2 as Spec.v states it: one pass [rev_runs_ge], the passes [l2_down] from a top
   level down to a stop level, [lowest_odd], and [l2].  Elements are pairs (payload, level).
   The fact the implementations are measured against is [l2_down_normal]: the range of passes does not matter
   within bounds.  Any top level that bounds the levels and any odd stop level not above the lowest odd level give
   Spec.l2, because a pass above every level does nothing, and the passes k+1 and k cancel when no element has
   level k (an odd k below the lowest odd level). *)
From BidiVerif Require Import Base Spec.
From Coq Require Import Permutation.

Local Notation elt := (nat * nat)%type.

Lemma rrg_app_hi k hs : Forall (fun x : elt => k <= snd x) hs -> forall rest acc,
  rev_runs_ge k (hs ++ rest) acc = rev_runs_ge k rest (rev hs ++ acc).
Proof.
  induction 1 as [|x hs Hx _ IH]; intros rest acc; cbn [app rev rev_runs_ge].
  - reflexivity.
  - apply Nat.leb_le in Hx. rewrite Hx. rewrite IH. rewrite <- app_assoc. reflexivity.
Qed.

Lemma rrg_all_hi k hs acc : Forall (fun x : elt => k <= snd x) hs ->
  rev_runs_ge k hs acc = rev hs ++ acc.
Proof.
  intros H. pose proof (rrg_app_hi k hs H [] acc) as E. rewrite app_nil_r in E. exact E.
Qed.

Lemma rrg_lo k (x : elt) rest acc : snd x < k ->
  rev_runs_ge k (x :: rest) acc = acc ++ x :: rev_runs_ge k rest [].
Proof.
  intros H. cbn [rev_runs_ge]. apply Nat.leb_gt in H. rewrite H. reflexivity.
Qed.

Lemma rrg_app_lo_nil k es : Forall (fun x : elt => snd x < k) es -> forall rest,
  rev_runs_ge k (es ++ rest) [] = es ++ rev_runs_ge k rest [].
Proof.
  induction 1 as [|x es Hx _ IH]; intros rest; cbn [app].
  - reflexivity.
  - rewrite rrg_lo by exact Hx. cbn [app]. rewrite IH. reflexivity.
Qed.

Lemma rrg_app_lo k es : es <> [] -> Forall (fun x : elt => snd x < k) es -> forall rest acc,
  rev_runs_ge k (es ++ rest) acc = acc ++ es ++ rev_runs_ge k rest [].
Proof.
  intros Hne H rest acc. destruct es as [|x es]; [congruence|].
  inversion H as [|? ? Hx Hes]; subst. cbn [app].
  rewrite rrg_lo by exact Hx. rewrite rrg_app_lo_nil by exact Hes. reflexivity.
Qed.

Lemma rrg_noop k xs : Forall (fun x : elt => snd x < k) xs -> rev_runs_ge k xs [] = xs.
Proof.
  intros H. pose proof (rrg_app_lo_nil k xs H []) as E. rewrite !app_nil_r in E. exact E.
Qed.

Lemma rrg_invol_gen k xs : forall acc, Forall (fun x : elt => k <= snd x) acc ->
  rev_runs_ge k (rev_runs_ge k xs acc) [] = rev acc ++ xs.
Proof.
  induction xs as [|x r IH]; intros acc Hacc.
  - cbn [rev_runs_ge]. rewrite rrg_all_hi by exact Hacc. reflexivity.
  - cbn [rev_runs_ge]. destruct (k <=? snd x) eqn:E.
    + rewrite IH.
      * cbn [rev]. rewrite <- app_assoc. reflexivity.
      * constructor; [apply Nat.leb_le; exact E | exact Hacc].
    + apply Nat.leb_gt in E.
      rewrite rrg_app_hi by exact Hacc.
      rewrite rrg_lo by exact E.
      rewrite (IH [] (Forall_nil _)). cbn [rev app]. rewrite app_nil_r. reflexivity.
Qed.

Lemma rrg_Forall (P : elt -> Prop) k xs : forall acc,
  Forall P xs -> Forall P acc -> Forall P (rev_runs_ge k xs acc).
Proof.
  induction xs as [|x r IH]; intros acc Hx Ha; cbn [rev_runs_ge].
  - exact Ha.
  - inversion Hx as [|? ? Px Pr]; subst. destruct (k <=? snd x).
    + apply IH; [exact Pr | constructor; assumption].
    + apply Forall_app; split; [exact Ha|]. constructor; [exact Px|].
      apply IH; [exact Pr | constructor].
Qed.

Lemma rrg_perm k xs : forall acc, Permutation (rev_runs_ge k xs acc) (acc ++ xs).
Proof.
  induction xs as [|x r IH]; intros acc; cbn [rev_runs_ge].
  - rewrite app_nil_r. apply Permutation_refl.
  - destruct (k <=? snd x).
    + eapply Permutation_trans; [apply IH|]. cbn [app]. apply Permutation_middle.
    + apply Permutation_app_head, perm_skip, (IH []).
Qed.

Lemma rrg_map (g : elt -> elt) (Hg : forall x, snd (g x) = snd x) k xs : forall acc,
  map g (rev_runs_ge k xs acc) = rev_runs_ge k (map g xs) (map g acc).
Proof.
  induction xs as [|x r IH]; intros acc; cbn [rev_runs_ge map].
  - reflexivity.
  - rewrite Hg. destruct (k <=? snd x).
    + rewrite IH. reflexivity.
    + rewrite map_app. cbn [map]. rewrite IH. reflexivity.
Qed.

(* the passes at k+1 and at k split the list at the same places when no element has level k, and a pass undoes
   itself *)
Lemma rrg_ext k xs : Forall (fun x : elt => snd x <> k) xs -> forall acc,
  rev_runs_ge k xs acc = rev_runs_ge (S k) xs acc.
Proof.
  induction 1 as [|x r Hx _ IH]; intros acc; cbn [rev_runs_ge].
  - reflexivity.
  - destruct (Nat.leb_spec k (snd x)) as [A|A], (Nat.leb_spec (S k) (snd x)) as [B|B]; try lia.
    + apply IH.
    + rewrite IH. reflexivity.
Qed.

Lemma rrg_cancel k xs : Forall (fun x : elt => snd x <> k) xs ->
  rev_runs_ge k (rev_runs_ge (S k) xs []) [] = xs.
Proof.
  intros H. rewrite rrg_ext.
  - rewrite rrg_invol_gen by constructor. reflexivity.
  - apply rrg_Forall; [exact H | constructor].
Qed.

Lemma l2_down_lt K lo (xs : list elt) : K < lo -> l2_down K lo xs = xs.
Proof.
  intros H. destruct K as [|K]; cbn [l2_down]; [reflexivity|].
  apply Nat.leb_gt in H. rewrite H. reflexivity.
Qed.

Lemma l2_down_step K lo (xs : list elt) : lo <= S K ->
  l2_down (S K) lo xs = l2_down K lo (rev_runs_ge (S K) xs []).
Proof.
  intros H. cbn [l2_down]. apply Nat.leb_le in H. rewrite H. reflexivity.
Qed.

Lemma l2_down_keeps (P : elt -> Prop) K lo : forall xs, Forall P xs -> Forall P (l2_down K lo xs).
Proof.
  induction K as [|K IH]; intros xs H; cbn [l2_down]; [exact H|].
  destruct (lo <=? S K); [|exact H].
  apply IH. apply rrg_Forall; [exact H | constructor].
Qed.

Lemma l2_down_perm K lo : forall xs : list elt, Permutation (l2_down K lo xs) xs.
Proof.
  induction K as [|K IH]; intros xs; cbn [l2_down]; [apply Permutation_refl|].
  destruct (lo <=? S K); [|apply Permutation_refl].
  eapply Permutation_trans; [apply IH | apply (rrg_perm (S K) xs [])].
Qed.

Lemma l2_down_map (g : elt -> elt) (Hg : forall x, snd (g x) = snd x) K lo : forall xs,
  map g (l2_down K lo xs) = l2_down K lo (map g xs).
Proof.
  induction K as [|K IH]; intros xs; cbn [l2_down]; [reflexivity|].
  destruct (lo <=? S K); [|reflexivity].
  rewrite IH. rewrite (rrg_map g Hg). reflexivity.
Qed.

Lemma l2_down_raise K K' lo (xs : list elt) : K <= K' -> Forall (fun x => snd x <= K) xs ->
  l2_down K' lo xs = l2_down K lo xs.
Proof.
  intros L H. induction L as [|K' L IH]; [reflexivity|].
  destruct (le_lt_dec lo (S K')) as [A|A].
  - rewrite l2_down_step by exact A. rewrite rrg_noop; [exact IH|].
    eapply Forall_impl; [|exact H]. cbn beta. intros x Hx. lia.
  - rewrite l2_down_lt by exact A. rewrite l2_down_lt by lia. reflexivity.
Qed.

(* the passes lo'+2d-1 .. lo' cancel in pairs when no element has an odd level below lo'+2d *)
Lemma l2_down_pairs d : forall lo' (ys : list elt), Nat.odd lo' = true ->
  Forall (fun x => Nat.odd (snd x) = true -> lo' + 2 * d <= snd x) ys ->
  l2_down (lo' + 2 * d - 1) lo' ys = ys.
Proof.
  induction d as [|d IH]; intros lo' ys Hodd H.
  - apply l2_down_lt. destruct lo'; [discriminate | lia].
  - replace (lo' + 2 * S d - 1) with (S (lo' + 2 * d)) by lia.
    rewrite l2_down_step by lia.
    replace (lo' + 2 * d) with (S (lo' + 2 * d - 1)) at 1 by (destruct lo'; [discriminate | lia]).
    rewrite l2_down_step by lia.
    replace (S (lo' + 2 * d - 1)) with (lo' + 2 * d) by (destruct lo'; [discriminate | lia]).
    rewrite rrg_cancel.
    + apply IH; [exact Hodd|]. eapply Forall_impl; [|exact H]. cbn beta. intros x Hx Ho.
      specialize (Hx Ho). lia.
    + eapply Forall_impl; [|exact H]. cbn beta. intros x Hx E.
      rewrite E, Nat.odd_add_mul_2 in Hx. specialize (Hx Hodd). lia.
Qed.

Lemma l2_down_stop K : forall (xs : list elt) lo' lo,
  Nat.odd lo' = true -> Nat.odd lo = true -> lo' <= lo -> lo - 1 <= K ->
  Forall (fun x => Nat.odd (snd x) = true -> lo <= snd x) xs ->
  l2_down K lo' xs = l2_down K lo xs.
Proof.
  induction K as [|K IH]; intros xs lo' lo O1 O2 L1 L2 H.
  - reflexivity.
  - destruct (le_lt_dec lo (S K)) as [A|A].
    + rewrite !l2_down_step by lia. apply IH; try assumption; try lia.
      apply rrg_Forall; [exact H | constructor].
    + rewrite (l2_down_lt (S K) lo) by exact A.
      apply Nat.odd_spec in O1 as [p ->]. apply Nat.odd_spec in O2 as [q ->].
      replace (S K) with (2 * p + 1 + 2 * (q - p) - 1) by lia.
      apply l2_down_pairs; [rewrite Nat.odd_spec; exists p; reflexivity|].
      eapply Forall_impl; [|exact H]. cbn beta. intros x Hx Ho. specialize (Hx Ho). lia.
Qed.

Lemma lowest_odd_spec lv :
  match lowest_odd lv with
  | None => Forall (fun l => Nat.odd l = false) lv
  | Some lo => Nat.odd lo = true /\ In lo lv /\ Forall (fun l => Nat.odd l = true -> lo <= l) lv
  end.
Proof.
  unfold lowest_odd. induction lv as [|x lv IH] using rev_ind; [constructor|].
  rewrite fold_left_app. cbn [fold_left]. destruct (Nat.odd x) eqn:Ox.
  - destruct (fold_left _ lv None) as [m|].
    + destruct IH as (Om & Im & Fm).
      destruct (Nat.min_spec m x) as [[L ->]|[L ->]].
      * split; [exact Om|]. split; [apply in_or_app; left; exact Im|].
        apply Forall_app. split; [exact Fm|]. constructor; [lia | constructor].
      * split; [exact Ox|]. split; [apply in_or_app; right; left; reflexivity|].
        apply Forall_app. split; [|constructor; [lia | constructor]].
        eapply Forall_impl; [|exact Fm]. cbn beta. intros l Hl Ol. specialize (Hl Ol). lia.
    + split; [exact Ox|]. split; [apply in_or_app; right; left; reflexivity|].
      apply Forall_app. split; [|constructor; [lia | constructor]].
      eapply Forall_impl; [|exact IH]. cbn beta. intros l Hl Ol. congruence.
  - destruct (fold_left _ lv None) as [m|].
    + destruct IH as (Om & Im & Fm). split; [exact Om|]. split; [apply in_or_app; left; exact Im|].
      apply Forall_app. split; [exact Fm|]. constructor; [congruence | constructor].
    + apply Forall_app. split; [exact IH|]. constructor; [exact Ox | constructor].
Qed.

Lemma lowest_odd_all_even lv : forallb Nat.even lv = true -> lowest_odd lv = None.
Proof.
  intros H. pose proof (lowest_odd_spec lv) as S. destruct (lowest_odd lv) as [lo|]; [|reflexivity].
  destruct S as (O & I & _). rewrite forallb_forall in H. specialize (H lo I).
  rewrite <- Nat.negb_even, H in O. discriminate.
Qed.

Lemma fold_max_ge l : forall acc,
  acc <= fold_left Nat.max l acc /\ Forall (fun x => x <= fold_left Nat.max l acc) l.
Proof.
  induction l as [|x r IH]; intros acc; cbn [fold_left].
  - split; [lia | constructor].
  - destruct (IH (Nat.max acc x)) as [A B]. split; [lia|]. constructor; [lia | exact B].
Qed.

Lemma fold_max_le K l : Forall (fun x => x <= K) l -> forall acc, acc <= K -> fold_left Nat.max l acc <= K.
Proof. induction 1 as [|x r Hx _ IH]; intros acc Ha; cbn [fold_left]; [exact Ha|]. apply IH. lia. Qed.

Lemma combine_seq_fst (lv : list nat) : map fst (combine (seq 0 (length lv)) lv) = seq 0 (length lv).
Proof.
  generalize 0. induction lv as [|l lv IH]; intros s; [reflexivity|]. cbn. f_equal. apply IH.
Qed.

Lemma combine_seq_snd (lv : list nat) : map snd (combine (seq 0 (length lv)) lv) = lv.
Proof.
  generalize 0. induction lv as [|l lv IH]; intros s; [reflexivity|]. cbn. f_equal. apply IH.
Qed.

Lemma l2_down_normal K lo' lv :
  Forall (fun l => l <= K) lv -> Nat.odd lo' = true -> Forall (fun l => Nat.odd l = true -> lo' <= l) lv ->
  map fst (l2_down K lo' (combine (seq 0 (length lv)) lv)) = l2 lv.
Proof.
  intros HK Ho Hlo. unfold l2. pose proof (lowest_odd_spec lv) as S.
  set (xs := combine (seq 0 (length lv)) lv).
  assert (X : forall P : nat -> Prop, Forall P lv -> Forall (fun x : elt => P (snd x)) xs).
  { intros P H. apply Forall_map. unfold xs. rewrite combine_seq_snd. exact H. }
  destruct (lowest_odd lv) as [lo|].
  - destruct S as (O & I & F).
    assert (lo' <= lo <= K) as [L1 L2] by (rewrite Forall_forall in HK, Hlo; auto).
    rewrite (l2_down_stop K xs lo' lo Ho O L1) by (lia || exact (X _ F)).
    destruct (fold_max_ge lv 0) as [_ M].
    rewrite (l2_down_raise (fold_left Nat.max lv 0) K); [reflexivity | | exact (X _ M)].
    apply fold_max_le; [exact HK | lia].
  - rewrite <- (l2_down_raise K (lo' + 2 * K - 1)) by (lia || exact (X _ HK)).
    rewrite l2_down_pairs; [apply combine_seq_fst | exact Ho |].
    apply (X (fun l => Nat.odd l = true -> lo' + 2 * K <= l)).
    eapply Forall_impl; [|exact S]. cbn beta. intros l Hl Ol. congruence.
Qed.

Lemma l2_perm lv : Permutation (l2 lv) (seq 0 (length lv)).
Proof.
  unfold l2. destruct (lowest_odd lv); [|apply Permutation_refl].
  rewrite <- (combine_seq_fst lv) at 2. apply Permutation_map, l2_down_perm.
Qed.

Lemma l2_length lv : length (l2 lv) = length lv.
Proof. rewrite (Permutation_length (l2_perm lv)). apply seq_length. Qed.

Lemma l2_all_even lv : forallb Nat.even lv = true -> l2 lv = seq 0 (length lv).
Proof. intros H. unfold l2. rewrite (lowest_odd_all_even lv H). reflexivity. Qed.
