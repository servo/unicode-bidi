(* Proofs/CSNeutralBase.v — list toolkit of the neutral stage at character level: strictly ascending
   position lists and the two iterators of a sequence cut at a position ([iter_split]), the rank of a
   position among the live ones ([lidx]), maximal prefixes ([takewhile]). *)
From BidiVerif Require Import Base ModelResolve StageRel Stmts4.
From BidiVerif.Proofs Require Import ListLib SeqIter.

Lemma get_inv {A} s (l : list A) i x : get s l i = Ok x -> i < length l /\ forall d, nth i l d = x.
Proof.
  intros H. apply get_ok in H. split; [eapply nth_error_lt, H | intros d; apply nth_error_nth, H].
Qed.

Lemma get_nthd {A} s (l : list A) i d : i < length l -> get s l i = Ok (nth i l d).
Proof. intros H. apply get_some, nth_error_nth', H. Qed.

Fixpoint asc (l : list nat) : Prop :=
  match l with [] => True | x :: r => (forall y, In y r -> x < y) /\ asc r end.

Lemma asc_app l1 l2 : asc (l1 ++ l2) <-> asc l1 /\ asc l2 /\ forall x y, In x l1 -> In y l2 -> x < y.
Proof.
  induction l1 as [|a l1 IH]; cbn [app asc].
  - split; [intros H; split; [exact I|]; split; [exact H | intros x y []] | intros (_ & H & _); exact H].
  - rewrite IH. split.
    + intros (H1 & H2 & H3 & H4). split; [split; [|exact H2]|].
      * intros y Hy. apply H1. apply in_or_app. left; exact Hy.
      * split; [exact H3|]. intros x y [<-|Hx] Hy; [apply H1; apply in_or_app; right; exact Hy | auto].
    + intros ((H1 & H2) & H3 & H4). split; [|split; [exact H2|]; split; [exact H3|]].
      * intros y Hy. apply in_app_or in Hy as [Hy|Hy]; [auto | apply H4; [left; reflexivity | exact Hy]].
      * intros x y Hx Hy. apply H4; [right; exact Hx | exact Hy].
Qed.

Lemma asc_NoDup l : asc l -> NoDup l.
Proof.
  induction l as [|a l IH]; intros H; [constructor|]. destruct H as [H1 H2]. constructor; [|auto].
  intros Hin. apply H1 in Hin. lia.
Qed.

Lemma asc_filter f l : asc l -> asc (filter f l).
Proof.
  induction l as [|a l IH]; intros H; [exact I|]. destruct H as [H1 H2]. cbn [filter].
  destruct (f a); [|auto]. split; [|auto]. intros y Hy. apply filter_In in Hy as [Hy _]. auto.
Qed.

Lemma asc_seq n : forall a, asc (seq a n).
Proof.
  induction n as [|n IH]; intros a; cbn [seq asc]; [exact I|]. split; [|apply IH].
  intros y Hy. apply in_seq in Hy. lia.
Qed.

Lemma asc_runs : forall runs p, runs_ascending p runs ->
  asc (flat_map run_range runs) /\ forall y, In y (flat_map run_range runs) -> p <= y.
Proof.
  induction runs as [|[s en] runs IH]; intros p H; cbn [flat_map].
  - split; [exact I | intros y []].
  - cbn [runs_ascending] in H. destruct H as (H1 & H2 & H3). destruct (IH _ H3) as [A B]. split.
    + apply asc_app. split; [apply asc_seq|]. split; [exact A|].
      intros x y Hx Hy. apply in_range in Hx. cbn [fst snd] in Hx. apply B in Hy. lia.
    + intros y Hy. apply in_app_or in Hy as [Hy|Hy].
      * apply in_range in Hy. cbn [fst snd] in Hy. lia.
      * apply B in Hy. lia.
Qed.

Lemma asc_split pre a post : asc (pre ++ a :: post) ->
  asc pre /\ asc post /\ (forall x, In x pre -> x < a) /\ (forall y, In y post -> a < y) /\
  (forall x y, In x pre -> In y post -> x < y).
Proof.
  intros H. apply asc_app in H as (H1 & H2 & H3). destruct H2 as [H4 H5].
  split; [exact H1|]. split; [exact H5|]. split; [intros x Hx; apply H3; [exact Hx | left; reflexivity]|].
  split; [exact H4|]. intros x y Hx Hy. apply H3; [exact Hx | right; exact Hy].
Qed.

Lemma asc_split_unique : forall p1 p2 a q1 q2,
  asc (p1 ++ a :: q1) -> p1 ++ a :: q1 = p2 ++ a :: q2 -> p1 = p2 /\ q1 = q2.
Proof.
  induction p1 as [|x p1 IH]; intros [|y p2] a q1 q2 Ha E; cbn [app] in *.
  - injection E as <-. auto.
  - injection E as <- E. exfalso. destruct Ha as [Ha _]. specialize (Ha a).
    assert (In a q1) by (rewrite E; apply in_or_app; right; left; reflexivity). apply Ha in H. lia.
  - injection E as -> E. exfalso. destruct Ha as [Ha _]. specialize (Ha a).
    assert (In a (p1 ++ a :: q1)) by (apply in_or_app; right; left; reflexivity). apply Ha in H. lia.
  - injection E as -> E. destruct Ha as [_ Ha]. destruct (IH _ _ _ _ Ha E) as [-> ->]. auto.
Qed.

Lemma range_split lo a hi : lo <= a < hi -> range lo hi = range lo a ++ a :: range (a + 1) hi.
Proof.
  intros H. unfold range. replace (hi - lo) with ((a - lo) + S (hi - (a + 1))) by lia.
  rewrite seq_app. cbn [seq]. replace (lo + (a - lo)) with a by lia. replace (S a) with (a + 1) by lia.
  reflexivity.
Qed.

Lemma iter_split (runs : list run) a ri r pre post :
  nth_error runs ri = Some r -> fst r <= a < snd r ->
  asc (flat_map run_range runs) -> flat_map run_range runs = pre ++ a :: post ->
  iter_forwards_from runs (a + 1) ri = Ok post /\ iter_backwards_from runs a ri = Ok (rev pre).
Proof.
  intros Hn Hr Hasc HS.
  assert (E : flat_map run_range runs =
              (flat_map run_range (firstn ri runs) ++ range (fst r) a) ++
              a :: (range (a + 1) (snd r) ++ flat_map run_range (skipn (S ri) runs))).
  { rewrite <- (firstn_skipn ri runs) at 1. rewrite (skipn_nth_error _ _ _ Hn), flat_map_app. cbn [flat_map].
    unfold run_range at 2. rewrite (range_split (fst r) a (snd r) Hr), <- !app_assoc. reflexivity. }
  rewrite HS in E. rewrite HS in Hasc. destruct (asc_split_unique _ _ _ _ _ Hasc E) as [-> ->].
  rewrite (iter_forwards_nth _ _ _ _ Hn), (iter_backwards_nth _ _ _ _ Hn). split; [reflexivity|].
  rewrite rev_app_distr, rev_flat_map. reflexivity.
Qed.

(* index into an ascending list: the number of its elements below x *)

Definition lidx (li : list nat) (x : nat) : nat := length (filter (fun j => j <? x) li).

Lemma lidx_split l1 x l2 : asc (l1 ++ x :: l2) -> lidx (l1 ++ x :: l2) x = length l1.
Proof.
  intros H. apply asc_split in H as (_ & _ & H1 & H2 & _). unfold lidx. rewrite filter_app. cbn [filter].
  rewrite Nat.ltb_irrefl. rewrite filter_all, filter_none, app_nil_r; [reflexivity | |].
  - intros y Hy. apply H2 in Hy. apply Nat.ltb_ge. lia.
  - intros y Hy. apply H1 in Hy. apply Nat.ltb_lt. lia.
Qed.

Lemma filter_len_le {A} (f g : A -> bool) l : (forall x, f x = true -> g x = true) ->
  length (filter f l) <= length (filter g l).
Proof.
  intros H. induction l as [|a l IH]; [cbn; lia|]. cbn [filter]. destruct (f a) eqn:E.
  - rewrite (H _ E). cbn [length]. lia.
  - destruct (g a); cbn [length]; lia.
Qed.

Lemma lidx_mono li x y : x <= y -> lidx li x <= lidx li y.
Proof.
  intros H. unfold lidx. apply filter_len_le. intros j Hj. apply Nat.ltb_lt in Hj. apply Nat.ltb_lt. lia.
Qed.

Lemma lidx_lt li x y : asc li -> In x li -> x < y -> lidx li x < lidx li y.
Proof.
  intros Ha Hx Hxy. apply in_split in Hx as (l1 & l2 & ->). rewrite (lidx_split _ _ _ Ha).
  apply asc_split in Ha as (_ & _ & H1 & _). unfold lidx. rewrite filter_app. cbn [filter].
  assert (E : (x <? y) = true) by (apply Nat.ltb_lt; lia). rewrite E.
  rewrite filter_all; [rewrite app_length; cbn [length]; lia|].
  intros z Hz. apply H1 in Hz. apply Nat.ltb_lt. lia.
Qed.

Lemma lidx_inj li x y : asc li -> In x li -> In y li -> lidx li x = lidx li y -> x = y.
Proof.
  intros Ha Hx Hy E. destruct (Nat.lt_trichotomy x y) as [H|[H|H]]; [|exact H|].
  - pose proof (lidx_lt li x y Ha Hx H). lia.
  - pose proof (lidx_lt li y x Ha Hy H). lia.
Qed.

Lemma nth_lidx li x d : asc li -> In x li -> nth (lidx li x) li d = x.
Proof.
  intros Ha Hx. apply in_split in Hx as (l1 & l2 & ->). rewrite (lidx_split _ _ _ Ha).
  rewrite app_nth2, Nat.sub_diag by lia. reflexivity.
Qed.

Lemma lidx_len li x : asc li -> In x li -> lidx li x < length li.
Proof.
  intros Ha Hx. apply in_split in Hx as (l1 & l2 & ->). rewrite (lidx_split _ _ _ Ha).
  rewrite app_length. cbn [length]. lia.
Qed.

Lemma lidx_nth li m d : asc li -> m < length li -> lidx li (nth m li d) = m.
Proof.
  intros Ha Hm. destruct (nth_split li d Hm) as (l1 & l2 & E & L). rewrite E at 1.
  rewrite E in Ha. rewrite (lidx_split _ _ _ Ha). exact L.
Qed.

Lemma lidx_S li x : asc li -> lidx li (S x) = lidx li x + (if in_dec Nat.eq_dec x li then 1 else 0).
Proof.
  intros Ha. destruct (in_dec Nat.eq_dec x li) as [Hx|Hx].
  - apply in_split in Hx as (l1 & l2 & ->). rewrite (lidx_split _ _ _ Ha).
    apply asc_split in Ha as (_ & _ & H1 & H2 & _). unfold lidx. rewrite filter_app. cbn [filter].
    destruct (Nat.ltb_spec x (S x)); [|lia]. rewrite filter_all, filter_none, app_length; [cbn [length]; lia | |].
    + intros y Hy. apply H2 in Hy. apply Nat.ltb_ge. lia.
    + intros y Hy. apply H1 in Hy. apply Nat.ltb_lt. lia.
  - rewrite Nat.add_0_r. unfold lidx. f_equal. apply filter_ext_in. intros y Hy.
    destruct (Nat.ltb_spec y (S x)), (Nat.ltb_spec y x); try reflexivity; try lia.
    assert (y = x) by lia. subst. contradiction.
Qed.

Lemma at_length {A} (d : A) v l : length (at_ d v l) = length l.
Proof. unfold at_. apply map_length. Qed.

Lemma at_app {A} (d : A) v l1 l2 : at_ d v (l1 ++ l2) = at_ d v l1 ++ at_ d v l2.
Proof. unfold at_. apply map_app. Qed.

Lemma nth_at {A} (d d' : A) v l m : m < length l -> nth m (at_ d v l) d' = nth (nth m l 0) v d.
Proof.
  intros H. unfold at_. rewrite (nth_indep _ d' (nth 0 v d)) by (rewrite map_length; exact H).
  apply (map_nth (fun i => nth i v d)).
Qed.

Lemma at_ext {A} (d : A) v v' l : (forall x, In x l -> nth x v d = nth x v' d) -> at_ d v l = at_ d v' l.
Proof. intros H. unfold at_. apply map_ext_in. exact H. Qed.

Lemma list_ext {A} (d : A) l1 l2 : length l1 = length l2 ->
  (forall m, m < length l1 -> nth m l1 d = nth m l2 d) -> l1 = l2.
Proof.
  revert l2; induction l1 as [|a l1 IH]; intros [|b l2] L H; cbn [length] in *; try lia; [reflexivity|].
  f_equal; [apply (H 0); lia|]. apply IH; [lia|]. intros m Hm. apply (H (S m)). lia.
Qed.


Fixpoint takewhile {A} (f : A -> bool) (l : list A) : list A :=
  match l with [] => [] | x :: r => if f x then x :: takewhile f r else [] end.

Lemma takewhile_incl {A} (f : A -> bool) l x : In x (takewhile f l) -> In x l /\ f x = true.
Proof.
  induction l as [|a l IH]; cbn [takewhile]; [intros []|]. destruct (f a) eqn:E; [|intros []].
  intros [<-|H]; [split; [left; reflexivity | exact E]|]. destruct (IH H). split; [right|]; assumption.
Qed.

Lemma takewhile_asc f l y : asc l ->
  (In y (takewhile f l) <-> In y l /\ forall z, In z l -> z <= y -> f z = true).
Proof.
  induction l as [|a l IH]; intros Ha; cbn [takewhile].
  - split; [intros [] | intros [[] _]].
  - destruct Ha as [H1 H2]. destruct (f a) eqn:E.
    + split.
      * intros [<-|Hy].
        -- split; [left; reflexivity|]. intros z [<-|Hz] Hle; [exact E|]. apply H1 in Hz. lia.
        -- apply IH in Hy as [Hy1 Hy2]; [|exact H2]. split; [right; exact Hy1|].
           intros z [<-|Hz] Hle; [exact E | auto].
      * intros [[<-|Hy] Hall]; [left; reflexivity|]. right. apply IH; [exact H2|]. split; [exact Hy|].
        intros z Hz Hle. apply Hall; [right; exact Hz | exact Hle].
    + split; [intros []|]. intros [Hy Hall]. exfalso.
      assert (f a = true); [|congruence]. apply Hall; [left; reflexivity|].
      destruct Hy as [<-|Hy]; [lia|]. apply H1 in Hy. lia.
Qed.

Lemma takewhile_desc f l y : asc l ->
  (In y (takewhile f (rev l)) <-> In y l /\ forall z, In z l -> y <= z -> f z = true).
Proof.
  induction l as [|a l IH] using rev_ind; intros Ha.
  - cbn. split; [intros [] | intros [[] _]].
  - rewrite rev_app_distr. cbn [rev app takewhile].
    apply asc_app in Ha as (H2 & _ & H1).
    assert (H1' : forall x, In x l -> x < a) by (intros x Hx; apply H1; [exact Hx | left; reflexivity]).
    destruct (f a) eqn:E.
    + split.
      * intros [<-|Hy].
        -- split; [apply in_or_app; right; left; reflexivity|].
           intros z Hz Hle. apply in_app_or in Hz as [Hz|[<-|[]]]; [apply H1' in Hz; lia | exact E].
        -- apply IH in Hy as [Hy1 Hy2]; [|exact H2]. split; [apply in_or_app; left; exact Hy1|].
           intros z Hz Hle. apply in_app_or in Hz as [Hz|[<-|[]]]; [auto | exact E].
      * intros [Hy Hall]. apply in_app_or in Hy as [Hy|[<-|[]]]; [|left; reflexivity].
        right. apply IH; [exact H2|]. split; [exact Hy|].
        intros z Hz Hle. apply Hall; [apply in_or_app; left; exact Hz | exact Hle].
    + split; [intros []|]. intros [Hy Hall]. exfalso.
      assert (f a = true); [|congruence]. apply Hall; [apply in_or_app; right; left; reflexivity|].
      apply in_app_or in Hy as [Hy|[<-|[]]]; [apply H1' in Hy; lia | lia].
Qed.
