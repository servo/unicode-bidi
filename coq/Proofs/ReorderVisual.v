(* Proofs/ReorderVisual.v — C04: reorder_visual (lib.rs:1002) is total on levels <= 126, returns a
   permutation of the indices, and agrees with rule L2 (Spec.l2).

   The implementation selects ranges by the ORIGINAL level of each POSITION; the specification by
   the level of the ELEMENT currently at that position.  The two coincide because reversing inside
   maximal ">= k" blocks keeps, for every k' <= k, the ">= k'" mask of the current elements equal to
   the ">= k'" mask of the positions ([inv_pass]).  Both are related through [rev_lv], one pass
   driven by an explicit level list.  The loops then compute Spec.l2_down over a range of passes
   that differs from the specification's; that the range does not matter is ReorderSpec.l2_down_normal. *)
From BidiVerif Require Import Base ModelText ModelLine Spec Stmts.
From BidiVerif.Proofs Require Import ListLib.
From BidiVerif.Proofs Require Import LevelOps ReorderSpec.
From Coq Require Import Permutation.

Lemma repeat_mid {A} (a : A) n l : repeat a n ++ a :: l = a :: repeat a n ++ l.
Proof. induction n as [|n IH]; cbn; [reflexivity | now rewrite IH]. Qed.

Lemma map_all_true {A} (p : A -> bool) l :
  Forall (fun x => p x = true) l -> map p l = repeat true (length l).
Proof. induction 1 as [|x l Hx _ IH]; cbn; [reflexivity | now rewrite Hx, IH]. Qed.

Lemma split3_len {A B} (xs : list A) (a b c : list B) :
  length xs = length (a ++ b ++ c) ->
  exists xa xb xc, xs = xa ++ xb ++ xc /\ length xa = length a /\ length xb = length b
                   /\ length xc = length c.
Proof.
  intros H. rewrite !app_length in H.
  exists (firstn (length a) xs), (firstn (length b) (skipn (length a) xs)),
         (skipn (length b) (skipn (length a) xs)).
  rewrite !firstn_skipn. repeat split.
  - rewrite firstn_length. lia.
  - rewrite firstn_length, skipn_length. lia.
  - rewrite !skipn_length. lia.
Qed.

(* one pass, driven by an explicit list of levels *)
Fixpoint rev_lv {A} (k : nat) (ls : list nat) (xs : list A) (acc : list A) : list A :=
  match ls, xs with
  | l :: ls', x :: xs' =>
      if k <=? l then rev_lv k ls' xs' (x :: acc) else acc ++ x :: rev_lv k ls' xs' []
  | _, _ => acc
  end.

Lemma rev_runs_ge_lv k xs : forall acc, rev_runs_ge k xs acc = rev_lv k (map snd xs) xs acc.
Proof.
  induction xs as [|x xs IH]; intros acc; cbn [rev_runs_ge rev_lv map]; [reflexivity|].
  destruct (k <=? snd x); now rewrite IH.
Qed.

Lemma rev_lv_map {A B} (f : A -> B) k ls : forall xs acc,
  map f (rev_lv k ls xs acc) = rev_lv k ls (map f xs) (map f acc).
Proof.
  induction ls as [|l ls IH]; intros [|x xs] acc; cbn [rev_lv map]; try reflexivity.
  destruct (k <=? l).
  - now rewrite IH.
  - rewrite map_app. cbn [map]. now rewrite IH.
Qed.

Lemma rev_lv_mask {A} k k' : forall ls ls' (xs acc : list A),
  map (Nat.leb k) ls = map (Nat.leb k') ls' ->
  rev_lv k ls xs acc = rev_lv k' ls' xs acc.
Proof.
  induction ls as [|l ls IH]; intros [|l' ls'] xs acc H; cbn [map] in H; try discriminate.
  - reflexivity.
  - injection H as H1 H2. destruct xs as [|x xs]; cbn [rev_lv]; [reflexivity|].
    rewrite <- H1. destruct (k <=? l); now rewrite (IH ls').
Qed.

Lemma rev_lv_keeps_mask {A} (p : A -> bool) k : forall ls xs acc,
  Forall2 (fun l x => k <= l -> p x = true) ls xs ->
  Forall (fun x => p x = true) acc ->
  map p (rev_lv k ls xs acc) = map p acc ++ map p xs.
Proof.
  induction ls as [|l ls IH]; intros xs acc H2 Hacc; inversion H2 as [|l0 x ls0 xs' Hx H2' E1 E2]; subst.
  - cbn. now rewrite app_nil_r.
  - cbn [rev_lv]. destruct (k <=? l) eqn:E.
    + apply Nat.leb_le in E. specialize (Hx E).
      rewrite IH; [|exact H2'|constructor; assumption].
      cbn [map]. rewrite Hx, (map_all_true p acc Hacc). cbn [app]. now rewrite repeat_mid.
    + rewrite map_app. cbn [map]. rewrite (IH xs' []); [reflexivity|exact H2'|constructor].
Qed.

Lemma rev_lv_low {A} k : forall lo (xlo : list A) ls xs,
  Forall (fun l => l < k) lo -> length lo = length xlo ->
  rev_lv k (lo ++ ls) (xlo ++ xs) [] = xlo ++ rev_lv k ls xs [].
Proof.
  induction lo as [|l lo IH]; intros [|x xlo] ls xs HF HL; cbn [length] in HL; try discriminate.
  - reflexivity.
  - inversion HF as [|l0 lo0 Hl HF']; subst. injection HL as HL.
    cbn [app rev_lv]. destruct (k <=? l) eqn:E; [apply Nat.leb_le in E; lia|].
    cbn [app]. now rewrite IH.
Qed.

Lemma rev_lv_high {A} k : forall hi (xhi : list A) ls xs acc,
  Forall (fun l => k <= l) hi -> length hi = length xhi ->
  rev_lv k (hi ++ ls) (xhi ++ xs) acc = rev_lv k ls xs (rev xhi ++ acc).
Proof.
  induction hi as [|l hi IH]; intros [|x xhi] ls xs acc HF HL; cbn [length] in HL; try discriminate.
  - reflexivity.
  - inversion HF as [|l0 hi0 Hl HF']; subst. injection HL as HL.
    cbn [app rev_lv]. destruct (k <=? l) eqn:E; [|apply Nat.leb_gt in E; lia].
    rewrite IH by assumption. cbn [rev]. now rewrite <- app_assoc.
Qed.

Definition tail_ok (k : nat) (ls : list nat) : Prop :=
  match ls with [] => True | l :: _ => l < k end.

Lemma rev_lv_tail {A} k ls (xs acc : list A) :
  tail_ok k ls -> length ls = length xs ->
  rev_lv k ls xs acc = acc ++ rev_lv k ls xs [].
Proof.
  destruct ls as [|l ls], xs as [|x xs]; cbn [length]; intros HT HL; try discriminate.
  - cbn. now rewrite app_nil_r.
  - cbn [tail_ok] in HT. cbn [rev_lv]. destruct (k <=? l) eqn:E; [apply Nat.leb_le in E; lia|].
    reflexivity.
Qed.

Lemma rev_lv_block {A} k lo hi lt (xlo xhi xt : list A) :
  Forall (fun l => l < k) lo -> Forall (fun l => k <= l) hi -> tail_ok k lt ->
  length lo = length xlo -> length hi = length xhi -> length lt = length xt ->
  rev_lv k (lo ++ hi ++ lt) (xlo ++ xhi ++ xt) [] = xlo ++ rev xhi ++ rev_lv k lt xt [].
Proof.
  intros Hlo Hhi Ht L1 L2 L3.
  rewrite rev_lv_low by assumption. rewrite rev_lv_high by assumption.
  rewrite rev_lv_tail by assumption. now rewrite app_nil_r.
Qed.

Lemma count_while_all {A} (p : A -> bool) a b :
  Forall (fun x => p x = true) a -> count_while p (a ++ b) = length a + count_while p b.
Proof. induction 1 as [|x a Hx _ IH]; cbn; [reflexivity | now rewrite Hx, IH]. Qed.

Lemma Forall_ltb k lo : Forall (fun l => l < k) lo -> Forall (fun l => (l <? k) = true) lo.
Proof. apply Forall_impl. intros l H. now apply Nat.ltb_lt. Qed.
Lemma Forall_leb k hi : Forall (fun l => k <= l) hi -> Forall (fun l => (k <=? l) = true) hi.
Proof. apply Forall_impl. intros l H. now apply Nat.leb_le. Qed.

Lemma count_while_tail_ok k lt : tail_ok k lt -> count_while (fun l => k <=? l) lt = 0.
Proof.
  destruct lt as [|l lt]; cbn; [reflexivity|]. intros H.
  destruct (k <=? l) eqn:E; [apply Nat.leb_le in E; lia | reflexivity].
Qed.

Lemma decomp k : forall ls : list nat, exists lo hi lt,
  ls = lo ++ hi ++ lt /\ Forall (fun l => l < k) lo /\ Forall (fun l => k <= l) hi /\
  tail_ok k lt /\ (hi = [] -> lt = []).
Proof.
  induction ls as [|l ls (lo & hi & lt & E & Hlo & Hhi & Ht & Hn)].
  - exists [], [], []. repeat split; constructor.
  - destruct (Nat.lt_ge_cases l k) as [Hl|Hl].
    + exists (l :: lo), hi, lt. subst ls. repeat split; try assumption. constructor; assumption.
    + destruct lo as [|l' lo].
      * exists [], (l :: hi), lt. subst ls. repeat split; try assumption.
        -- constructor; assumption.
        -- discriminate.
      * exists [], [l], ((l' :: lo) ++ hi ++ lt). subst ls. repeat split.
        -- constructor.
        -- constructor; [assumption | constructor].
        -- cbn. inversion Hlo; assumption.
        -- discriminate.
Qed.

Lemma next_range_none k lpre lo :
  Forall (fun l => l < k) lo ->
  next_range (lpre ++ lo) (length lpre) k = (length (lpre ++ lo), length (lpre ++ lo)).
Proof.
  intros Hlo. unfold next_range.
  destruct ((length (lpre ++ lo) =? 0) || (length (lpre ++ lo) <=? length lpre)) eqn:C.
  - assert (length lo = 0).
    { rewrite app_length in C. apply orb_true_iff in C as [C|C];
        [apply Nat.eqb_eq in C | apply Nat.leb_le in C]; lia. }
    rewrite app_length. replace (length lo) with 0 by lia. rewrite Nat.add_0_r. reflexivity.
  - rewrite skipn_length_app.
    assert (CW : count_while (fun l => l <? k) lo = length lo).
    { rewrite <- (app_nil_r lo) at 1. rewrite count_while_all by (apply Forall_ltb; exact Hlo).
      cbn [count_while]. apply Nat.add_0_r. }
    rewrite CW, <- app_length, Nat.leb_refl. reflexivity.
Qed.

Lemma next_range_some k lpre lo h hi lt :
  Forall (fun l => l < k) lo -> Forall (fun l => k <= l) (h :: hi) -> tail_ok k lt ->
  next_range (lpre ++ lo ++ (h :: hi) ++ lt) (length lpre) k
  = (length lpre + length lo, length lpre + length lo + length (h :: hi)).
Proof.
  intros Hlo Hhi Ht. unfold next_range. cbv zeta.
  remember (lpre ++ lo ++ (h :: hi) ++ lt) as levels eqn:EL.
  assert (HL : length levels = length lpre + length lo + S (length hi) + length lt).
  { subst levels. rewrite !app_length. cbn [length]. lia. }
  inversion Hhi as [|h0 hi0 Hh Hhi']; subst h0 hi0.
  destruct ((length levels =? 0) || (length levels <=? length lpre)) eqn:C.
  { apply orb_true_iff in C as [C|C]; [apply Nat.eqb_eq in C | apply Nat.leb_le in C]; lia. }
  assert (S1 : skipn (length lpre) levels = lo ++ (h :: hi) ++ lt)
    by (subst levels; apply skipn_length_app).
  rewrite !S1.
  assert (CW1 : count_while (fun l => l <? k) (lo ++ (h :: hi) ++ lt) = length lo).
  { rewrite count_while_all by (apply Forall_ltb; exact Hlo).
    assert (E : (h <? k) = false) by (apply Nat.ltb_ge; exact Hh).
    cbn [app count_while]. rewrite E. apply Nat.add_0_r. }
  rewrite !CW1.
  destruct (length levels <=? length lpre + length lo) eqn:C2; [apply Nat.leb_le in C2; lia|].
  assert (S2 : skipn (S (length lpre + length lo)) levels = hi ++ lt).
  { replace levels with ((lpre ++ lo ++ [h]) ++ hi ++ lt)
      by (subst levels; rewrite <- !app_assoc; reflexivity).
    replace (S (length lpre + length lo)) with (length (lpre ++ lo ++ [h]))
      by (rewrite !app_length; cbn [length]; lia).
    apply skipn_length_app. }
  rewrite S2.
  rewrite count_while_all by (apply Forall_leb; exact Hhi').
  rewrite count_while_tail_ok by exact Ht.
  f_equal. cbn [length]. lia.
Qed.

Lemma reverse_range_nil site (v : list nat) : reverse_range site v (length v) (length v) = Ok v.
Proof.
  unfold reverse_range. rewrite !Nat.leb_refl. cbn [andb]. rewrite Nat.sub_diag.
  cbn [firstn rev app]. rewrite firstn_skipn. reflexivity.
Qed.

Lemma reverse_range_mid site (p m q : list nat) a b :
  a = length p -> b = a + length m ->
  reverse_range site (p ++ m ++ q) a b = Ok (p ++ rev m ++ q).
Proof.
  intros -> ->. unfold reverse_range.
  destruct ((length p <=? length p + length m) && (length p + length m <=? length (p ++ m ++ q))) eqn:C.
  - rewrite firstn_length_app, skipn_length_app.
    replace (length p + length m - length p) with (length m) by lia.
    rewrite firstn_length_app.
    rewrite <- app_length, (app_assoc p m q), skipn_length_app. reflexivity.
  - apply andb_false_iff in C as [C|C]; apply Nat.leb_gt in C; rewrite ?app_length in C; lia.
Qed.

Lemma rv_inner_S f levels k result e a b :
  next_range levels e k = (a, b) ->
  rv_inner (S f) levels k result e =
  (result' <- reverse_range 1069 result a b ;;
   if length levels <=? b then Ok result' else rv_inner f levels k result' b).
Proof. intros H. cbn [rv_inner]. rewrite H. reflexivity. Qed.

Lemma rv_inner_spec k : forall fuel levels result lpre lrest pre rest,
  levels = lpre ++ lrest -> result = pre ++ rest ->
  length pre = length lpre -> length rest = length lrest -> length lrest < fuel ->
  rv_inner fuel levels k result (length lpre) = Ok (pre ++ rev_lv k lrest rest []).
Proof.
  induction fuel as [|f IH]; intros levels result lpre lrest pre rest EL ER LP LR HF; [lia|].
  destruct (decomp k lrest) as (lo & hi & lt & E & Hlo & Hhi & Ht & Hn). subst lrest.
  destruct (split3_len rest lo hi lt LR) as (xlo & xhi & xt & E & L1 & L2 & L3). subst rest.
  rewrite rev_lv_block by (try assumption; symmetry; assumption).
  destruct hi as [|h hi].
  - rewrite (Hn eq_refl) in *. destruct xhi; [|discriminate]. destruct xt; [|discriminate].
    cbn [app] in EL, ER. rewrite app_nil_r in EL, ER. subst levels result.
    rewrite (rv_inner_S _ _ _ _ _ _ _ (next_range_none k lpre lo Hlo)).
    replace (length (lpre ++ lo)) with (length (pre ++ xlo)) by (rewrite !app_length; lia).
    rewrite reverse_range_nil. cbn [bind].
    replace (length (lpre ++ lo)) with (length (pre ++ xlo)) by (rewrite !app_length; lia).
    rewrite Nat.leb_refl. cbn [rev rev_lv app]. rewrite app_nil_r. reflexivity.
  - subst levels.
    rewrite (rv_inner_S _ _ _ _ _ _ _ (next_range_some k lpre lo h hi lt Hlo Hhi Ht)).
    subst result. rewrite (app_assoc pre xlo).
    rewrite (reverse_range_mid 1069 (pre ++ xlo) xhi xt)
      by (rewrite ?app_length; lia).
    cbn [bind].
    destruct (length (lpre ++ lo ++ (h :: hi) ++ lt) <=? length lpre + length lo + length (h :: hi)) eqn:C.
    + apply Nat.leb_le in C. rewrite !app_length in C.
      assert (length lt = 0) by lia.
      destruct lt; [|discriminate]. destruct xt; [|discriminate].
      cbn [rev_lv]. rewrite <- app_assoc. reflexivity.
    + replace (length lpre + length lo + length (h :: hi)) with (length (lpre ++ lo ++ h :: hi))
        by (rewrite !app_length; lia).
      rewrite (IH _ _ (lpre ++ lo ++ h :: hi) lt ((pre ++ xlo) ++ rev xhi) xt).
      * rewrite <- !app_assoc. reflexivity.
      * rewrite <- !app_assoc. reflexivity.
      * rewrite <- !app_assoc. reflexivity.
      * rewrite !app_length, rev_length. lia.
      * exact L3.
      * rewrite !app_length in HF. cbn [length] in HF. lia.
Qed.

Lemma rv_inner_pass k levels result :
  length result = length levels ->
  rv_inner (S (length levels)) levels k result 0 = Ok (rev_lv k levels result []).
Proof.
  intros H.
  apply (rv_inner_spec k (S (length levels)) levels result [] levels [] result);
    try reflexivity; [exact H | lia].
Qed.

Definition pass (k : nat) (xs : list (nat * nat)) : list (nat * nat) := rev_runs_ge k xs [].

(* the invariant: element masks = position masks, for every threshold <= k *)
Definition inv (levels : list nat) (k : nat) (xs : list (nat * nat)) : Prop :=
  forall k', k' <= k -> map (fun x => k' <=? snd x) xs = map (Nat.leb k') levels.

Lemma inv_length levels k xs : inv levels k xs -> length xs = length levels.
Proof.
  intros H. specialize (H 0 (Nat.le_0_l k)).
  apply (f_equal (@length bool)) in H. now rewrite !map_length in H.
Qed.

Lemma inv_mono levels k k' xs : k' <= k -> inv levels k xs -> inv levels k' xs.
Proof. intros Hk H k'' Hk''. apply H. lia. Qed.

Lemma pass_length k xs : length (pass k xs) = length xs.
Proof. apply Permutation_length, (rrg_perm k xs []). Qed.

Lemma pass_positional levels k xs :
  inv levels k xs -> pass k xs = rev_lv k levels xs [].
Proof.
  intros H. unfold pass. rewrite rev_runs_ge_lv. apply rev_lv_mask.
  rewrite map_map. apply H. apply Nat.le_refl.
Qed.

Lemma inv_pass levels k xs : inv levels k xs -> inv levels k (pass k xs).
Proof.
  intros H k' Hk'. rewrite <- (H k' Hk').
  unfold pass. rewrite rev_runs_ge_lv.
  rewrite (rev_lv_keeps_mask (fun x => k' <=? snd x) k (map snd xs) xs []); [reflexivity| |constructor].
  clear H. induction xs as [|x xs IH]; cbn [map]; constructor; [|exact IH].
  intros Hx. apply Nat.leb_le. lia.
Qed.

Lemma rv_inner_is_pass levels k xs :
  inv levels k xs ->
  rv_inner (S (length levels)) levels k (map fst xs) 0 = Ok (map fst (pass k xs)).
Proof.
  intros H. rewrite rv_inner_pass by (rewrite map_length; eapply inv_length; exact H).
  rewrite (pass_positional levels k xs H), rev_lv_map. reflexivity.
Qed.

Lemma rv_outer_spec levels mn : 1 <= mn -> forall fuel mx xs,
  mx < fuel -> inv levels mx xs ->
  rv_outer fuel levels mn mx (map fst xs) = Ok (map fst (l2_down mx mn xs)).
Proof.
  intros Hmn. induction fuel as [|f IH]; intros mx xs Hf H; [lia|]. cbn [rv_outer].
  destruct (Nat.ltb_spec mx mn) as [E|E]; [rewrite l2_down_lt by exact E; reflexivity|].
  rewrite (rv_inner_is_pass levels mx xs H). cbn [bind].
  rewrite lower_spec. destruct (Nat.leb_spec 1 mx) as [E1|E1]; [|lia].
  destruct mx as [|mx]; [lia|]. rewrite l2_down_step by exact E. cbn [Nat.sub]. rewrite Nat.sub_0_r.
  apply IH; [lia|]. apply (inv_mono levels (S mx)); [lia | apply inv_pass; exact H].
Qed.

Lemma fold_min_le l : forall acc,
  fold_left Nat.min l acc <= acc /\ Forall (fun x => fold_left Nat.min l acc <= x) l.
Proof.
  induction l as [|x r IH]; intros acc; cbn [fold_left].
  - split; [lia | constructor].
  - destruct (IH (Nat.min acc x)) as [A B]. split; [lia|]. constructor; [lia | exact B].
Qed.

Lemma start_inv lv k : inv lv k (combine (seq 0 (length lv)) lv).
Proof. intros k' _. rewrite <- (map_map snd (Nat.leb k')), combine_seq_snd. reflexivity. Qed.

Lemma rv_unfold l0 t :
  reorder_visual (l0 :: t) =
  (if (fold_left Nat.min (l0 :: t) l0 =? fold_left Nat.max (l0 :: t) l0)
      && is_ltr (fold_left Nat.min (l0 :: t) l0)
   then Ok (seq 0 (length (l0 :: t)))
   else match level_lowest_ge_rtl (fold_left Nat.min (l0 :: t) l0) with
        | None => Panic 1057
        | Some mn' => rv_outer 130 (l0 :: t) mn' (fold_left Nat.max (l0 :: t) l0)
                               (seq 0 (length (l0 :: t)))
        end).
Proof. reflexivity. Qed.

(* the passes run from the true maximum down to the least odd level >= the minimum: a range within the bounds
   of l2_down_normal *)
Lemma reorder_visual_l2 lv :
  Forall (fun l => l <= 126) lv -> reorder_visual lv = Ok (l2 lv).
Proof.
  intros HF. destruct lv as [|l0 t]; [reflexivity|].
  rewrite rv_unfold.
  remember (l0 :: t) as lv eqn:Elv.
  assert (Hl0 : l0 <= 126) by (subst lv; inversion HF; assumption).
  destruct (fold_min_le lv l0) as (Hmn1 & Hmn2). destruct (fold_max_ge lv l0) as (Hmx1 & Hmx2).
  pose proof (fold_max_le 126 lv HF l0 Hl0) as Hmx126.
  set (mn := fold_left Nat.min lv l0) in *. set (mx := fold_left Nat.max lv l0) in *.
  destruct ((mn =? mx) && is_ltr mn) eqn:C.
  - (* all levels equal and even *)
    apply andb_true_iff in C as [C1 C2]. apply Nat.eqb_eq in C1. rewrite is_ltr_even in C2.
    rewrite l2_all_even; [reflexivity|].
    apply forallb_forall. intros l Hl. rewrite Forall_forall in Hmn2, Hmx2.
    assert (l = mn) by (specialize (Hmn2 l Hl); specialize (Hmx2 l Hl); lia). subst l. exact C2.
  - destruct (level_lowest_ge_rtl mn) as [mn'|] eqn:LG.
    2:{ exfalso. apply lowest_ge_rtl_fails_iff in LG; [|lia].
        replace mx with 126 in C by lia. rewrite LG in C. discriminate. }
    apply lowest_ge_rtl_odd in LG as (G1 & G2 & G3 & G4).
    rewrite <- (combine_seq_fst lv).
    assert (G0 : 1 <= mn') by (destruct mn'; [discriminate | lia]).
    rewrite (rv_outer_spec lv mn' G0) by (lia || apply start_inv).
    f_equal. apply l2_down_normal; [exact Hmx2 | exact G3 |].
    eapply Forall_impl; [|exact Hmn2]. cbn beta. intros l Hl. apply G4. exact Hl.
Qed.

Theorem reorder_visual_correct : C04_statement.
Proof.
  intros lv HF. exists (l2 lv).
  split; [apply reorder_visual_l2; exact HF|].
  split; [apply l2_length|].
  split; [apply l2_perm|].
  split; [reflexivity | apply l2_all_even].
Qed.
