(* Proofs/LIWeak.v — one step of implicit::resolve_weak in closed form, and length independence of
   resolve_weak (LI_weak, Stmts3.v).

   The step ([weak_step], the body of the loop over the units of an isolating run sequence): the rules W1-W4
   on single classes ([w1c], [w23c], [alc], [newc_of]); the normal form of the step once W1-W3 are done
   ([weak_step_nf]); its closed form at a character start, where the two iterators of the sequence return
   [fw] and [bw] ([wstep], [weak_step_eval]), the five arms of that closed form, and what the step leaves
   alone.

   Length independence: running W1-W7 on the units of a text (any encoding) from expanded vectors and unit
   ranges gives the expansion of the character-level (U32) result.
   One step on a character corresponds to the block of steps on its units.  [rel] relates a character-level
   vector to a unit-level vector that is its expansion except on ONE partly processed character; the
   writes and searches of the step (set_all, set_while_bn, find_value_by) and the W7 pass are carried
   over [rel] one block of units at a time.  The first unit of a character repeats the step made on the
   character ([first_unit], on the normal form); a later unit computes the scalars again,
   from a state where they are a fixed point ([Post]), and writes the same class: a separator finds no
   character start there and copies its predecessor ([later_unit], mid-character invariant [Mid]).
   The statement needs no disjointness of the runs: a character-level invariant ([Inv]: pending ET
   indices hold ET or BN, they are empty unless prev5 = ET) shows that flushing the pending ET run
   never touches the character being processed.  The hypothesis [seq_in] is not used.
   After the theorem: [lset_all_app] stated on this file's own [lset], [lset_all], and four facts on [w1c], [w23c]. *)
From BidiVerif Require Import Base ModelText ModelResolve Spec Judge Stmts2 Stmts3.
From BidiVerif.Proofs Require Import ListLib Units SeqIter Utf16 TextView.

(* the rules W1-W4 on single classes: [f_iso] is what W1 makes of the previous class for an NSM (an isolate
   initiator or PDI counts as ON; [f_iso_spec]), [w1c] the class after W1 ([p1] = the previous character after W1),
   [w23c] after W2 and W3 and [alc] the new "last strong is AL" ([al] = the old one), [newc_of] the
   class W4 or W6 gives a separator ([p4] = previous class after W3, [nc] = next class) *)
Definition f_iso (p1 : bclass) : bclass :=
  match p1 with
  | RLI | LRI | FSI | PDI => ON
  | AL => AL | AN => AN | B => B | BN => BN | CS => CS | EN => EN | ES => ES | ET => ET | L => L
  | LRE => LRE | LRO => LRO | NSM => NSM | ON => ON | PDF => PDF | R => R | RLE => RLE | RLO => RLO
  | SS => SS | WS => WS
  end.
Definition w1c (c0 p1 : bclass) : bclass := if c0 =c NSM then f_iso p1 else c0.
Definition w23c (c1 : bclass) (al : bool) : bclass :=
  match c1 with EN => if al then AN else EN | AL => R | k => k end.
Definition alc (c1 : bclass) (al : bool) : bool :=
  match c1 with L | R => false | AL => true | _ => al end.
Definition newc_of (p4 c456 nc : bclass) : bclass :=
  match p4, c456, nc with
  | EN, ES, EN | EN, CS, EN => EN
  | AN, CS, AN => AN
  | _, _, _ => ON
  end.

Lemma f_iso_spec p : f_iso p = if is_iso_ctl p then ON else p.
Proof. destruct p; reflexivity. Qed.
Lemma f_iso_idem p : f_iso (f_iso p) = f_iso p.
Proof. destruct p; reflexivity. Qed.
Lemma f_iso_bn p : f_iso p = BN -> p = BN.
Proof. destruct p; try discriminate; reflexivity. Qed.
Lemma w1c_idem c0 p1 : w1c c0 (w1c c0 p1) = w1c c0 p1.
Proof. unfold w1c. destruct (c0 =c NSM); [apply f_iso_idem|reflexivity]. Qed.
Lemma w1c_nbn c0 p1 : c0 <> BN -> p1 <> BN -> w1c c0 p1 <> BN.
Proof.
  intros H0 H1. unfold w1c. destruct (c0 =c NSM); [|exact H0].
  intros H. apply f_iso_bn in H. contradiction.
Qed.
Lemma alc_idem c1 al : alc c1 (alc c1 al) = alc c1 al.
Proof. destruct c1; reflexivity. Qed.
Lemma w23c_alc c1 al : w23c c1 (alc c1 al) = w23c c1 al.
Proof. destruct c1; reflexivity. Qed.
Lemma w23c_sep c1 al : w23c c1 al = ES \/ w23c c1 al = CS -> w23c c1 al = c1.
Proof. destruct c1; cbn [w23c]; try reflexivity; intros [H|H]; try discriminate; destruct al; discriminate. Qed.
Lemma w23c_not_AL c1 al : w23c c1 al <> AL.
Proof. destruct c1; cbn [w23c]; try discriminate. destruct al; discriminate. Qed.
Lemma w23c_nbn c1 al : c1 <> BN -> w23c c1 al <> BN.
Proof. intros H. destruct c1; cbn [w23c]; try discriminate; try contradiction. destruct al; discriminate. Qed.
Lemma newc_of_range a b c : newc_of a b c = EN \/ newc_of a b c = AN \/ newc_of a b c = ON.
Proof.
  destruct a; try (right; right; reflexivity);
    destruct b; try (right; right; reflexivity);
      destruct c; try (right; right; reflexivity); auto.
Qed.

(* the case split of W4-W6 ([w456]) on the class after W3 *)
Lemma classify456 (c : bclass) :
  c = EN \/ (c = ES \/ c = CS) \/ c = ET \/ (c <> EN /\ c <> ES /\ c <> CS /\ c <> ET).
Proof. destruct c; auto; repeat right; repeat split; discriminate. Qed.

(* normal form: W1-W3 done, what remains are the W4-W6 arm [w456] (the text of the model) and the
   flush of the pending ETs [wfin] *)
Definition w_escs (e : enc) (text : list N) (sq : irs) (st : w_state) (al : bool) (c456 : bclass)
           (pc : list bclass) (run_index i : nat) : res (list bclass * list nat) :=
      match t_char_at e text i with
      | Some (_, clen) =>
        fw <- iter_forwards_from (irs_runs sq) (i + clen) run_index ;;
        nx <- find_value_by 135 not_removed_by_x9 pc fw ;;
        let next_class := opt_or nx (irs_eos sq) in
        let next_class := if (next_class =c EN) && al then AN else next_class in
        let newc := newc_of (w_prev4 st) c456 next_class in
        pc <- upd 145 pc i newc ;;
        pc <- (if newc =c ON then
                 bw <- iter_backwards_from (irs_runs sq) i run_index ;;
                 pc <- set_while_bn 162 pc bw ON ;;
                 fw2 <- iter_forwards_from (irs_runs sq) (i + clen) run_index ;;
                 set_while_bn 169 pc fw2 ON
               else Ok pc) ;;
        Ok (pc, w_et st)
      | None =>
        if i =? 0 then Panic 179 else
        p <- get 179 pc (i - 1) ;;
        pc <- upd 179 pc i p ;;
        Ok (pc, w_et st)
      end.

Definition w456 (e : enc) (text : list N) (sq : irs) (st : w_state) (al : bool) (c456 : bclass)
           (pc : list bclass) (run_index i : nat) : res (list bclass * list nat) :=
    match c456 with
    | EN => pc <- set_all 121 pc (w_et st) EN ;; Ok (pc, [])
    | ES | CS => w_escs e text sq st al c456 pc run_index i
    | ET =>
      match w_prev5 st with
      | EN => pc <- upd 185 pc i EN ;; Ok (pc, w_et st)
      | _ => Ok (pc, w_et st ++ w_bn st ++ [i])
      end
    | _ => Ok (pc, w_et st)
    end.

Lemma w456_sep e text sq st al c456 pc r i :
  c456 = ES \/ c456 = CS -> w456 e text sq st al c456 pc r i = w_escs e text sq st al c456 pc r i.
Proof. intros [-> | ->]; reflexivity. Qed.

Lemma w456_other e text sq st al c456 pc r i :
  c456 <> EN -> c456 <> ES -> c456 <> CS -> c456 <> ET ->
  w456 e text sq st al c456 pc r i = Ok (pc, w_et st).
Proof. intros; destruct c456; try contradiction; reflexivity. Qed.

Lemma w456_ET_join e text sq st al pc r i :
  w_prev5 st <> EN -> w456 e text sq st al ET pc r i = Ok (pc, w_et st ++ w_bn st ++ [i]).
Proof. intros H. cbn [w456]. destruct (w_prev5 st); try contradiction; reflexivity. Qed.

Lemma w456_ET_en e text sq st al pc r i :
  w_prev5 st = EN -> w456 e text sq st al ET pc r i = (pc <- upd 185 pc i EN ;; Ok (pc, w_et st)).
Proof. intros H. cbn [w456]. rewrite H. reflexivity. Qed.

Definition wfin (c456 c1 : bclass) (al : bool) (i : nat) (x : list bclass * list nat) : res w_state :=
  let '(pc, et) := x in
  prev5 <- get 208 pc i ;;
  '(pc, et) <- (if prev5 =c ET then Ok (pc, et)
                else pc <- set_all 216 pc et ON ;; Ok (pc, [])) ;;
  Ok {| w_prev4 := c456; w_prev5 := prev5; w_prev1 := c1; w_al := al;
        w_et := et; w_bn := []; w_pc := pc |}.

Lemma weak_step_bn e text sq st r i :
  nth_error (w_pc st) i = Some BN ->
  weak_step e text sq st (r, i) =
  Ok {| w_prev4 := w_prev4 st; w_prev5 := w_prev5 st; w_prev1 := w_prev1 st; w_al := w_al st;
        w_et := w_et st; w_bn := w_bn st ++ [i]; w_pc := w_pc st |}.
Proof. intros Hg. unfold weak_step. rewrite (get_some _ _ _ _ Hg). reflexivity. Qed.

(* W1-W3 by themselves: whatever follows them, [K], gets the array with the class after W3 written
   at i, that class, the class after W1 and the new "last strong is AL" *)
Lemma w123_eval {B} (st : w_state) i c0 (K : list bclass -> bclass -> bclass -> bool -> res B) :
  nth_error (w_pc st) i = Some c0 ->
  ('(pc, w2c) <- (if c0 =c NSM
                  then pc <- upd 73 (w_pc st) i (f_iso (w_prev1 st)) ;; Ok (pc, f_iso (w_prev1 st))
                  else Ok (w_pc st, c0)) ;;
   c1 <- get 81 pc i ;;
   pc <- (match c1 with
          | EN => if w_al st then upd 90 pc i AN else Ok pc
          | AL => upd 94 pc i R
          | _ => Ok pc
          end) ;;
   c456 <- get 109 pc i ;;
   K pc c456 c1 (alc w2c (w_al st)))
  = K (lset (w_pc st) i (w23c (w1c c0 (w_prev1 st)) (w_al st))) (w23c (w1c c0 (w_prev1 st)) (w_al st))
      (w1c c0 (w_prev1 st)) (alc (w1c c0 (w_prev1 st)) (w_al st)).
Proof.
  intros Hg. pose proof (nth_error_lt _ _ _ Hg) as Hlt. set (pc := w_pc st) in *.
  assert (E1 : (if c0 =c NSM
                then pc1 <- upd 73 pc i (f_iso (w_prev1 st)) ;; Ok (pc1, f_iso (w_prev1 st))
                else Ok (pc, c0))
               = Ok (lset pc i (w1c c0 (w_prev1 st)), w1c c0 (w_prev1 st))).
  { unfold w1c. destruct (c0 =c NSM); [|rewrite (lset_same _ _ _ Hg); reflexivity].
    rewrite upd_lset by exact Hlt. reflexivity. }
  rewrite E1. cbn [bind]. set (c1 := w1c c0 (w_prev1 st)).
  assert (Hg1 : nth_error (lset pc i c1) i = Some c1) by (apply nth_error_lset_eq, Hlt).
  rewrite (get_some 81 _ _ _ Hg1). cbn [bind].
  assert (E3 : match c1 with
               | EN => if w_al st then upd 90 (lset pc i c1) i AN else Ok (lset pc i c1)
               | AL => upd 94 (lset pc i c1) i R
               | _ => Ok (lset pc i c1)
               end = Ok (lset pc i (w23c c1 (w_al st)))).
  { assert (Hl1 : i < length (lset pc i c1)) by (rewrite lset_length; exact Hlt).
    destruct c1; cbn [w23c]; try reflexivity.
    - rewrite upd_lset by exact Hl1. rewrite lset_lset. reflexivity.
    - destruct (w_al st); [rewrite upd_lset by exact Hl1; rewrite lset_lset|]; reflexivity. }
  rewrite E3. cbn [bind].
  rewrite (get_some 109 _ i (w23c c1 (w_al st))) by (apply nth_error_lset_eq, Hlt). reflexivity.
Qed.

Lemma weak_step_nf e text sq st r i c0 :
  nth_error (w_pc st) i = Some c0 -> c0 <> BN ->
  weak_step e text sq st (r, i) =
  bind (w456 e text sq st (alc (w1c c0 (w_prev1 st)) (w_al st))
             (w23c (w1c c0 (w_prev1 st)) (w_al st))
             (lset (w_pc st) i (w23c (w1c c0 (w_prev1 st)) (w_al st))) r i)
       (wfin (w23c (w1c c0 (w_prev1 st)) (w_al st)) (w1c c0 (w_prev1 st))
             (alc (w1c c0 (w_prev1 st)) (w_al st)) i).
Proof.
  intros Hg Hbn. unfold weak_step. rewrite (get_some 56 _ _ _ Hg). cbn [bind].
  rewrite (proj2 (ceq_neq _ _) Hbn).
  exact (w123_eval st i c0 (fun pc c456 c1 al => bind (w456 e text sq st al c456 pc r i) (wfin c456 c1 al i)) Hg).
Qed.

(* set_while_bn on indices inside the array *)
Fixpoint swb (pc : list bclass) (l : list nat) (x : bclass) : list bclass :=
  match l with
  | [] => pc
  | j :: r => if nth j pc BN =c BN then swb (lset pc j x) r x else pc
  end.

Lemma set_while_bn_swb s x : forall l pc, (forall j, In j l -> j < length pc) ->
  set_while_bn s pc l x = Ok (swb pc l x).
Proof.
  induction l as [|u l IH]; intros pc Hb; [reflexivity|]. cbn [set_while_bn swb].
  assert (Hu : u < length pc) by (apply Hb; left; reflexivity).
  rewrite (get_some _ _ _ _ (nth_error_nth' pc BN Hu)). cbn [bind].
  destruct (nth u pc BN =c BN); [|reflexivity].
  rewrite upd_lset by exact Hu. cbn [bind].
  apply IH. intros j Hj. rewrite lset_length. apply Hb. right. exact Hj.
Qed.

Lemma swb_length x : forall l pc, length (swb pc l x) = length pc.
Proof.
  induction l as [|u l IH]; intros pc; [reflexivity|]. cbn [swb].
  destruct (nth u pc BN =c BN); [|reflexivity]. rewrite IH. apply lset_length.
Qed.

Lemma swb_notin x u : forall l pc, ~ In u l -> nth_error (swb pc l x) u = nth_error pc u.
Proof.
  induction l as [|a l IH]; intros pc H; [reflexivity|]. cbn [swb].
  destruct (nth a pc BN =c BN); [|reflexivity].
  rewrite IH by (intros H'; apply H; right; exact H').
  apply nth_error_lset_neq. intros ->. apply H. left. reflexivity.
Qed.

Lemma swb_frame x j : forall l pc, (forall a, In a l -> a < length pc) ->
  nth j (swb pc l x) BN = nth j pc BN \/ (nth j pc BN = BN /\ nth j (swb pc l x) BN = x).
Proof.
  induction l as [|a l IH]; intros pc Hb; [left; reflexivity|]. cbn [swb].
  destruct (nth a pc BN =c BN) eqn:E; [|left; reflexivity]. apply ceq_eq in E.
  destruct (IH (lset pc a x)) as [H | [H1 H2]].
  { intros a' Ha'. rewrite lset_length. apply Hb. right. exact Ha'. }
  - rewrite H. destruct (Nat.eq_dec j a) as [->|N]; [|left; apply nth_lset_neq, N].
    right. split; [exact E | apply nth_lset_eq, Hb; left; reflexivity].
  - right. split; [|exact H2].
    destruct (Nat.eq_dec j a) as [->|N]; [exact E | rewrite <- (nth_lset_neq pc a x j BN N); exact H1].
Qed.

Lemma swb_lset_all x : forall l pc, NoDup l -> swb pc l x = lset_all pc (bnpre pc l) x.
Proof.
  induction l as [|a l IH]; intros pc Hnd; [reflexivity|]. cbn [swb bnpre].
  destruct (nth a pc BN =c BN); [|reflexivity]. cbn [lset_all].
  inversion Hnd as [|? ? Hni Hnd']; subst. rewrite IH by exact Hnd'.
  rewrite (bnpre_ext pc (lset pc a x) l); [reflexivity|].
  intros j Hj. apply nth_lset_neq. intros ->. contradiction.
Qed.

Definition wnext (eos : bclass) (al : bool) (pc : list bclass) (fw : list nat) : bclass :=
  let nx := opt_or (pfind not_removed_by_x9 pc fw) eos in if (nx =c EN) && al then AN else nx.

Definition wsep (eos p4 : bclass) (al : bool) (c3 : bclass) (fw bw : list nat) (pc : list bclass) (i : nat)
  : list bclass :=
  let newc := newc_of p4 c3 (wnext eos al pc fw) in
  let pc := lset pc i newc in
  if newc =c ON then swb (swb pc bw ON) fw ON else pc.

Definition w456p (eos : bclass) (fw bw : list nat) (st : w_state) (al : bool) (c3 : bclass)
           (pc : list bclass) (i : nat) : list bclass * list nat :=
  match c3 with
  | EN => (lset_all pc (w_et st) EN, [])
  | ES | CS => (wsep eos (w_prev4 st) al c3 fw bw pc i, w_et st)
  | ET => if w_prev5 st =c EN then (lset pc i EN, w_et st) else (pc, w_et st ++ w_bn st ++ [i])
  | _ => (pc, w_et st)
  end.

Definition mk_st (p4 p5 p1 : bclass) (al : bool) (et bn : list nat) (pc : list bclass) : w_state :=
  {| w_prev4 := p4; w_prev5 := p5; w_prev1 := p1; w_al := al; w_et := et; w_bn := bn; w_pc := pc |}.

Definition wflush (c3 c1 : bclass) (al : bool) (i : nat) (x : list bclass * list nat) : w_state :=
  let p5 := nth i (fst x) BN in
  mk_st c3 p5 c1 al (if p5 =c ET then snd x else []) [] (if p5 =c ET then fst x else lset_all (fst x) (snd x) ON).

Definition wstep (eos : bclass) (fw bw : list nat) (st : w_state) (i : nat) : w_state :=
  let c1 := w1c (nth i (w_pc st) BN) (w_prev1 st) in
  let c3 := w23c c1 (w_al st) in
  let al := alc c1 (w_al st) in
  wflush c3 c1 al i (w456p eos fw bw st al c3 (lset (w_pc st) i c3) i).

Lemma wfin_eval c3 c1 al i x :
  i < length (fst x) -> (nth i (fst x) BN <> ET -> forall j, In j (snd x) -> j < length (fst x)) ->
  wfin c3 c1 al i x = Ok (wflush c3 c1 al i x).
Proof.
  destruct x as [pc et]. cbn [fst snd]. intros Hi Hb. unfold wfin, wflush, mk_st. cbn [fst snd].
  rewrite (get_some _ _ _ _ (nth_error_nth' pc BN Hi)). cbn [bind].
  destruct (nth i pc BN =c ET) eqn:E; [reflexivity|].
  rewrite set_all_lset_all by (apply Hb, ceq_neq, E). reflexivity.
Qed.

Lemma w456_eval e text sq st al c3 pc k i c clen fw bw :
  i < length pc -> (forall j, In j (w_et st) -> j < length pc) ->
  t_char_at e text i = Some (c, clen) ->
  iter_forwards_from (irs_runs sq) (i + clen) k = Ok fw -> iter_backwards_from (irs_runs sq) i k = Ok bw ->
  (forall j, In j fw -> j < length pc) -> (forall j, In j bw -> j < length pc) ->
  w456 e text sq st al c3 pc k i = Ok (w456p (irs_eos sq) fw bw st al c3 pc i).
Proof.
  intros Hi Het Hc Hfw Hbw Hfb Hbb.
  assert (Hsep : w_escs e text sq st al c3 pc k i
                 = Ok (wsep (irs_eos sq) (w_prev4 st) al c3 fw bw pc i, w_et st)).
  { unfold w_escs, wsep, wnext. rewrite Hc, Hfw. cbn [bind]. rewrite fvb_pfind by exact Hfb. cbn [bind]. cbv zeta.
    rewrite upd_lset by exact Hi. cbn [bind].
    destruct (_ =c ON); [|reflexivity].
    rewrite Hbw. cbn [bind]. rewrite set_while_bn_swb by (intros j Hj; rewrite lset_length; apply Hbb, Hj).
    cbn [bind].
    rewrite set_while_bn_swb by (intros j Hj; rewrite swb_length, lset_length; apply Hfb, Hj). reflexivity. }
  destruct c3; try reflexivity; cbn [w456 w456p]; try exact Hsep.
  - rewrite set_all_lset_all by exact Het. reflexivity.
  - destruct (w_prev5 st); try reflexivity. cbn [ceq bclass_beq]. rewrite upd_lset by exact Hi. reflexivity.
Qed.

Lemma wsep_length eos p4 al c3 fw bw pc i : length (wsep eos p4 al c3 fw bw pc i) = length pc.
Proof. unfold wsep. cbv zeta. destruct (_ =c ON); rewrite ?swb_length; apply lset_length. Qed.

Lemma wsep_notin eos p4 al c3 fw bw pc i u : u <> i -> ~ In u fw -> ~ In u bw ->
  nth_error (wsep eos p4 al c3 fw bw pc i) u = nth_error pc u.
Proof.
  intros Hi Hf Hb. unfold wsep. cbv zeta. destruct (_ =c ON); rewrite ?swb_notin by assumption;
    apply nth_error_lset_neq, Hi.
Qed.

Section W456p.
Variables (eos : bclass) (fw bw : list nat) (st : w_state) (al : bool) (c3 : bclass) (pc : list bclass) (i : nat).
Let x := w456p eos fw bw st al c3 pc i.

Lemma w456p_length : length (fst x) = length pc.
Proof.
  unfold x, w456p. destruct c3; try reflexivity; cbn [fst]; try apply wsep_length.
  - apply lset_all_length.
  - destruct (w_prev5 st =c EN); [apply lset_length | reflexivity].
Qed.

Lemma w456p_et : incl (snd x) (w_et st ++ w_bn st ++ [i]).
Proof.
  unfold x, w456p. destruct c3; cbn [snd]; try apply incl_appl, incl_refl.
  - apply incl_nil_l.
  - destruct (w_prev5 st =c EN); [apply incl_appl|]; apply incl_refl.
Qed.

Lemma w456p_pend : nth i pc BN = c3 -> nth i (fst x) BN <> ET -> incl (snd x) (w_et st).
Proof.
  unfold x, w456p. intros Hc. destruct c3; cbn [fst snd]; intros H; try apply incl_refl.
  - apply incl_nil_l.
  - destruct (w_prev5 st =c EN); [apply incl_refl | contradiction].
Qed.

Lemma w456p_notin u : u <> i -> ~ In u (w_et st) -> ~ In u fw -> ~ In u bw ->
  nth_error (fst x) u = nth_error pc u.
Proof.
  intros Hi He Hf Hb. unfold x, w456p.
  destruct c3; try reflexivity; cbn [fst]; try (apply wsep_notin; assumption).
  - apply nth_error_lset_all_notin, He.
  - destruct (w_prev5 st =c EN); [apply nth_error_lset_neq, Hi | reflexivity].
Qed.
End W456p.

Lemma t_char_at_U32 cps i : i < length cps -> exists c, t_char_at U32 cps i = Some (c, 1).
Proof.
  intros H. cbn [t_char_at]. destruct (nth_error cps i) as [c|] eqn:E; [eexists; reflexivity|].
  apply nth_error_None in E. lia.
Qed.

Theorem weak_step_eval e text sq st k i c clen fw bw :
  i < length (w_pc st) -> nth i (w_pc st) BN <> BN ->
  (forall j, In j (w_et st) -> j < length (w_pc st)) ->
  t_char_at e text i = Some (c, clen) ->
  iter_forwards_from (irs_runs sq) (i + clen) k = Ok fw -> iter_backwards_from (irs_runs sq) i k = Ok bw ->
  (forall j, In j fw -> j < length (w_pc st)) -> (forall j, In j bw -> j < length (w_pc st)) ->
  weak_step e text sq st (k, i) = Ok (wstep (irs_eos sq) fw bw st i).
Proof.
  intros Hi Hc0 Het Hc Hfw Hbw Hfb Hbb.
  rewrite (weak_step_nf e text sq st k i _ (nth_error_nth' _ BN Hi) Hc0).
  set (c1 := w1c _ _). set (c3 := w23c _ _). set (al := alc _ _).
  pose proof (lset_length (w_pc st) i c3) as Hl.
  rewrite (w456_eval e text sq st al c3 _ k i c clen fw bw) by (rewrite ?Hl; assumption).
  cbn [bind]. apply wfin_eval; rewrite w456p_length, Hl; [exact Hi|].
  intros H j Hj. apply Het. revert j Hj. apply w456p_pend; [apply nth_lset_eq, Hi | exact H].
Qed.

Lemma wflush_flush c3 c1 al i pc et v : nth i pc BN = v -> v <> ET ->
  wflush c3 c1 al i (pc, et) = mk_st c3 v c1 al [] [] (lset_all pc et ON).
Proof. intros <- H. unfold wflush. cbn [fst snd]. rewrite (proj2 (ceq_neq _ _) H). reflexivity. Qed.

Lemma wsep_at eos p4 al c3 fw bw pc i : i < length pc -> ~ In i fw -> ~ In i bw ->
  nth i (wsep eos p4 al c3 fw bw pc i) BN = newc_of p4 c3 (wnext eos al pc fw).
Proof.
  intros Hi Hf Hb. apply nth_error_nth. unfold wsep. cbv zeta.
  destruct (_ =c ON); rewrite ?swb_notin by assumption; apply nth_error_lset_eq, Hi.
Qed.

Section Arms.
Variables (eos : bclass) (fw bw : list nat) (st : w_state) (i : nat).
Let pc := w_pc st.
Let c1 := w1c (nth i pc BN) (w_prev1 st).
Let c3 := w23c c1 (w_al st).
Let al := alc c1 (w_al st).
Let pc1 := lset pc i c3.
Hypothesis Hi : i < length pc.

Lemma wstep_EN : c3 = EN ->
  wstep eos fw bw st i = mk_st EN EN c1 al [] [] (lset_all pc1 (w_et st) EN).
Proof.
  intros E. unfold wstep. fold pc c1 c3 al pc1. rewrite E. cbn [w456p].
  rewrite (wflush_flush _ _ _ _ _ _ EN); [reflexivity | | discriminate].
  destruct (in_dec Nat.eq_dec i (w_et st)) as [Hin|Hin].
  - apply nth_lset_all_in; [exact Hin | unfold pc1; rewrite lset_length; exact Hi].
  - rewrite nth_lset_all_notin by exact Hin. unfold pc1. rewrite nth_lset_eq by exact Hi. exact E.
Qed.

Lemma wstep_other : c3 <> EN -> c3 <> ES -> c3 <> CS -> c3 <> ET ->
  wstep eos fw bw st i = mk_st c3 c3 c1 al [] [] (lset_all pc1 (w_et st) ON).
Proof.
  intros N1 N2 N3 N4. unfold wstep. fold pc c1 c3 al pc1.
  replace (w456p eos fw bw st al c3 pc1 i) with (pc1, w_et st) by (destruct c3; try contradiction; reflexivity).
  apply wflush_flush; [apply nth_lset_eq, Hi | exact N4].
Qed.

Lemma wstep_ET_en : c3 = ET -> w_prev5 st = EN ->
  wstep eos fw bw st i = mk_st ET EN c1 al [] [] (lset_all (lset pc1 i EN) (w_et st) ON).
Proof.
  intros E E5. unfold wstep. fold pc c1 c3 al pc1. rewrite E. cbn [w456p]. rewrite E5. cbn [ceq bclass_beq].
  apply wflush_flush; [apply nth_lset_eq; unfold pc1; rewrite lset_length; exact Hi | discriminate].
Qed.

Lemma wstep_ET_join : c3 = ET -> w_prev5 st <> EN ->
  wstep eos fw bw st i = mk_st ET ET c1 al (w_et st ++ w_bn st ++ [i]) [] pc1.
Proof.
  intros E E5. unfold wstep. fold pc c1 c3 al pc1. rewrite E. cbn [w456p]. rewrite (proj2 (ceq_neq _ _) E5).
  unfold wflush. cbn [fst snd]. unfold pc1. rewrite nth_lset_eq by exact Hi. rewrite E. reflexivity.
Qed.

Lemma wstep_sep : c3 = ES \/ c3 = CS -> ~ In i fw -> ~ In i bw ->
  let pc3 := wsep eos (w_prev4 st) al c3 fw bw pc1 i in
  wstep eos fw bw st i = mk_st c3 (nth i pc3 BN) c1 al [] [] (lset_all pc3 (w_et st) ON).
Proof.
  intros E Hf Hb pc3. unfold wstep. fold pc c1 c3 al pc1.
  replace (w456p eos fw bw st al c3 pc1 i) with (pc3, w_et st) by (destruct E as [-> | ->]; reflexivity).
  apply wflush_flush; [reflexivity|].
  unfold pc3. rewrite wsep_at by (unfold pc1; rewrite ?lset_length; assumption).
  destruct (newc_of_range (w_prev4 st) c3 (wnext eos al pc1 fw)) as [-> | [-> | ->]]; discriminate.
Qed.
End Arms.

Section Wstep.
Variables (eos : bclass) (fw bw : list nat) (st : w_state) (i : nat).
Let st' := wstep eos fw bw st i.

Lemma wstep_length : length (w_pc st') = length (w_pc st).
Proof.
  unfold st', wstep, wflush. cbv zeta. cbn [mk_st w_pc].
  destruct (_ =c ET); rewrite ?lset_all_length, w456p_length; apply lset_length.
Qed.

Lemma wstep_et : incl (w_et st') (w_et st ++ w_bn st ++ [i]).
Proof.
  unfold st', wstep, wflush. cbv zeta. cbn [mk_st w_et]. destruct (_ =c ET); [apply w456p_et | apply incl_nil_l].
Qed.

Lemma wstep_notin u : ~ In u (i :: w_et st ++ w_bn st ++ fw ++ bw) ->
  nth_error (w_pc st') u = nth_error (w_pc st) u.
Proof.
  intros H.
  assert (Hi : u <> i) by (intros ->; apply H; left; reflexivity).
  assert (He : ~ In u (w_et st ++ w_bn st ++ [i])).
  { rewrite !in_app_iff. cbn [In]. intros [H'|[H'|[H'|[]]]]; [| |symmetry in H'; contradiction];
      apply H; right; rewrite !in_app_iff; tauto. }
  unfold st', wstep. cbv zeta. set (c3 := w23c _ _). set (x := w456p _ _ _ _ _ _ _ _).
  assert (E : nth_error (fst x) u = nth_error (w_pc st) u).
  { unfold x. rewrite w456p_notin; [apply nth_error_lset_neq, Hi | exact Hi | | |];
      intros H'; apply H; right; rewrite !in_app_iff; tauto. }
  unfold wflush. cbv zeta. cbn [mk_st w_pc]. destruct (_ =c ET); [exact E|].
  rewrite nth_error_lset_all_notin; [exact E|]. intros H'. apply He. revert H'. apply w456p_et.
Qed.
End Wstep.

(* the second loop (W7) carries one flag, "the last strong class is L"; what a class does to it *)
Definition w7b (c : bclass) (b : bool) : bool :=
  match c with L => true | R | AL => false | _ => b end.

Lemma weak_fold_app e text sq l1 : forall st l2,
  weak_fold e text sq st (l1 ++ l2) = (st' <- weak_fold e text sq st l1 ;; weak_fold e text sq st' l2).
Proof.
  induction l1 as [|x r IH]; intros st l2; cbn [app weak_fold bind]; [reflexivity|].
  destruct (weak_step e text sq st x) as [st'|s]; cbn [bind]; [apply IH|reflexivity].
Qed.

Definition unit_items (lens : list nat) (ri : nat * nat) : list (nat * nat) :=
  map (fun i => (fst ri, i)) (units lens (snd ri)).

Lemma indexed_units_units lens runs : forall k0,
  indexed_units k0 (map (urun lens) runs) = flat_map (unit_items lens) (indexed_units k0 runs).
Proof.
  induction runs as [|r rest IH]; intros k0; [reflexivity|].
  cbn [map indexed_units]. rewrite flat_map_app, IH. f_equal.
  rewrite run_range_urun. rewrite flat_map_map. unfold unit_items. cbn [fst snd].
  induction (run_range r) as [|x xs IHx]; [reflexivity|].
  cbn [flat_map map]. rewrite map_app, IHx. reflexivity.
Qed.

(* a character-level vector and a unit-level vector, with one exceptional character [ci] whose units
   carry [wf t] (t = offset inside the character) *)

Section Rel.
Variable lens : list nat.

Definition rel (ci : nat) (wf : nat -> bclass) (pc_c pc_u : list bclass) : Prop :=
  length pc_c = length lens /\ length pc_u = total lens /\
  forall j t, t < nth j lens 0 ->
    nth_error pc_u (ustart lens j + t) = if j =? ci then Some (wf t) else nth_error pc_c j.

Lemma rel_get_ci ci wf pc_c pc_u t :
  rel ci wf pc_c pc_u -> t < nth ci lens 0 -> nth_error pc_u (ustart lens ci + t) = Some (wf t).
Proof. intros (_ & _ & H) Ht. rewrite (H ci t Ht), Nat.eqb_refl. reflexivity. Qed.

Lemma rel_get_other ci wf pc_c pc_u j t :
  rel ci wf pc_c pc_u -> j <> ci -> t < nth j lens 0 ->
  nth_error pc_u (ustart lens j + t) = nth_error pc_c j.
Proof.
  intros (_ & _ & H) Hj Ht. rewrite (H j t Ht).
  destruct (Nat.eqb_spec j ci); [contradiction|reflexivity].
Qed.

Lemma rel_ext ci wf wf' pc_c pc_u :
  (forall t, t < nth ci lens 0 -> wf t = wf' t) -> rel ci wf pc_c pc_u -> rel ci wf' pc_c pc_u.
Proof.
  intros E (H1 & H2 & H). split; [exact H1|]. split; [exact H2|].
  intros j t Ht. rewrite (H j t Ht). destruct (Nat.eqb_spec j ci) as [->|]; [|reflexivity].
  rewrite E by exact Ht. reflexivity.
Qed.

Lemma rel_lset_u ci wf pc_c pc_u t0 x :
  rel ci wf pc_c pc_u -> t0 < nth ci lens 0 ->
  rel ci (fun t => if t =? t0 then x else wf t) pc_c (lset pc_u (ustart lens ci + t0) x).
Proof.
  intros (H1 & H2 & H) Ht0. split; [exact H1|]. split; [rewrite lset_length; exact H2|].
  intros j t Ht. rewrite nth_error_lset.
  pose proof (coord_lt_total lens ci t0 Ht0) as Hlt.
  destruct (Nat.eqb_spec (ustart lens j + t) (ustart lens ci + t0)) as [E|E].
  - apply (coord_unique lens j t ci t0 Ht Ht0) in E as [-> ->].
    rewrite !Nat.eqb_refl.
    destruct (Nat.ltb_spec (ustart lens ci + t0) (length pc_u)) as [_|L]; [reflexivity|lia].
  - cbn [andb]. rewrite (H j t Ht). destruct (Nat.eqb_spec j ci) as [->|]; [|reflexivity].
    destruct (Nat.eqb_spec t t0) as [->|]; [contradiction E; reflexivity|reflexivity].
Qed.

Lemma rel_lset_c ci wf pc_c pc_u x :
  rel ci wf pc_c pc_u -> rel ci wf (lset pc_c ci x) pc_u.
Proof.
  intros (H1 & H2 & H). split; [rewrite lset_length; exact H1|]. split; [exact H2|].
  intros j t Ht. rewrite (H j t Ht). destruct (Nat.eqb_spec j ci) as [->|N]; [reflexivity|].
  rewrite nth_error_lset_neq by exact N. reflexivity.
Qed.

Lemma rel_of_expand ci c0 pc_c :
  length pc_c = length lens -> (ci < length lens -> nth_error pc_c ci = Some c0) ->
  rel ci (fun _ => c0) pc_c (expand lens pc_c).
Proof.
  intros H1 Hc. split; [exact H1|]. split; [apply expand_length; exact H1|].
  intros j t Ht. rewrite expand_nth by assumption.
  destruct (Nat.eqb_spec j ci) as [->|]; [|reflexivity].
  apply Hc. apply (coord_lt lens ci t Ht).
Qed.

Lemma expand_of_rel ci wf pc_c pc_u :
  rel ci wf pc_c pc_u ->
  (forall t, t < nth ci lens 0 -> nth_error pc_c ci = Some (wf t)) ->
  pc_u = expand lens pc_c.
Proof.
  intros (H1 & H2 & H) Hc. apply (list_ext_coord lens); [exact H2 | apply expand_length; exact H1|].
  intros j t Ht. rewrite expand_nth by assumption. rewrite (H j t Ht).
  destruct (Nat.eqb_spec j ci) as [->|]; [|reflexivity]. symmetry. apply Hc. exact Ht.
Qed.

Lemma rel_lset_all ci wf pc_c pc_u idxs (f : nat -> list nat) x :
  (forall j, In j idxs -> forall u, In u (f j) <-> In u (units lens j)) ->
  rel ci wf pc_c pc_u -> ~ In ci idxs -> (forall j, In j idxs -> j < length lens) ->
  rel ci wf (lset_all pc_c idxs x) (lset_all pc_u (flat_map f idxs) x).
Proof.
  intros Hf (H1 & H2 & H) Hci Hlt.
  split; [rewrite lset_all_length; exact H1|]. split; [rewrite lset_all_length; exact H2|].
  intros j t Ht.
  assert (Hin : In (ustart lens j + t) (flat_map f idxs) <-> In j idxs).
  { rewrite <- (in_flat_units lens idxs j t Ht), !in_flat_map.
    split; intros (j' & A & B); exists j'; (split; [exact A|]); apply (Hf j' A); exact B. }
  destruct (in_dec Nat.eq_dec j idxs) as [Hj|Hj].
  - rewrite nth_error_lset_all_in;
      [| apply Hin; exact Hj | rewrite H2; apply coord_lt_total; exact Ht].
    destruct (Nat.eqb_spec j ci) as [->|]; [contradiction|].
    symmetry. apply nth_error_lset_all_in; [exact Hj | rewrite H1; apply Hlt; exact Hj].
  - rewrite nth_error_lset_all_notin by (rewrite Hin; exact Hj).
    rewrite (H j t Ht). destruct (Nat.eqb_spec j ci) as [->|]; [reflexivity|].
    symmetry. apply nth_error_lset_all_notin. exact Hj.
Qed.

Lemma rel_set_all s ci wf pc_c pc_u idxs x pc_c' :
  rel ci wf pc_c pc_u -> ~ In ci idxs ->
  set_all s pc_c idxs x = Ok pc_c' ->
  exists pc_u', set_all s pc_u (flat_map (units lens) idxs) x = Ok pc_u' /\
                rel ci wf pc_c' pc_u' /\ nth_error pc_c' ci = nth_error pc_c ci.
Proof.
  intros R Hci Hs. apply set_all_ok_inv in Hs as [Hlt ->].
  pose proof R as (H1 & H2 & _). rewrite H1 in Hlt.
  exists (lset_all pc_u (flat_map (units lens) idxs) x). split; [|split].
  - apply set_all_lset_all. intros u Hu. apply in_flat_map in Hu as (j & _ & Hu).
    rewrite H2. apply (units_lt lens j u Hu).
  - apply rel_lset_all; try assumption. intros; reflexivity.
  - apply nth_error_lset_all_notin. exact Hci.
Qed.

Lemma rel_lset_char ci wf pc_c pc_u j (f : nat -> list nat) x :
  (forall u, In u (f j) <-> In u (units lens j)) ->
  rel ci wf pc_c pc_u -> j <> ci -> j < length lens ->
  rel ci wf (lset pc_c j x) (lset_all pc_u (f j) x).
Proof.
  intros Hf R Hj Hlt. pose proof (rel_lset_all ci wf pc_c pc_u [j] f x) as G.
  cbn [lset_all flat_map] in G. rewrite app_nil_r in G.
  apply G; [intros j' [<-|[]]; exact Hf | exact R | intros [E|[]]; congruence | intros j' [<-|[]]; exact Hlt].
Qed.

(* no exceptional character: take the index past the last one *)
Lemma rel_none wf pc_c : length pc_c = length lens -> rel (length lens) wf pc_c (expand lens pc_c).
Proof.
  intros H. split; [exact H|]. split; [apply expand_length, H|].
  intros j t Ht. rewrite expand_nth by assumption. pose proof (coord_lt lens j t Ht).
  destruct (Nat.eqb_spec j (length lens)); [lia|reflexivity].
Qed.

Lemma rel_none_inv wf pc_c pc_u : rel (length lens) wf pc_c pc_u -> pc_u = expand lens pc_c.
Proof.
  intros R. apply (expand_of_rel _ _ _ _ R). intros t Ht. rewrite nth_overflow in Ht by lia. lia.
Qed.

End Rel.

Lemma cas32 t : forall i,
  match nth_error t i with Some c => Some (c, 1) | None => None end
  = char_at_spec (map (fun c : N => (c, 1)) t) i.
Proof.
  induction t as [|c r IH]; intros i; [destruct i; reflexivity|].
  destruct i as [|i]; [reflexivity|].
  cbn [nth_error map]. rewrite cas_cons_1. apply IH.
Qed.

Lemma t_char_at_spec e text i :
  valid_text e text -> t_char_at e text i = char_at_spec (view_of e text) i.
Proof.
  destruct e; cbn [valid_text t_char_at view_of]; intros Hv.
  - apply char_at8_spec.
  - apply char_at16_spec. exact Hv.
  - apply cas32.
Qed.

Lemma cas_coord chars : forall j t,
  Forall (fun ch : N * nat => 0 < snd ch) chars ->
  t < nth j (map snd chars) 0 ->
  char_at_spec chars (ustart (map snd chars) j + t)
  = if t =? 0 then match nth_error chars j with
                   | Some ch => Some (fst ch, nth j (map snd chars) 0) | None => None end
    else None.
Proof.
  induction chars as [|[c l] r IH]; intros j t Hp Ht.
  - destruct j; cbn [map nth] in Ht; lia.
  - inversion Hp as [|? ? Hl Hr]; subst. cbn [snd] in Hl. cbn [map snd] in *.
    destruct j as [|j].
    + rewrite ustart_0. cbn [nth] in *. cbn [Nat.add char_at_spec nth_error fst].
      destruct (Nat.eqb_spec t 0); [reflexivity|].
      destruct (Nat.ltb_spec t l); [reflexivity|lia].
    + rewrite ustart_cons. cbn [nth] in *. rewrite <- Nat.add_assoc, cas_skip by lia.
      cbn [nth_error]. apply IH; assumption.
Qed.

Section Units.
Variable lens : list nat.
Hypothesis Hpos : forall j, j < length lens -> 0 < nth j lens 0.

Definition dirfun (f : nat -> list nat) : Prop :=
  forall j, NoDup (f j) /\ forall u, In u (f j) <-> In u (units lens j).

Lemma dirfun_units : dirfun (units lens).
Proof. intros j. split; [apply seq_NoDup|intros; reflexivity]. Qed.

Lemma dirfun_runits : dirfun (runits lens).
Proof.
  intros j. unfold runits. split.
  - apply NoDup_rev. apply seq_NoDup.
  - intros u. symmetry. apply in_rev.
Qed.

Lemma dirfun_nonempty f j : dirfun f -> j < length lens -> exists u tl, f j = u :: tl.
Proof.
  intros Hf H. pose proof (units_cons lens j (Hpos j H)) as E.
  destruct (f j) as [|u l] eqn:Ef; [|eexists; eexists; reflexivity].
  destruct (Hf j) as [_ Hi]. specialize (Hi (ustart lens j)). rewrite Ef, E in Hi.
  exfalso. apply Hi. left. reflexivity.
Qed.

Lemma rel_swb s x ci wf f : dirfun f -> forall idxs pc_c pc_u pc_c',
  rel lens ci wf pc_c pc_u ->
  (forall t, t < nth ci lens 0 -> wf t <> BN) ->
  (nth_error pc_c ci <> Some BN) ->
  set_while_bn s pc_c idxs x = Ok pc_c' ->
  exists pc_u', set_while_bn s pc_u (flat_map f idxs) x = Ok pc_u' /\
                rel lens ci wf pc_c' pc_u' /\ nth_error pc_c' ci = nth_error pc_c ci.
Proof.
  intros Hf. induction idxs as [|j rest IH]; intros pc_c pc_u pc_c' R Hw Hc Hs.
  - cbn [set_while_bn] in Hs. inversion Hs; subst. exists pc_u. cbn [flat_map set_while_bn].
    split; [reflexivity|]. split; [exact R|reflexivity].
  - cbn [set_while_bn] in Hs. apply bind_ok in Hs as (c & Hg & Hs). apply get_ok in Hg.
    pose proof R as (Hl1 & Hl2 & Hpt).
    assert (Hj : j < length lens) by (rewrite <- Hl1; apply nth_error_lt in Hg; exact Hg).
    cbn [flat_map]. destruct (c =c BN) eqn:Ec.
    + apply ceq_eq in Ec. subst c.
      apply bind_ok in Hs as (pc1 & Hu & Hs). apply upd_ok_inv in Hu as [_ ->].
      assert (Hjc : j <> ci) by (intros ->; contradiction).
      destruct (Hf j) as [Hnd Hin].
      rewrite swb_block; [| exact Hnd |].
      2:{ intros u Hu. apply Hin, in_units in Hu as (t & Ht & ->).
          rewrite (rel_get_other lens ci wf pc_c pc_u j t R Hjc Ht). exact Hg. }
      pose proof (rel_lset_char lens ci wf pc_c pc_u j f x Hin R Hjc Hj) as R1.
      assert (Hc1 : nth_error (lset pc_c j x) ci <> Some BN).
      { rewrite nth_error_lset_neq by (intros E; symmetry in E; contradiction). exact Hc. }
      destruct (IH _ _ _ R1 Hw Hc1 Hs) as (pc_u' & G1 & G2 & G3).
      exists pc_u'. split; [exact G1|]. split; [exact G2|].
      rewrite G3. apply nth_error_lset_neq. intros E; symmetry in E; contradiction.
    + inversion Hs; subst pc_c'. apply ceq_neq in Ec.
      destruct (dirfun_nonempty f j Hf Hj) as (u & tl & Ef). rewrite Ef. cbn [app].
      destruct (Hf j) as [_ Hin].
      assert (Hu : In u (units lens j)) by (apply Hin; rewrite Ef; left; reflexivity).
      apply in_units in Hu as (t & Ht & ->).
      exists pc_u. split; [|split; [exact R|reflexivity]].
      destruct (Nat.eq_dec j ci) as [->|Hjc].
      * apply (swb_stop s x pc_u _ _ (wf t)); [apply (rel_get_ci lens ci wf pc_c); assumption|].
        apply Hw. exact Ht.
      * apply (swb_stop s x pc_u _ _ c); [|exact Ec].
        rewrite (rel_get_other lens ci wf pc_c pc_u j t R Hjc Ht). exact Hg.
Qed.

Lemma rel_fvb s p ci wf : forall idxs pc_c pc_u r,
  rel lens ci wf pc_c pc_u ->
  (ci < length lens -> nth_error pc_c ci = Some (wf 0) /\ p (wf 0) = true) ->
  find_value_by s p pc_c idxs = Ok r ->
  find_value_by s p pc_u (flat_map (units lens) idxs) = Ok r.
Proof.
  induction idxs as [|j rest IH]; intros pc_c pc_u r R Hc Hs.
  - exact Hs.
  - cbn [find_value_by] in Hs. apply bind_ok in Hs as (c & Hg & Hs). apply get_ok in Hg.
    pose proof R as (Hl1 & Hl2 & Hpt).
    assert (Hj : j < length lens) by (rewrite <- Hl1; apply nth_error_lt in Hg; exact Hg).
    cbn [flat_map]. destruct (p c) eqn:Ep.
    + inversion Hs; subst r. rewrite (units_cons lens j (Hpos j Hj)). cbn [app].
      apply fvb_hit; [|exact Ep].
      replace (ustart lens j) with (ustart lens j + 0) by lia.
      destruct (Nat.eq_dec j ci) as [->|Hjc].
      * rewrite (rel_get_ci lens ci wf pc_c pc_u 0 R (Hpos ci Hj)).
        destruct (Hc Hj) as [Hc1 _]. congruence.
      * rewrite (rel_get_other lens ci wf pc_c pc_u j 0 R Hjc (Hpos j Hj)). exact Hg.
    + assert (Hjc : j <> ci).
      { intros ->. destruct (Hc Hj) as [Hc1 Hc2]. congruence. }
      rewrite fvb_skip; [apply (IH pc_c pc_u r R Hc Hs)|].
      intros u Hu. apply in_units in Hu as (t & Ht & ->). exists c. split; [|exact Ep].
      rewrite (rel_get_other lens ci wf pc_c pc_u j t R Hjc Ht). exact Hg.
Qed.

Lemma w7_ro_same pc c l : forall b rest,
  (forall u, In u l -> nth_error pc u = Some c) -> (c = EN -> b = false) -> w7b c b = b ->
  w7_fold pc b (l ++ rest) = w7_fold pc b rest.
Proof.
  induction l as [|u l IH]; intros b rest H Hen Hb; [reflexivity|].
  cbn [app w7_fold]. rewrite (get_some _ _ _ _ (H u (or_introl eq_refl))). cbn [bind].
  assert (IH' := IH b rest (fun u' Hu' => H u' (or_intror Hu')) Hen Hb).
  destruct c; cbn [w7b] in Hb; try exact IH'; try (subst b; exact IH').
  specialize (Hen eq_refl). subst b. exact IH'.
Qed.

Lemma w7_ro pc c u l b rest :
  (forall u', In u' (u :: l) -> nth_error pc u' = Some c) -> (c = EN -> b = false) ->
  w7_fold pc b ((u :: l) ++ rest) = w7_fold pc (w7b c b) rest.
Proof.
  intros H Hen.
  assert (G : w7_fold pc b ((u :: l) ++ rest) = w7_fold pc (w7b c b) (l ++ rest)).
  { cbn [app w7_fold]. rewrite (get_some _ _ _ _ (H u (or_introl eq_refl))). cbn [bind].
    destruct c; cbn [w7b]; try reflexivity. rewrite (Hen eq_refl). reflexivity. }
  rewrite G. apply (w7_ro_same pc c).
  - intros u' Hu'. apply H. right. exact Hu'.
  - intros ->. cbn [w7b]. apply Hen. reflexivity.
  - destruct c; reflexivity.
Qed.

Lemma w7_en l : forall pc rest,
  NoDup l -> (forall u, In u l -> nth_error pc u = Some EN) ->
  w7_fold pc true (l ++ rest) = w7_fold (lset_all pc l L) true rest.
Proof.
  induction l as [|u l IH]; intros pc rest Hnd H; [reflexivity|].
  cbn [app w7_fold lset_all].
  assert (Hu : nth_error pc u = Some EN) by (apply H; left; reflexivity).
  rewrite (get_some _ _ _ _ Hu). cbn [bind].
  rewrite upd_lset by (apply nth_error_lt in Hu; exact Hu). cbn [bind].
  inversion Hnd as [|? ? Hni Hnd']; subst.
  apply IH; [exact Hnd'|].
  intros u' Hu'. rewrite nth_error_lset_neq; [apply H; right; exact Hu'|].
  intros ->. contradiction.
Qed.

Lemma w7_sim : forall idxs pc_c b out,
  length pc_c = length lens ->
  w7_fold pc_c b idxs = Ok out ->
  w7_fold (expand lens pc_c) b (flat_map (units lens) idxs) = Ok (expand lens out).
Proof.
  induction idxs as [|j rest IH]; intros pc_c b out Hl Hs.
  - cbn [w7_fold] in Hs. inversion Hs. reflexivity.
  - cbn [w7_fold] in Hs. apply bind_ok in Hs as (c & Hg & Hs). apply get_ok in Hg.
    assert (Hj : j < length lens) by (rewrite <- Hl; apply nth_error_lt in Hg; exact Hg).
    cbn [flat_map].
    assert (Hall : forall u, In u (units lens j) -> nth_error (expand lens pc_c) u = Some c).
    { intros u. apply expand_units; assumption. }
    pose proof (units_cons lens j (Hpos j Hj)) as E.
    assert (Hro : (c = EN -> b = false) ->
                  w7_fold pc_c (w7b c b) rest = Ok out ->
                  w7_fold (expand lens pc_c) b (units lens j ++ flat_map (units lens) rest)
                  = Ok (expand lens out)).
    { intros Hen Hs'. rewrite E. rewrite (w7_ro _ c); [| rewrite <- E; exact Hall | exact Hen].
      apply IH; assumption. }
    destruct c; try (apply Hro; [discriminate | exact Hs]).
    destruct b.
    + apply bind_ok in Hs as (pc1 & Hu & Hs). apply upd_ok_inv in Hu as [_ ->].
      rewrite w7_en; [| apply seq_NoDup | exact Hall].
      rewrite (lset_all_units lens pc_c (units lens j) j L Hl) by reflexivity.
      apply IH; [rewrite lset_length; exact Hl | exact Hs].
    + apply Hro; [reflexivity | exact Hs].
Qed.

End Units.

(* [v] is a class that W4-W6 may leave on a character whose class after W3 is [c456] *)
Definition vok (c456 v : bclass) : Prop :=
  match c456 with
  | EN => v = EN
  | ES | CS => v = EN \/ v = AN \/ v = ON
  | ET => v = EN \/ v = ET
  | _ => v = c456
  end.

Lemma vok_other c456 v :
  c456 <> EN -> c456 <> ES -> c456 <> CS -> c456 <> ET -> vok c456 v <-> v = c456.
Proof. intros; destruct c456; try contradiction; reflexivity. Qed.

Lemma firstn_S_seq s len m : m < len -> firstn (S m) (seq s len) = firstn m (seq s len) ++ [s + m].
Proof.
  revert s m. induction len as [|len IH]; intros s m H; [lia|].
  destruct m as [|m].
  - cbn [seq firstn app]. rewrite Nat.add_0_r. reflexivity.
  - cbn [seq]. rewrite (firstn_cons (S m)). rewrite IH by lia. cbn [firstn app].
    replace (S s + m) with (s + S m) by lia. reflexivity.
Qed.

Lemma firstn_S_units lens ci m : m < nth ci lens 0 ->
  firstn (S m) (units lens ci) = firstn m (units lens ci) ++ [ustart lens ci + m].
Proof. intros H. unfold units. apply firstn_S_seq. exact H. Qed.

Section Sim.
Variable e : enc.
Variable text : list N.
Hypothesis Hvalid : valid_text e text.
Let chars := view_of e text.
Let cps := map fst chars.
Let lens := map snd chars.

Lemma chars_pos : Forall (fun ch : N * nat => 0 < snd ch) chars.
Proof. apply Forall_map. exact (view_lens_pos e text Hvalid). Qed.

Lemma lens_pos : forall j, j < length lens -> 0 < nth j lens 0.
Proof. intros j. apply lens_pos_nth. exact (view_lens_pos e text Hvalid). Qed.

Lemma len_cps : length cps = length lens.
Proof. unfold cps, lens. rewrite !map_length. reflexivity. Qed.

Lemma tca_first ci : ci < length lens ->
  exists c, t_char_at e text (ustart lens ci) = Some (c, nth ci lens 0).
Proof.
  intros H. rewrite (t_char_at_spec e text _ Hvalid). fold chars.
  pose proof (cas_coord chars ci 0 chars_pos (lens_pos ci H)) as G. fold lens in G.
  rewrite Nat.add_0_r in G. rewrite G. cbn [Nat.eqb].
  destruct (nth_error chars ci) as [ch|] eqn:E.
  - eexists. reflexivity.
  - apply nth_error_None in E. unfold lens in H. rewrite map_length in H. lia.
Qed.

Lemma tca_mid ci t : 0 < t -> t < nth ci lens 0 -> t_char_at e text (ustart lens ci + t) = None.
Proof.
  intros H0 H. rewrite (t_char_at_spec e text _ Hvalid). fold chars.
  pose proof (cas_coord chars ci t chars_pos H) as G. fold lens in G. rewrite G.
  destruct (Nat.eqb_spec t 0); [lia|reflexivity].
Qed.

Lemma tca32 ci : ci < length lens -> exists c, t_char_at U32 cps ci = Some (c, 1).
Proof. intros H. apply t_char_at_U32. rewrite len_cps. exact H. Qed.

Definition SimS (A U : w_state) : Prop :=
  w_prev4 U = w_prev4 A /\ w_prev5 U = w_prev5 A /\ w_prev1 U = w_prev1 A /\ w_al U = w_al A /\
  w_et U = flat_map (units lens) (w_et A) /\ w_bn U = flat_map (units lens) (w_bn A) /\
  length (w_pc A) = length lens /\ w_pc U = expand lens (w_pc A).

Definition Inv (A : w_state) : Prop :=
  (w_prev5 A <> ET -> w_et A = []) /\
  (forall j, In j (w_et A) -> nth_error (w_pc A) j = Some ET \/ nth_error (w_pc A) j = Some BN) /\
  (forall j, In j (w_bn A) -> nth_error (w_pc A) j = Some BN).

Definition Post (c0 : bclass) (A' : w_state) : Prop :=
  w1c c0 (w_prev1 A') = w_prev1 A' /\ alc (w_prev1 A') (w_al A') = w_al A' /\
  w23c (w_prev1 A') (w_al A') = w_prev4 A' /\ vok (w_prev4 A') (w_prev5 A').

Definition Mid (m ci : nat) (c0 : bclass) (A' U : w_state) : Prop :=
  w_prev4 U = w_prev4 A' /\ w_prev5 U = w_prev5 A' /\ w_prev1 U = w_prev1 A' /\ w_al U = w_al A' /\
  w_bn U = [] /\ w_bn A' = [] /\
  rel lens ci (fun t => if t <? m then w_prev5 A' else c0) (w_pc A') (w_pc U) /\
  nth_error (w_pc A') ci = Some (w_prev5 A') /\
  ((w_prev5 A' = ET /\ exists pre, w_et A' = pre ++ [ci] /\
                                   w_et U = flat_map (units lens) pre ++ firstn m (units lens ci))
   \/ (w_prev5 A' <> ET /\ w_et A' = [] /\ w_et U = [])).

Lemma mid_to_sim ci c0 A' U : Mid (nth ci lens 0) ci c0 A' U -> SimS A' U.
Proof.
  intros (H4 & H5 & H1 & Hal & Hbn & Hbn' & R & Hv & Het).
  unfold SimS. repeat (split; [assumption|]).
  split; [|split; [|split]].
  - destruct Het as [(_ & pre & -> & ->)|(_ & -> & ->)]; [|reflexivity].
    rewrite flat_map_app. cbn [flat_map]. rewrite app_nil_r. f_equal.
    apply firstn_all2. unfold units. rewrite seq_length. lia.
  - rewrite Hbn, Hbn'. reflexivity.
  - destruct R as (R1 & _). exact R1.
  - apply (expand_of_rel lens ci _ _ _ R).
    intros t Ht. destruct (Nat.ltb_spec t (nth ci lens 0)); [exact Hv|lia].
Qed.

Lemma later_unit sq r m ci c0 A' U :
  Mid m ci c0 A' U -> Post c0 A' -> c0 <> BN -> 0 < m -> m < nth ci lens 0 ->
  exists U', weak_step e text (useq lens sq) U (r, ustart lens ci + m) = Ok U' /\ Mid (S m) ci c0 A' U'.
Proof.
  intros (H4 & H5 & H1 & Hal & Hbn & Hbn' & R & Hv & Het) (P1 & P2 & P3 & P4) Hc0 Hm0 Hm.
  set (i := ustart lens ci + m).
  set (v := w_prev5 A') in *.
  assert (Hg : nth_error (w_pc U) i = Some c0).
  { unfold i. rewrite (rel_get_ci lens ci _ _ _ m R Hm).
    destruct (Nat.ltb_spec m m); [lia|reflexivity]. }
  assert (Hgp : nth_error (w_pc U) (i - 1) = Some v).
  { unfold i. replace (ustart lens ci + m - 1) with (ustart lens ci + (m - 1)) by lia.
    rewrite (rel_get_ci lens ci _ _ _ (m - 1) R) by lia.
    destruct (Nat.ltb_spec (m - 1) m); [reflexivity|lia]. }
  pose proof (nth_error_lt _ _ _ Hg) as Hlt.
  rewrite (weak_step_nf e text (useq lens sq) U r i c0 Hg Hc0).
  rewrite H1, Hal, P1, P2, P3.
  set (c456 := w_prev4 A') in *. set (c1 := w_prev1 A'). set (al := w_al A').
  assert (Hw : w456 e text (useq lens sq) U al c456 (lset (w_pc U) i c456) r i
               = Ok (lset (w_pc U) i v, if v =c ET then w_et U ++ [i] else [])).
  { assert (Hnil : v <> ET -> w_et U = []).
    { intros Hne. destruct Het as [(E & _)|(_ & _ & E)]; [contradiction|exact E]. }
    destruct (classify456 c456) as [E|[E|[E|(E1 & E2 & E3 & E4)]]].
    - rewrite E in *. cbn [vok] in P4. rewrite P4. cbn [w456]. rewrite Hnil by (rewrite P4; discriminate).
      reflexivity.
    - assert (P4' : v = EN \/ v = AN \/ v = ON) by (destruct E as [E | E]; rewrite E in P4; exact P4).
      rewrite (w456_sep _ _ _ _ _ _ _ _ _ E). unfold w_escs.
      unfold i at 1. rewrite (tca_mid ci m Hm0 Hm). fold i.
      destruct (Nat.eqb_spec i 0) as [Z|_]; [unfold i in Z; lia|].
      rewrite (get_some 179 _ (i - 1) v) by (rewrite nth_error_lset_neq by lia; exact Hgp).
      cbn [bind]. rewrite upd_lset by (rewrite lset_length; exact Hlt). cbn [bind]. rewrite lset_lset.
      rewrite Hnil by (destruct P4' as [->|[->| ->]]; discriminate).
      destruct P4' as [->|[->| ->]]; reflexivity.
    - rewrite E in *. cbn [vok] in P4. destruct P4 as [P4|P4].
      + rewrite w456_ET_en by (rewrite H5; exact P4).
        rewrite upd_lset by (rewrite lset_length; exact Hlt). cbn [bind]. rewrite lset_lset.
        rewrite Hnil by (rewrite P4; discriminate). rewrite P4. reflexivity.
      + rewrite w456_ET_join by (rewrite H5; fold v; rewrite P4; discriminate).
        rewrite Hbn. rewrite P4. cbn [app ceq]. reflexivity.
    - rewrite w456_other by assumption.
      apply (vok_other c456 v E1 E2 E3 E4) in P4. rewrite P4.
      rewrite Hnil by (rewrite P4; exact E4).
      apply ceq_neq in E4. rewrite E4. reflexivity. }
  rewrite Hw. cbn [bind wfin].
  rewrite (get_some 208 _ i v) by (apply nth_error_lset_eq; exact Hlt). cbn [bind].
  assert (Rn : rel lens ci (fun t => if t <? S m then v else c0) (w_pc A') (lset (w_pc U) i v)).
  { apply (rel_ext lens ci (fun t => if t =? m then v else if t <? m then v else c0)).
    - intros t _. destruct (Nat.eqb_spec t m); destruct (Nat.ltb_spec t m); destruct (Nat.ltb_spec t (S m));
        try reflexivity; lia.
    - apply (rel_lset_u lens ci _ _ _ m v R Hm). }
  destruct (v =c ET) eqn:Ev.
  - apply ceq_eq in Ev. cbn [bind]. eexists. split; [reflexivity|].
    unfold Mid. cbn [w_prev4 w_prev5 w_prev1 w_al w_bn w_pc w_et]. fold v.
    (* the clauses of [Mid] on scalars hold by computation or are hypotheses; the one on the pending ETs is left *)
    repeat (split; [first [reflexivity|assumption]|]).
    left. split; [exact Ev|].
    destruct Het as [(_ & pre & Ea & Eu)|(Hne & _)]; [|contradiction].
    exists pre. split; [exact Ea|]. rewrite Eu.
    rewrite firstn_S_units by exact Hm. rewrite app_assoc. reflexivity.
  - cbn [set_all bind]. eexists. split; [reflexivity|].
    unfold Mid. cbn [w_prev4 w_prev5 w_prev1 w_al w_bn w_pc w_et]. fold v.
    repeat (split; [first [reflexivity|assumption]|]).
    right. apply ceq_neq in Ev. split; [exact Ev|].
    destruct Het as [(E & _)|(_ & Ea & _)]; [contradiction|]. split; [exact Ea|reflexivity].
Qed.

Lemma char_bounds (pcA : list bclass) ci c0 : length pcA = length lens -> nth_error pcA ci = Some c0 ->
  ci < length lens /\ ci < length pcA /\ ustart lens ci < length (expand lens pcA).
Proof.
  intros Hl Hg. pose proof (nth_error_lt _ _ _ Hg) as Hlt.
  assert (Hci : ci < length lens) by (rewrite <- Hl; exact Hlt).
  rewrite expand_length by exact Hl. pose proof (coord_lt_total lens ci 0 (lens_pos ci Hci)). lia.
Qed.

Lemma rel_first pcA ci c0 x :
  length pcA = length lens -> nth_error pcA ci = Some c0 ->
  rel lens ci (fun t => if t =? 0 then x else c0) (lset pcA ci x)
      (lset (expand lens pcA) (ustart lens ci) x).
Proof.
  intros Hl Hg.
  assert (Hci : ci < length lens) by (rewrite <- Hl; apply nth_error_lt in Hg; exact Hg).
  pose proof (rel_of_expand lens ci c0 pcA Hl (fun _ => Hg)) as R0.
  pose proof (rel_lset_u lens ci _ _ _ 0 x R0 (lens_pos ci Hci)) as R1.
  rewrite Nat.add_0_r in R1. apply rel_lset_c. exact R1.
Qed.

Lemma inv_ci_in A ci c0 :
  Inv A -> In ci (w_et A) -> nth_error (w_pc A) ci = Some c0 -> c0 <> BN ->
  c0 = ET /\ w_prev5 A = ET.
Proof.
  intros (I1 & I2 & _) Hin Hg Hc0. split.
  - destruct (I2 ci Hin) as [E|E]; rewrite E in Hg; inversion Hg; [reflexivity|]. subst. contradiction.
  - destruct (bclass_eq_dec (w_prev5 A) ET) as [E|E]; [exact E|].
    rewrite (I1 E) in Hin. destruct Hin.
Qed.

Lemma ustart_succ ci : ustart lens ci + nth ci lens 0 = ustart lens (ci + 1).
Proof. rewrite Nat.add_1_r, ustart_S. reflexivity. Qed.

Lemma escs_first sq r ci c0 c456 al A U pc_c2 et_c :
  length (w_pc A) = length lens -> nth_error (w_pc A) ci = Some c0 -> c0 <> BN ->
  c456 = ES \/ c456 = CS ->
  w_prev4 U = w_prev4 A -> w_et U = flat_map (units lens) (w_et A) ->
  w_escs U32 cps sq A al c456 (lset (w_pc A) ci c456) r ci = Ok (pc_c2, et_c) ->
  exists pc_u2 v,
    w_escs e text (useq lens sq) U al c456 (lset (expand lens (w_pc A)) (ustart lens ci) c456) r
           (ustart lens ci) = Ok (pc_u2, flat_map (units lens) (w_et A)) /\
    et_c = w_et A /\
    rel lens ci (fun t => if t =? 0 then v else c0) pc_c2 pc_u2 /\
    nth_error pc_c2 ci = Some v /\ (v = EN \/ v = AN \/ v = ON).
Proof.
  intros Hl Hg Hc0 Hcs H4 Het H.
  destruct (char_bounds _ ci c0 Hl Hg) as (Hci & Hlt & Hltu).
  unfold w_escs in *.
  destruct (tca32 ci Hci) as (cc & Ec). rewrite Ec in H.
  destruct (tca_first ci Hci) as (cu & Eu). rewrite Eu.
  apply bind_ok in H as (fw & Hfw & H). apply bind_ok in H as (nx & Hnx & H). cbv zeta in H.
  apply bind_ok in H as (pc3 & Hu & H). apply upd_ok_inv in Hu as [_ ->].
  apply bind_ok in H as (pc5 & H5 & H). inversion H; subst pc_c2 et_c. clear H.
  rewrite lset_lset in H5.
  cbn [useq irs_runs irs_eos]. rewrite ustart_succ. rewrite Het.
  rewrite (iter_forwards_units lens _ _ _ _ Hfw). cbn [bind].
  pose proof (rel_first (w_pc A) ci c0 c456 Hl Hg) as R1.
  assert (Hnr : not_removed_by_x9 c456 = true) by (destruct Hcs as [->| ->]; reflexivity).
  rewrite (rel_fvb lens lens_pos 135 not_removed_by_x9 ci _ fw _ _ nx R1).
  2:{ intros _. cbn [Nat.eqb]. split; [apply nth_error_lset_eq; exact Hlt|exact Hnr]. }
  2:{ exact Hnx. }
  cbn [bind]. cbv zeta. rewrite H4.
  set (newc := newc_of (w_prev4 A) c456
                       (if (opt_or nx (irs_eos sq) =c EN) && al then AN else opt_or nx (irs_eos sq))) in *.
  rewrite upd_lset by (rewrite lset_length; exact Hltu). cbn [bind]. rewrite lset_lset.
  pose proof (rel_first (w_pc A) ci c0 newc Hl Hg) as R3.
  assert (Hv3 : nth_error (lset (w_pc A) ci newc) ci = Some newc) by (apply nth_error_lset_eq; exact Hlt).
  destruct (newc =c ON) eqn:Eon.
  - apply ceq_eq in Eon.
    apply bind_ok in H5 as (bw & Hbw & H5). apply bind_ok in H5 as (pc4 & H4' & H5).
    apply bind_ok in H5 as (fw2 & Hfw2 & H5).
    rewrite Hfw in Hfw2. inversion Hfw2; subst fw2. clear Hfw2.
    rewrite (iter_backwards_units lens _ _ _ _ Hbw). cbn [bind].
    assert (Hw : forall t, t < nth ci lens 0 -> (if t =? 0 then newc else c0) <> BN).
    { intros t _. destruct (t =? 0); [rewrite Eon; discriminate|exact Hc0]. }
    assert (Hnb3 : nth_error (lset (w_pc A) ci newc) ci <> Some BN) by (rewrite Hv3, Eon; discriminate).
    destruct (rel_swb lens lens_pos 162 ON ci _ (runits lens) (dirfun_runits lens) bw _ _ _ R3 Hw Hnb3 H4')
      as (pc_u4 & G1 & G2 & G3).
    rewrite G1. cbn [bind].
    assert (Hnb4 : nth_error pc4 ci <> Some BN) by (rewrite G3, Hv3, Eon; discriminate).
    destruct (rel_swb lens lens_pos 169 ON ci _ (units lens) (dirfun_units lens) fw _ _ _ G2 Hw Hnb4 H5)
      as (pc_u5 & K1 & K2 & K3).
    rewrite K1. cbn [bind].
    exists pc_u5, newc. split; [reflexivity|]. split; [reflexivity|]. split; [exact K2|].
    split; [rewrite K3, G3; exact Hv3|]. apply newc_of_range.
  - inversion H5; subst pc5. cbn [bind].
    exists (lset (expand lens (w_pc A)) (ustart lens ci) newc), newc.
    split; [reflexivity|]. split; [reflexivity|]. split; [exact R3|].
    split; [exact Hv3|]. apply newc_of_range.
Qed.

Lemma w456_first sq r ci c0 c456 al A U pc_c2 et_c :
  Inv A -> SimS A U -> nth_error (w_pc A) ci = Some c0 -> c0 <> BN ->
  c456 = w23c (w1c c0 (w_prev1 A)) (w_al A) ->
  w456 U32 cps sq A al c456 (lset (w_pc A) ci c456) r ci = Ok (pc_c2, et_c) ->
  exists pc_u2 et_u v,
    w456 e text (useq lens sq) U al c456 (lset (w_pc U) (ustart lens ci) c456) r (ustart lens ci)
    = Ok (pc_u2, et_u) /\
    rel lens ci (fun t => if t =? 0 then v else c0) pc_c2 pc_u2 /\
    nth_error pc_c2 ci = Some v /\ vok c456 v /\
    ((v <> ET /\ ~ In ci et_c /\ et_u = flat_map (units lens) et_c) \/
     (v = ET /\ et_c = (w_et A ++ w_bn A) ++ [ci] /\
      et_u = flat_map (units lens) (w_et A ++ w_bn A) ++ [ustart lens ci] /\
      pc_c2 = lset (w_pc A) ci ET)).
Proof.
  intros HI (S4 & S5 & S1 & Sal & Sete & Sbn & Hl & Spc) Hg Hc0 Hc456 H.
  destruct (char_bounds _ ci c0 Hl Hg) as (Hci & Hlt & Hltu).
  assert (Hni : c456 <> ET \/ w_prev5 A <> ET -> ~ In ci (w_et A)).
  { intros Hn Hin. destruct (inv_ci_in A ci c0 HI Hin Hg Hc0) as [-> E5].
    destruct Hn as [Hn|Hn]; [apply Hn; rewrite Hc456; reflexivity | contradiction]. }
  clear Hc456. rewrite Spc.
  pose proof (rel_first (w_pc A) ci c0 c456 Hl Hg) as R1.
  assert (Hv1 : nth_error (lset (w_pc A) ci c456) ci = Some c456) by (apply nth_error_lset_eq; exact Hlt).
  destruct (classify456 c456) as [E|[E|[E|(E1 & E2 & E3 & E4)]]].
  - (* EN *)
    subst c456. cbn [w456] in *.
    assert (Hn : ~ In ci (w_et A)) by (apply Hni; left; discriminate).
    apply bind_ok in H as (pc3 & Hs & H). inversion H; subst pc_c2 et_c. clear H.
    destruct (rel_set_all lens 121 ci _ _ _ _ EN pc3 R1 Hn Hs) as (pc_u3 & G1 & G2 & G3).
    rewrite Sete, G1. cbn [bind].
    exists pc_u3, [], EN. split; [reflexivity|]. split; [exact G2|].
    split; [rewrite G3; exact Hv1|]. split; [reflexivity|].
    left. split; [discriminate|]. split; [intros []|reflexivity].
  - (* ES, CS *)
    assert (Hn : ~ In ci (w_et A)) by (apply Hni; left; destruct E as [-> | ->]; discriminate).
    rewrite w456_sep in H |- * by exact E.
    destruct (escs_first sq r ci c0 c456 al A U pc_c2 et_c Hl Hg Hc0 E S4 Sete H)
      as (pc_u2 & v & G1 & G2 & G3 & G4 & G5).
    exists pc_u2, (flat_map (units lens) (w_et A)), v.
    split; [exact G1|]. split; [exact G3|]. split; [exact G4|].
    split; [destruct E as [-> | ->]; exact G5|].
    left. split; [destruct G5 as [->|[->| ->]]; discriminate|]. subst et_c. split; [exact Hn|reflexivity].
  - (* ET *)
    subst c456.
    destruct (bclass_eq_dec (w_prev5 A) EN) as [E5|E5].
    + assert (Hn : ~ In ci (w_et A)) by (apply Hni; right; rewrite E5; discriminate).
      rewrite w456_ET_en in H by exact E5. rewrite w456_ET_en by (rewrite S5; exact E5).
      apply bind_ok in H as (pc3 & Hu & H). apply upd_ok_inv in Hu as [_ ->].
      inversion H; subst pc_c2 et_c. clear H. rewrite lset_lset.
      rewrite upd_lset by (rewrite lset_length; exact Hltu). cbn [bind]. rewrite lset_lset.
      eexists; exists (w_et U), EN. split; [reflexivity|].
      split; [apply rel_first; assumption|]. split; [apply nth_error_lset_eq; exact Hlt|].
      split; [left; reflexivity|].
      left. split; [discriminate|]. split; [exact Hn|exact Sete].
    + rewrite w456_ET_join in H by exact E5. rewrite w456_ET_join by (rewrite S5; exact E5).
      inversion H; subst pc_c2 et_c. clear H.
      eexists; eexists; exists ET. split; [reflexivity|].
      split; [exact R1|]. split; [exact Hv1|]. split; [right; reflexivity|].
      right. split; [reflexivity|]. split; [apply app_assoc|]. split; [|reflexivity].
      rewrite Sete, Sbn, flat_map_app, app_assoc. reflexivity.
  - (* other *)
    specialize (Hni (or_introl E4)).
    rewrite w456_other in H by assumption. rewrite w456_other by assumption.
    inversion H; subst pc_c2 et_c. clear H.
    eexists; exists (w_et U), c456. split; [reflexivity|].
    split; [exact R1|]. split; [exact Hv1|]. split; [apply vok_other; auto|].
    left. split; [exact E4|]. split; [exact Hni|exact Sete].
Qed.

Lemma first_unit sq r ci c0 A A' U :
  Inv A -> SimS A U -> nth_error (w_pc A) ci = Some c0 -> c0 <> BN ->
  weak_step U32 cps sq A (r, ci) = Ok A' ->
  exists U1, weak_step e text (useq lens sq) U (r, ustart lens ci) = Ok U1 /\
             Mid 1 ci c0 A' U1 /\ Post c0 A' /\ Inv A'.
Proof.
  intros HI HS Hg Hc0 H.
  pose proof HS as (S4 & S5 & S1 & Sal & Sete & Sbn & Hl & Spc).
  pose proof HI as (I1 & I2 & I3).
  destruct (char_bounds _ ci c0 Hl Hg) as (Hci & Hlt & _).
  assert (Hgu : nth_error (w_pc U) (ustart lens ci) = Some c0).
  { rewrite Spc, expand_nth_first; [exact Hg | exact Hl | apply lens_pos, Hci]. }
  rewrite (weak_step_nf U32 cps sq A r ci c0 Hg Hc0) in H.
  rewrite (weak_step_nf e text (useq lens sq) U r (ustart lens ci) c0 Hgu Hc0).
  rewrite S1, Sal.
  set (c1 := w1c c0 (w_prev1 A)) in *. set (al := alc c1 (w_al A)) in *.
  set (c456 := w23c c1 (w_al A)) in *.
  apply bind_ok in H as ([pc_c2 et_c] & Hw & Hf).
  destruct (w456_first sq r ci c0 c456 al A U pc_c2 et_c HI HS Hg Hc0 eq_refl Hw)
    as (pc_u2 & et_u & v & G1 & G2 & G3 & G4 & G5).
  rewrite G1. cbn [bind wfin] in *.
  assert (Hgu2 : nth_error pc_u2 (ustart lens ci) = Some v).
  { rewrite <- (Nat.add_0_r (ustart lens ci)).
    rewrite (rel_get_ci lens ci _ _ _ 0 G2 (lens_pos ci Hci)). reflexivity. }
  rewrite (get_some 208 _ _ _ G3) in Hf. rewrite (get_some 208 _ _ _ Hgu2). cbn [bind] in *.
  assert (HP : forall p5, vok c456 p5 ->
           Post c0 {| w_prev4 := c456; w_prev5 := p5; w_prev1 := c1; w_al := al;
                      w_et := []; w_bn := []; w_pc := [] |}).
  { intros p5 Hv. unfold Post. cbn [w_prev4 w_prev5 w_prev1 w_al].
    split; [apply w1c_idem|]. split; [apply alc_idem|]. split; [apply w23c_alc|exact Hv]. }
  assert (Rm : forall pc_c pc_u, rel lens ci (fun t => if t =? 0 then v else c0) pc_c pc_u ->
                                 rel lens ci (fun t => if t <? 1 then v else c0) pc_c pc_u).
  { intros pc_c pc_u. apply rel_ext. intros t _. destruct t; reflexivity. }
  destruct (v =c ET) eqn:Ev.
  - apply ceq_eq in Ev. cbn [bind] in *. inversion Hf; subst A'. clear Hf.
    destruct G5 as [(Hne & _)|(_ & Ec & Eu & Epc)]; [contradiction|].
    eexists. split; [reflexivity|]. split; [|split].
    + unfold Mid. cbn [w_prev4 w_prev5 w_prev1 w_al w_bn w_pc w_et].
      repeat (split; [reflexivity|]). split; [apply Rm; exact G2|]. split; [exact G3|].
      left. split; [exact Ev|]. exists (w_et A ++ w_bn A). split; [exact Ec|].
      rewrite Eu, (units_cons lens ci (lens_pos ci Hci)). reflexivity.
    + exact (HP v G4).
    + unfold Inv. cbn [w_prev5 w_et w_bn w_pc]. split; [intros Hne; contradiction|].
      split; [|intros j []].
      intros j Hj. subst pc_c2 et_c.
      destruct (Nat.eq_dec j ci) as [->|Hne]; [left; apply nth_error_lset_eq; exact Hlt|].
      rewrite nth_error_lset_neq by exact Hne.
      apply in_app_or in Hj as [Hj|[Hj|[]]]; [|contradiction Hne; symmetry; exact Hj].
      apply in_app_or in Hj as [Hj|Hj]; [apply I2; exact Hj|right; apply I3; exact Hj].
  - pose proof Ev as Ev'. apply ceq_neq in Ev'.
    destruct G5 as [(_ & Hni & Eu)|(E & _)]; [|contradiction].
    apply bind_ok in Hf as ([pc_c3 et3] & Hs & Hf).
    apply bind_ok in Hs as (pc_c3' & Hs & Hs'). inversion Hs'; subst pc_c3' et3. clear Hs'.
    inversion Hf; subst A'. clear Hf.
    destruct (rel_set_all lens 216 ci _ _ _ _ ON pc_c3 G2 Hni Hs) as (pc_u3 & K1 & K2 & K3).
    rewrite Eu, K1. cbn [bind].
    eexists. split; [reflexivity|]. split; [|split].
    + unfold Mid. cbn [w_prev4 w_prev5 w_prev1 w_al w_bn w_pc w_et].
      repeat (split; [reflexivity|]). split; [apply Rm; exact K2|]. split; [rewrite K3; exact G3|].
      right. split; [exact Ev'|]. split; reflexivity.
    + exact (HP v G4).
    + unfold Inv. cbn [w_prev5 w_et w_bn w_pc]. split; [reflexivity|]. split; intros j [].
Qed.

Lemma later_fold sq r ci c0 A' : forall d m U,
  m + d = nth ci lens 0 -> 0 < m -> Mid m ci c0 A' U -> Post c0 A' -> c0 <> BN ->
  exists U', weak_fold e text (useq lens sq) U (map (fun i => (r, i)) (seq (ustart lens ci + m) d)) = Ok U' /\
             Mid (nth ci lens 0) ci c0 A' U'.
Proof.
  induction d as [|d IH]; intros m U Hmd Hm HM HP Hc0.
  - exists U. split; [reflexivity|]. replace (nth ci lens 0) with m by lia. exact HM.
  - cbn [seq map weak_fold].
    destruct (later_unit sq r m ci c0 A' U HM HP Hc0 Hm) as (U1 & G1 & G2); [lia|].
    rewrite G1. cbn [bind].
    replace (S (ustart lens ci + m)) with (ustart lens ci + S m) by lia.
    apply IH; try assumption; lia.
Qed.

Lemma bn_fold sq r l : forall U,
  (forall u, In u l -> nth_error (w_pc U) u = Some BN) ->
  weak_fold e text sq U (map (fun i => (r, i)) l) =
  Ok {| w_prev4 := w_prev4 U; w_prev5 := w_prev5 U; w_prev1 := w_prev1 U; w_al := w_al U;
        w_et := w_et U; w_bn := w_bn U ++ l; w_pc := w_pc U |}.
Proof.
  induction l as [|u l IH]; intros U H.
  - cbn [map weak_fold]. rewrite app_nil_r. destruct U; reflexivity.
  - cbn [map weak_fold]. rewrite weak_step_bn by (apply H; left; reflexivity). cbn [bind].
    rewrite IH by (cbn [w_pc]; intros u' Hu'; apply H; right; exact Hu').
    cbn [w_prev4 w_prev5 w_prev1 w_al w_et w_bn w_pc]. rewrite <- app_assoc. reflexivity.
Qed.

Lemma char_block sq r ci A A' U :
  Inv A -> SimS A U -> weak_step U32 cps sq A (r, ci) = Ok A' ->
  exists U', weak_fold e text (useq lens sq) U (unit_items lens (r, ci)) = Ok U' /\
             SimS A' U' /\ Inv A'.
Proof.
  intros HI HS H.
  pose proof HS as (S4 & S5 & S1 & Sal & Sete & Sbn & Hl & Spc).
  pose proof HI as (I1 & I2 & I3).
  destruct (nth_error (w_pc A) ci) as [c0|] eqn:Hg.
  2:{ unfold weak_step, get in H. rewrite Hg in H. discriminate. }
  assert (Hci : ci < length lens) by (rewrite <- Hl; apply nth_error_lt in Hg; exact Hg).
  unfold unit_items. cbn [fst snd].
  destruct (bclass_eq_dec c0 BN) as [->|Hc0].
  - rewrite weak_step_bn in H by exact Hg. inversion H; subst A'. clear H.
    rewrite bn_fold.
    2:{ intros u. rewrite Spc. apply expand_units; assumption. }
    eexists. split; [reflexivity|]. split.
    + unfold SimS. cbn [w_prev4 w_prev5 w_prev1 w_al w_et w_bn w_pc].
      repeat (split; [assumption|]). split; [|split; assumption].
      rewrite Sbn, flat_map_app. cbn [flat_map]. rewrite app_nil_r. reflexivity.
    + unfold Inv. cbn [w_prev5 w_et w_bn w_pc]. split; [exact I1|]. split; [exact I2|].
      intros j Hj. apply in_app_or in Hj as [Hj|[<-|[]]]; [apply I3; exact Hj|exact Hg].
  - destruct (first_unit sq r ci c0 A A' U HI HS Hg Hc0 H) as (U1 & G1 & G2 & G3 & G4).
    pose proof (lens_pos ci Hci) as Hp.
    unfold units. destruct (nth ci lens 0) as [|len'] eqn:El; [lia|].
    cbn [seq map weak_fold]. rewrite G1. cbn [bind].
    destruct (later_fold sq r ci c0 A' len' 1 U1) as (U' & K1 & K2); try assumption; try lia.
    replace (S (ustart lens ci)) with (ustart lens ci + 1) by lia.
    exists U'. split; [exact K1|]. split; [|exact G4].
    apply (mid_to_sim ci c0). rewrite El. rewrite El in K2. exact K2.
Qed.

Lemma fold_sim sq : forall l A U A',
  Inv A -> SimS A U -> weak_fold U32 cps sq A l = Ok A' ->
  exists U', weak_fold e text (useq lens sq) U (flat_map (unit_items lens) l) = Ok U' /\ SimS A' U'.
Proof.
  induction l as [|[r ci] l IH]; intros A U A' HI HS H.
  - cbn [weak_fold] in H. inversion H; subst. exists U. split; [reflexivity|exact HS].
  - cbn [weak_fold] in H. apply bind_ok in H as (A1 & H1 & H2).
    destruct (char_block sq r ci A A1 U HI HS H1) as (U1 & G1 & G2 & G3).
    cbn [flat_map]. rewrite weak_fold_app, G1. cbn [bind].
    apply (IH A1 U1 A' G3 G2 H2).
Qed.

Theorem li_weak_main : li_weak_statement e text.
Proof.
  unfold li_weak_statement. fold chars. fold cps. fold lens.
  intros sq pc out' Hl _ H.
  unfold chars in Hl. fold chars in Hl.
  assert (Hl' : length pc = length lens) by (unfold lens; rewrite map_length; exact Hl).
  unfold resolve_weak in *.
  apply bind_ok in H as (st & Hf & H). apply bind_ok in H as (pc1 & Hs & H7).
  cbn [useq irs_runs irs_sos].
  rewrite indexed_units_units.
  match type of Hf with weak_fold _ _ _ ?A0 _ = _ => set (A0' := A0) in * end.
  match goal with |- context [weak_fold _ _ _ ?U0 _] => set (U0' := U0) end.
  assert (HS0 : SimS A0' U0').
  { unfold SimS, A0', U0'. cbn [w_prev4 w_prev5 w_prev1 w_al w_et w_bn w_pc flat_map].
    repeat (split; [reflexivity|]). split; [exact Hl'|reflexivity]. }
  assert (HI0 : Inv A0').
  { unfold Inv, A0'. cbn [w_prev5 w_et w_bn w_pc]. split; [reflexivity|]. split; intros j []. }
  destruct (fold_sim sq _ A0' U0' st HI0 HS0 Hf) as (U' & G1 & G2).
  rewrite G1. cbn [bind].
  destruct G2 as (_ & _ & _ & _ & Sete & _ & Hlst & Spc).
  rewrite Sete, Spc.
  pose proof (set_all_ok_inv _ _ _ _ _ Hs) as [Hin _].
  assert (Hni : ~ In (length lens) (w_et st)) by (intros Hi; apply Hin in Hi; lia).
  destruct (rel_set_all lens 230 (length lens) _ _ _ (w_et st) ON pc1
              (rel_none lens (fun _ => ON) _ Hlst) Hni Hs) as (pc_u1 & K1 & K2 & _).
  rewrite K1. cbn [bind]. rewrite (rel_none_inv lens _ _ _ K2), runs_units.
  apply (w7_sim lens lens_pos); [|exact H7].
  destruct K2 as (K2 & _). exact K2.
Qed.

End Sim.

Theorem li_weak_proved : LI_weak.
Proof. intros e text Hv. apply li_weak_main. exact Hv. Qed.

(* [lset] and [lset_all] are written out here because [lset_all_app] below is stated with them.  They equal ListLib's
   by reflexivity.  A file that imports LIWeak imports ListLib after it, so that the two names mean ListLib's there. *)
Fixpoint lset {A} (l : list A) (i : nat) (x : A) : list A :=
  match l, i with
  | [], _ => []
  | _ :: t, O => x :: t
  | h :: t, S j => h :: lset t j x
  end.

Fixpoint lset_all {A} (l : list A) (idxs : list nat) (x : A) : list A :=
  match idxs with
  | [] => l
  | j :: rest => lset_all (lset l j x) rest x
  end.

Lemma lset_all_app {A} i1 i2 : forall (l : list A) x, lset_all l (i1 ++ i2) x = lset_all (lset_all l i1 x) i2 x.
Proof. exact (ListLib.lset_all_app i1 i2). Qed.

Lemma expand_nil_l {A} (v : list A) : expand [] v = [].
Proof. exact (Units.expand_nil_l v). Qed.

Lemma w1c_not_bn c0 p1 : c0 <> BN -> w1c c0 p1 = ET -> c0 = ET \/ c0 = NSM.
Proof.
  unfold w1c. destruct (c0 =c NSM) eqn:E.
  - apply ceq_eq in E. intros; right; exact E.
  - intros _ ->. left. reflexivity.
Qed.
Lemma w1c_ET p1 : w1c ET p1 = ET.
Proof. reflexivity. Qed.
Lemma w23c_ET al : w23c ET al = ET.
Proof. reflexivity. Qed.
Lemma w23c_is_ET c1 al : w23c c1 al = ET -> c1 = ET.
Proof. destruct c1; cbn [w23c]; try discriminate; try reflexivity. destruct al; discriminate. Qed.
