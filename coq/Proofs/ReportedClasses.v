(* Proofs/ReportedClasses.v — [reported_classes cls0] (the classes the analysis reports: an FSI becomes the
   initiator it acts as) against the input classes: the same positions are removed by X9, are isolate
   initiators, are PDIs; so the live positions are the specification's [remaining] ones. *)
From BidiVerif Require Import Base ModelResolve Spec StageRel.
From BidiVerif.Proofs Require Import ExplicitSteps CSSequencesFast.

(* [rep] only settles which initiator an FSI is: what does not tell the three initiators apart is unchanged *)
Lemma rep_inv {T} (f : bclass -> T) cls0 i c : f LRI = f FSI -> f RLI = f FSI -> f (rep cls0 i c) = f c.
Proof.
  intros H1 H2. unfold rep. destruct (c =c FSI) eqn:E; [|reflexivity].
  apply ceq_eq in E. subst c. destruct (fsi_strong cls0 i) as [[]|]; auto.
Qed.

Lemma rep_removed cls0 i c : removed_by_x9 (rep cls0 i c) = is_removed c.
Proof. exact (rep_inv removed_by_x9 cls0 i c eq_refl eq_refl). Qed.

Lemma rep_init cls0 i c : is_isolate_init (rep cls0 i c) = is_init c.
Proof. exact (rep_inv is_isolate_init cls0 i c eq_refl eq_refl). Qed.

Lemma rep_pdi cls0 i c : (rep cls0 i c =c PDI) = (c =c PDI).
Proof. exact (rep_inv (fun x => x =c PDI) cls0 i c eq_refl eq_refl). Qed.

Lemma existsb_reported (f : bclass -> bool) cls0 : f LRI = f FSI -> f RLI = f FSI ->
  existsb f (reported_classes cls0) = existsb f cls0.
Proof.
  intros H1 H2. unfold reported_classes. rewrite (reported_map cls0 cls0 0). generalize 0.
  generalize cls0 at 2 3 4 as l.
  induction l as [|c r IH]; intros j; cbn [length seq combine map existsb fst snd]; [reflexivity|].
  rewrite rep_inv, IH by assumption. reflexivity.
Qed.

Lemma live_reported cls0 i : live (reported_classes cls0) i = negb (is_removed (nth i cls0 BN)).
Proof. unfold live, not_removed_by_x9. rewrite nth_reported, rep_removed by reflexivity. reflexivity. Qed.

Lemma init_reported cls0 i :
  is_isolate_init (nth i (reported_classes cls0) BN) = is_init (nth i cls0 BN).
Proof. rewrite nth_reported by reflexivity. apply rep_init. Qed.

Lemma pdi_reported cls0 i : (nth i (reported_classes cls0) BN =c PDI) = (nth i cls0 BN =c PDI).
Proof. rewrite nth_reported by reflexivity. apply rep_pdi. Qed.

Lemma remaining_live cls0 : remaining cls0 = lives (reported_classes cls0) 0 (length cls0).
Proof.
  unfold remaining, lives, range. rewrite Nat.sub_0_r. apply filter_ext. intros i.
  symmetry. apply live_reported.
Qed.
