(* Proofs/C13Text.v — C13 part B, text-level facts: remaining positions, matching PDIs and levels of a
   text  prefix ++ [ini] ++ c ++ [PDI] ++ suffix  with balanced content c. *)
From BidiVerif Require Import Base Spec Stmts7.
From BidiVerif.Proofs Require Import BaseDir InitialInfo ExplicitSteps C13Explicit.

Lemma filter_seq_shift (p : nat -> bool) a n : forall s,
  filter p (seq (a + s) n) = map (fun i => a + i) (filter (fun i => p (a + i)) (seq s n)).
Proof.
  induction n as [|n IH]; intros s; [reflexivity|].
  cbn [seq filter]. replace (S (a + s)) with (a + S s) by lia. rewrite IH.
  destruct (p (a + s)); reflexivity.
Qed.

Lemma remaining_app a b :
  remaining (a ++ b) = remaining a ++ map (fun i => length a + i) (remaining b).
Proof.
  unfold remaining. rewrite app_length, seq_app, filter_app. f_equal.
  - apply filter_ext_in. intros i Hi. apply in_seq in Hi. unfold snth. rewrite app_nth1 by lia. reflexivity.
  - cbn [Nat.add].
    match goal with |- filter ?p _ = _ =>
      pose proof (filter_seq_shift p (length a) (length b) 0) as F end.
    rewrite Nat.add_0_r in F. rewrite F. f_equal.
    apply filter_ext. intros i. unfold snth. rewrite app_nth2 by lia.
    replace (length a + i - length a) with i by lia. reflexivity.
Qed.

Lemma remaining_lt cls i : In i (remaining cls) -> i < length cls /\ is_removed (snth cls i BN) = false.
Proof.
  unfold remaining. intros H. apply filter_In in H. destruct H as [H1 H2]. apply in_seq in H1.
  split; [lia|]. destruct (is_removed _); [discriminate|reflexivity].
Qed.

Lemma remaining_single x : is_removed x = false -> remaining [x] = [0].
Proof. intros H. unfold remaining. cbn [length seq filter snth nth]. rewrite H. reflexivity. Qed.

(* [dep l d]: the isolate depth after reading [l] from depth [d], as BD9's matching counts it *)
Fixpoint dep (l : list bclass) (d : nat) : nat :=
  match l with
  | [] => d
  | c :: t => if is_init c then dep t (S d) else if c =c PDI then dep t (d - 1) else dep t d
  end.

Lemma mp_app A : forall B d j,
  match_pdi_from (A ++ B) d j =
  match match_pdi_from A d j with
  | Some k => Some k
  | None => match_pdi_from B (dep A d) (j + length A)
  end.
Proof.
  induction A as [|x A IH]; intros B d j.
  - cbn [app match_pdi_from dep length]. rewrite Nat.add_0_r. reflexivity.
  - cbn [app match_pdi_from dep length]. replace (j + S (length A)) with (S j + length A) by lia.
    destruct (is_init x); [apply IH|]. destruct (x =c PDI); [|apply IH].
    destruct (d =? 1); [reflexivity|apply IH].
Qed.

Lemma mp_none_dep A : forall d j, 1 <= d -> match_pdi_from A d j = None -> 1 <= dep A d.
Proof.
  induction A as [|x A IH]; intros d j Hd H; [exact Hd|].
  cbn [match_pdi_from dep] in *. destruct (is_init x); [apply (IH (S d) (S j)); [lia|exact H]|].
  destruct (x =c PDI); [|apply (IH _ _ Hd H)].
  destruct (d =? 1) eqn:E; [discriminate|]. apply Nat.eqb_neq in E. apply (IH (d - 1) (S j)); [lia|exact H].
Qed.

Lemma mp_shift A a : forall d j,
  match_pdi_from A d (j + a) = option_map (fun k => k + a) (match_pdi_from A d j).
Proof.
  induction A as [|x A IH]; intros d j; [reflexivity|].
  cbn [match_pdi_from]. change (S (j + a)) with (S j + a).
  destruct (is_init x); [apply IH|]. destruct (x =c PDI); [|apply IH].
  destruct (d =? 1); [reflexivity|apply IH].
Qed.

(* an initiator inside balanced content is matched inside it *)
Lemma mp_inside post : forall k d j rest, iso_bal (k + d) post = true -> 1 <= d ->
  exists j', match_pdi_from (post ++ rest) d j = Some j' /\ j' < j + length post.
Proof.
  induction post as [|x post IH]; intros k d j rest Hb Hd.
  - cbn [iso_bal] in Hb. apply Nat.eqb_eq in Hb. lia.
  - cbn [iso_bal] in Hb. cbn [app match_pdi_from length].
    destruct (is_init x).
    + destruct (IH k (S d) (S j) rest) as (j' & H1 & H2); [replace (k + S d) with (S (k + d)) by lia; exact Hb|lia|].
      exists j'. split; [exact H1|lia].
    + destruct (x =c PDI).
      * destruct (d =? 1) eqn:E; [exists j; split; [reflexivity|lia]|].
        apply Nat.eqb_neq in E. destruct (k + d) as [|kd] eqn:Ekd; [discriminate|].
        destruct (IH k (d - 1) (S j) rest) as (j' & H1 & H2); [replace (k + (d - 1)) with kd by lia; exact Hb|lia|].
        exists j'. split; [exact H1|lia].
      * destruct (IH k d (S j) rest Hb Hd) as (j' & H1 & H2). exists j'. split; [exact H1|lia].
Qed.

Lemma iso_bal_app a : forall k b, iso_bal k (a ++ b) = true -> exists k', iso_bal k' b = true.
Proof.
  induction a as [|x a IH]; intros k b H; [exists k; exact H|].
  cbn [app iso_bal] in H. destruct (is_init x); [apply IH in H; exact H|].
  destruct (x =c PDI); [destruct k; [discriminate|apply IH in H; exact H]|apply IH in H; exact H].
Qed.

Lemma x_step_level_some cls0 pl s i c0 :
  is_removed c0 = false -> snd (fst (x_step cls0 pl s i c0)) <> None.
Proof.
  intros H. unfold x_step. destruct (top_of (x_stack s) pl) as [[tl to] tb].
  destruct c0; try discriminate H; cbn [ceq bclass_beq fst snd]; try discriminate.
  - destruct (fsi_strong cls0 i) as [[]|]; cbn [fst snd]; discriminate.
  - destruct (top_of _ pl) as [[tl2 to2] tb2]. cbn [fst snd]. discriminate.
Qed.

Lemma x_run_level_some cls0 pl l : forall s i k,
  k < length l -> is_removed (nth k l BN) = false -> nth k (fst (x_run cls0 pl s i l)) None <> None.
Proof.
  induction l as [|c r IH]; intros s i k Hk H; [cbn in Hk; lia|].
  rewrite x_run_cons. cbn [fst]. destruct k as [|k]; cbn [nth] in *.
  - apply x_step_level_some. exact H.
  - apply IH; [cbn [length] in Hk; lia|exact H].
Qed.

(* the position map: positions of the text with empty content -> positions of the text with content c *)
Definition fo (np m j : nat) : nat := if j <=? np then j else j + m.

Lemma fo_le np m j : j <= np -> fo np m j = j.
Proof. intros H. unfold fo. apply Nat.leb_le in H. rewrite H. reflexivity. Qed.
Lemma fo_gt np m j : np < j -> fo np m j = j + m.
Proof. intros H. unfold fo. apply Nat.leb_gt in H. rewrite H. reflexivity. Qed.
Lemma fo_succ np m : fo np m (np + 1) = np + 1 + m.
Proof. apply fo_gt. lia. Qed.
Lemma fo_0 np m : fo np m 0 = 0.
Proof. apply fo_le. lia. Qed.
Lemma fo_mono np m x y : x < y -> fo np m x < fo np m y.
Proof. intros H. unfold fo. destruct (x <=? np) eqn:E1, (y <=? np) eqn:E2;
  try apply Nat.leb_le in E1; try apply Nat.leb_le in E2; try apply Nat.leb_gt in E1; try apply Nat.leb_gt in E2; lia. Qed.
Lemma fo_ltb np m x y : (fo np m x <? fo np m y) = (x <? y).
Proof.
  destruct (Nat.ltb_spec x y) as [H|H]; [apply Nat.ltb_lt, fo_mono, H|]. apply Nat.ltb_ge.
  destruct (Nat.eq_dec x y) as [->|Hne]; [lia|]. pose proof (fo_mono np m y x ltac:(lia)). lia.
Qed.
Lemma fo_inj np m x y : fo np m x = fo np m y -> x = y.
Proof.
  intros H. destruct (Nat.lt_trichotomy x y) as [L|[E|L]]; [|exact E|];
    apply (fo_mono np m) in L; lia.
Qed.
Lemma fo_range np m j : fo np m j <= np \/ np + 1 + m <= fo np m j.
Proof. unfold fo. destruct (j <=? np) eqn:E; [apply Nat.leb_le in E|apply Nat.leb_gt in E]; lia. Qed.
Lemma fo_le_iff np m j : fo np m j <= np <-> j <= np.
Proof. unfold fo. destruct (j <=? np) eqn:E; [apply Nat.leb_le in E|apply Nat.leb_gt in E]; lia. Qed.

Section PairText.
Variables (prefix suffix c : list bclass) (ini : bclass).
Hypothesis Hini : ini = LRI \/ ini = RLI.
Hypothesis Hbal : iso_bal 0 c = true.

Let np := length prefix.
Let m := length c.
Let q := np + 1 + m.
Let T := txt prefix ini c suffix.
Let T0 := txt prefix ini [] suffix.
Let f := fo np m.

Lemma ini_not_removed : is_removed ini = false.
Proof. destruct Hini as [-> | ->]; reflexivity. Qed.

Lemma T_nth {A} (P : list A) a C b D d j : length P = np -> length C = m ->
  nth (f j) (P ++ [a] ++ C ++ [b] ++ D) d = nth j (P ++ [a] ++ [] ++ [b] ++ D) d.
Proof.
  intros H1 H2. unfold f, fo. rewrite <- H1, <- H2. apply (nth_outside P a C b D d j).
Qed.

Lemma T_snth d j : snth T (f j) d = snth T0 j d.
Proof. unfold snth, T, T0, txt. apply T_nth; reflexivity. Qed.

Lemma remaining_T :
  remaining T = remaining prefix ++ [np] ++ map (fun i => np + 1 + i) (remaining c) ++ [q]
                ++ map (fun i => q + 1 + i) (remaining suffix).
Proof.
  unfold T, txt. rewrite !remaining_app.
  rewrite (remaining_single ini ini_not_removed), (remaining_single PDI eq_refl).
  rewrite !map_app, !map_map. cbn [map length]. fold np. fold m.
  f_equal. f_equal; [f_equal; lia|]. f_equal; [apply map_ext; intros; lia|].
  f_equal; [f_equal; unfold q; lia|]. apply map_ext. intros. unfold q. lia.
Qed.

Lemma mp_pair d j : 1 <= d ->
  match_pdi_from (ini :: c ++ PDI :: suffix) d j = match_pdi_from suffix d (j + 2 + m).
Proof.
  intros Hd. cbn [match_pdi_from]. rewrite (lri_rli_init ini Hini).
  pose proof (mp_bal c 0 (S d) (S j) (PDI :: suffix) Hbal ltac:(lia)) as Eb. cbn [Nat.add] in Eb. rewrite Eb.
  cbn [match_pdi_from is_init ceq bclass_beq].
  assert (E : (S d =? 1) = false) by (apply Nat.eqb_neq; lia). rewrite E.
  f_equal; [lia|fold m; lia].
Qed.

Lemma matching_ini : matching_pdi T np = Some q.
Proof.
  unfold matching_pdi, T, txt.
  rewrite skipn_app_ge by (fold np; lia). fold np. replace (S np - np) with 1 by lia.
  cbn [app skipn].
  pose proof (mp_bal c 0 1 (S np) (PDI :: suffix) Hbal ltac:(lia)) as Eb. cbn [Nat.add] in Eb. rewrite Eb.
  cbn [match_pdi_from is_init ceq bclass_beq Nat.eqb]. f_equal. unfold q. fold m. lia.
Qed.
End PairText.

Lemma idx1_eq prefix suffix c ini : ini = LRI \/ ini = RLI ->
  remaining (txt prefix ini c suffix) =
  (remaining prefix ++ [length prefix]) ++ map (fun i => length prefix + 1 + i) (remaining c)
  ++ (length prefix + 1 + length c)
     :: map (fo (length prefix) (length c)) (map (fun i => length prefix + 2 + i) (remaining suffix)).
Proof.
  intros Hini. rewrite (remaining_T prefix suffix c ini Hini).
  rewrite <- app_assoc. do 3 f_equal. cbn [app]. f_equal. rewrite map_map.
  apply map_ext. intros i. rewrite fo_gt by lia. lia.
Qed.

Lemma idx0_eq prefix suffix ini : ini = LRI \/ ini = RLI ->
  remaining (txt prefix ini [] suffix) =
  (remaining prefix ++ [length prefix]) ++ (length prefix + 1) :: map (fun i => length prefix + 2 + i) (remaining suffix).
Proof.
  intros Hini. rewrite (remaining_T prefix suffix [] ini Hini).
  rewrite <- app_assoc. do 2 f_equal. cbn [remaining length seq filter map app]. f_equal; [lia|].
  apply map_ext. intros i. lia.
Qed.

Lemma iso_bal_nil : iso_bal 0 [] = true.
Proof. reflexivity. Qed.

Section PairText2.
Variables (prefix suffix c : list bclass) (ini : bclass).
Hypothesis Hini : ini = LRI \/ ini = RLI.
Hypothesis Hbal : iso_bal 0 c = true.

Let np := length prefix.
Let m := length c.
Let q := np + 1 + m.
Let T := txt prefix ini c suffix.
Let T0 := txt prefix ini [] suffix.
Let f := fo np m.

Lemma matching_prefix_gen cc l : iso_bal 0 cc = true -> l < np ->
  matching_pdi (txt prefix ini cc suffix) l =
  match match_pdi_from (skipn (S l) prefix) 1 (S l) with
  | Some k => Some k
  | None => match_pdi_from suffix (dep (skipn (S l) prefix) 1) (np + 2 + length cc)
  end.
Proof.
  intros Hb Hl. unfold matching_pdi, txt. rewrite skipn_app_lt by (fold np; lia).
  cbn [app]. rewrite mp_app.
  destruct (match_pdi_from (skipn (S l) prefix) 1 (S l)) eqn:E; [reflexivity|].
  rewrite (mp_pair prefix suffix cc ini Hini Hb) by (apply (mp_none_dep _ 1 (S l)); [lia|exact E]).
  f_equal. rewrite skipn_length. fold np. lia.
Qed.

Lemma matching_outside l : l <> np ->
  matching_pdi T (f l) = option_map f (matching_pdi T0 l) /\ matching_pdi T0 l <> Some (np + 1).
Proof.
  intros Hl. destruct (Nat.lt_ge_cases l np) as [Hlt|Hge].
  - unfold f. rewrite fo_le by lia. unfold T, T0.
    rewrite (matching_prefix_gen c l Hbal Hlt), (matching_prefix_gen [] l iso_bal_nil Hlt).
    destruct (match_pdi_from (skipn (S l) prefix) 1 (S l)) as [k|] eqn:E.
    + pose proof (match_pdi_fs (skipn (S l) prefix) 1 (S l) (le_n 1)) as Hk. rewrite E in Hk. destruct Hk as (_ & Hk & _).
      rewrite skipn_length in Hk. fold np in Hk. cbn [option_map].
      rewrite fo_le by lia. split; [reflexivity|]. intros H. injection H as H. lia.
    + cbn [length]. fold m. rewrite (mp_shift suffix m). rewrite Nat.add_0_r.
      destruct (match_pdi_from suffix (dep (skipn (S l) prefix) 1) (np + 2)) as [k|] eqn:E2; cbn [option_map].
      * apply mp_ge in E2. rewrite fo_gt by lia. split; [reflexivity|]. intros H. injection H as H. lia.
      * split; [reflexivity|discriminate].
  - assert (Hk : l = np + 1 + (l - np - 1)) by lia. generalize dependent (l - np - 1). intros k Hk. subst l.
    unfold f. rewrite fo_gt by lia. unfold matching_pdi, T, T0, txt.
    replace (prefix ++ [ini] ++ c ++ [PDI] ++ suffix) with ((prefix ++ [ini] ++ c ++ [PDI]) ++ suffix)
      by (rewrite <- !app_assoc; reflexivity).
    replace (prefix ++ [ini] ++ [] ++ [PDI] ++ suffix) with ((prefix ++ [ini] ++ [PDI]) ++ suffix)
      by (rewrite <- !app_assoc; reflexivity).
    rewrite !skipn_app_ge by (rewrite !app_length; cbn [length]; fold np; fold m; lia).
    rewrite !app_length. cbn [length]. fold np. fold m.
    replace (S (np + 1 + k + m) - (np + (1 + (m + 1)))) with k by lia.
    replace (S (np + 1 + k) - (np + (1 + 1))) with k by lia.
    replace (S (np + 1 + k + m)) with (S (np + 1 + k) + m) by lia. rewrite mp_shift.
    destruct (match_pdi_from (skipn k suffix) 1 (S (np + 1 + k))) as [j|] eqn:E; cbn [option_map].
    + apply mp_ge in E. rewrite fo_gt by lia. split; [reflexivity|]. intros H. injection H as H. lia.
    + split; [reflexivity|discriminate].
Qed.

Lemma matching_content l : np < l -> l < q -> is_init (snth T l ON) = true ->
  exists j, matching_pdi T l = Some j /\ l < j /\ j < q.
Proof.
  intros H1 H2 Hi.
  assert (Hk : l = np + 1 + (l - np - 1)) by lia. generalize dependent (l - np - 1). intros k Hk. subst l.
  assert (Hkm : k < m) by (unfold q in H2; lia).
  unfold snth, T, txt in Hi. rewrite app_nth2 in Hi by (fold np; lia). fold np in Hi.
  replace (np + 1 + k - np) with (S k) in Hi by lia. cbn [app nth] in Hi.
  rewrite app_nth1 in Hi by (fold m; lia).
  destruct (nth_split c ON Hkm) as (pre & post & Ec & Hpre).
  set (x := nth k c ON) in *.
  assert (Hb' : exists k', iso_bal (S k') post = true).
  { pose proof Hbal as Hb. rewrite Ec in Hb. apply iso_bal_app in Hb. destruct Hb as (k' & Hb).
    exists k'. cbn [iso_bal] in Hb. rewrite Hi in Hb. exact Hb. }
  destruct Hb' as (k' & Hb').
  unfold matching_pdi, T, txt.
  replace (prefix ++ [ini] ++ c ++ [PDI] ++ suffix) with ((prefix ++ [ini] ++ pre ++ [x]) ++ post ++ PDI :: suffix)
    by (rewrite Ec, <- !app_assoc; reflexivity).
  rewrite skipn_app_ge by (rewrite !app_length; cbn [length]; fold np; lia).
  replace (S (np + 1 + k) - length (prefix ++ [ini] ++ pre ++ [x])) with 0
    by (rewrite !app_length; cbn [length]; fold np; lia).
  cbn [skipn].
  destruct (mp_inside post k' 1 (S (np + 1 + k)) (PDI :: suffix)) as (j' & E1 & E2);
    [replace (k' + 1) with (S k') by lia; exact Hb'|lia|].
  exists j'. split; [exact E1|]. apply mp_ge in E1. split; [lia|].
  assert (Hm : m = k + 1 + length post).
  { unfold m. rewrite Ec, app_length. cbn [length]. lia. }
  unfold q. lia.
Qed.
End PairText2.
