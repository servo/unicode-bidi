(* Proofs/LINeutral.v — LENGTH INDEPENDENCE of implicit::resolve_neutral (with identify_bracket_pairs):
   the stage run on a text in any encoding is the per-code-unit expansion of the stage run on the
   character list in the ghost encoding U32.
   Every loop of the stage walks an index list.  At unit level the list is [flat_map (units lens)]
   (or [runits lens], backwards) of the character-level one: each character contributes a block of
   units that all hold its class, the loop treats the block as it treats the character, and a write on
   the block is the expansion of the write on the character ([lset_all_units]).  After the main theorem
   [li_neutral_main] the file ends with [units], [X], [good_g], [runs_le] and a few facts stated on them. *)
From BidiVerif Require Import Base ConstsGen ModelText ModelResolve Judge Stmts Stmts2 Stmts3.
From BidiVerif.Proofs Require Import ListLib Units SeqIter NeutralLoops TextView.

(* the loops over a block of indices that hold the same classes *)

Lemma nsm_block oc x o l : (o =c NSM) || removed_by_x9 o = true -> forall pc rest,
  (forall u, In u l -> nth_error oc u = Some o /\ u < length pc) ->
  n0_nsm false oc pc (l ++ rest) x = n0_nsm false oc (lset_all pc l x) rest x.
Proof.
  intros Ho. induction l as [|u l IH]; intros pc rest H; [reflexivity|].
  destruct (H u (or_introl eq_refl)) as [Hu Hlt].
  cbn [app n0_nsm lset_all]. rewrite (get_some _ _ _ _ Hu). cbn [bind].
  destruct (get_total 409 pc u Hlt) as (p & ->). cbn [bind]. rewrite Ho.
  rewrite upd_lset by exact Hlt. cbn [bind]. apply IH.
  intros u' Hu'. rewrite lset_length. apply H. right. exact Hu'.
Qed.

Lemma nsm_stop oc pc u rest x o p :
  nth_error oc u = Some o -> nth_error pc u = Some p -> (o =c NSM) || removed_by_x9 o = false ->
  n0_nsm false oc pc (u :: rest) x = Ok pc.
Proof.
  intros Ho Hp Hc. cbn [n0_nsm]. rewrite (get_some _ _ _ _ Ho), (get_some _ _ _ _ Hp). cbn [bind].
  rewrite Hc. reflexivity.
Qed.

Definition scan_step (c ecls not_e : bclass) (fe fn : bool) : bool * bool :=
  if c =c ecls then (true, fn)
  else if c =c not_e then (fe, true)
  else if (c =c EN) || (c =c AN) then (if ecls =c L then (fe, true) else (true, fn))
  else (fe, fn).

Lemma scan_step_idem c ecls not_e fe fn r :
  scan_step c ecls not_e fe fn = r -> fst r = false -> scan_step c ecls not_e (fst r) (snd r) = r.
Proof.
  unfold scan_step. intros <-.
  destruct (c =c ecls); [discriminate|]. destruct (c =c not_e); [reflexivity|].
  destruct ((c =c EN) || (c =c AN)); [destruct (ecls =c L); [reflexivity|discriminate]|].
  reflexivity.
Qed.

Lemma n0_scan_cons oc pc ecls not_e pe u R fe fn :
  n0_scan false oc pc ecls not_e pe (u :: R) fe fn =
  if pe <=? u then Ok (fe, fn) else
  o <- get 326 oc u ;;
  if removed_by_x9 o then n0_scan false oc pc ecls not_e pe R fe fn else
  c <- get 325 pc u ;;
  let r := scan_step c ecls not_e fe fn in
  if fst r then Ok r else n0_scan false oc pc ecls not_e pe R (fst r) (snd r).
Proof.
  cbn [n0_scan]. destruct (pe <=? u); [reflexivity|].
  destruct (get 326 oc u) as [o|]; [|reflexivity]. cbn [bind negb]. rewrite Bool.andb_true_r.
  destruct (removed_by_x9 o); [reflexivity|].
  destruct (get 325 pc u) as [c|]; [|reflexivity]. cbn [bind]. unfold scan_step.
  destruct (c =c ecls); [reflexivity|]. destruct (c =c not_e); [destruct fe; reflexivity|].
  destruct ((c =c EN) || (c =c AN)); [destruct (ecls =c L); [destruct fe|]; reflexivity|].
  destruct fe; reflexivity.
Qed.

Lemma n0_scan_twice oc pc ecls not_e pe o c u a R fe fn :
  nth_error oc u = Some o -> nth_error pc u = Some c -> u < pe ->
  nth_error oc a = Some o -> nth_error pc a = Some c -> a < pe ->
  n0_scan false oc pc ecls not_e pe (u :: a :: R) fe fn = n0_scan false oc pc ecls not_e pe (u :: R) fe fn.
Proof.
  intros Hou Hcu Hu Hoa Hca Ha.
  assert (Ea : forall fe fn, n0_scan false oc pc ecls not_e pe (a :: R) fe fn =
            if removed_by_x9 o then n0_scan false oc pc ecls not_e pe R fe fn else
            let r := scan_step c ecls not_e fe fn in
            if fst r then Ok r else n0_scan false oc pc ecls not_e pe R (fst r) (snd r)).
  { intros fe' fn'. rewrite n0_scan_cons. destruct (Nat.leb_spec pe a); [lia|].
    rewrite (get_some _ _ _ _ Hoa), (get_some _ _ _ _ Hca). reflexivity. }
  rewrite !(n0_scan_cons _ _ _ _ _ u). destruct (Nat.leb_spec pe u); [lia|].
  rewrite (get_some _ _ _ _ Hou), (get_some _ _ _ _ Hcu). cbn [bind]. rewrite !Ea.
  destruct (removed_by_x9 o); [reflexivity|]. cbv beta zeta iota.
  destruct (fst (scan_step c ecls not_e fe fn)) eqn:Ef; [reflexivity|].
  pose proof (scan_step_idem _ _ _ _ _ _ eq_refl Ef) as Hi. rewrite Ef in Hi. rewrite Hi, Ef. reflexivity.
Qed.

Lemma n0_scan_block oc pc ecls not_e pe o c u R :
  nth_error oc u = Some o -> nth_error pc u = Some c -> u < pe -> forall l fe fn,
  (forall a, In a l -> nth_error oc a = Some o /\ nth_error pc a = Some c /\ a < pe) ->
  n0_scan false oc pc ecls not_e pe (u :: l ++ R) fe fn = n0_scan false oc pc ecls not_e pe (u :: R) fe fn.
Proof.
  intros Hou Hcu Hu. induction l as [|a l IH]; intros fe fn H; [reflexivity|].
  destruct (H a (or_introl eq_refl)) as (Hoa & Hca & Ha). cbn [app].
  rewrite (n0_scan_twice oc pc ecls not_e pe o c u a) by assumption.
  apply IH. intros a' Ha'. apply H. right. exact Ha'.
Qed.

Lemma ni_consume_block w : forall l R run last,
  (forall u, In u l -> exists c, nth_error w u = Some c /\ nibn c = true) ->
  exists last', In last' (last :: l) /\ ni_consume w (l ++ R) run last = ni_consume w R (run ++ l) last'.
Proof.
  induction l as [|u l IH]; intros R run last H; [exists last; rewrite app_nil_r; split; [left|]; reflexivity|].
  destruct (H u (or_introl eq_refl)) as (c & Hc & Hn).
  destruct (IH R (run ++ [u]) u) as (last' & Hin & E); [intros u' Hu'; apply H; right; exact Hu'|].
  exists last'. split; [right; exact Hin|].
  cbn [app ni_consume]. rewrite (get_some _ _ _ _ Hc). cbn [bind]. fold (nibn c). rewrite Hn, E, <- app_assoc.
  reflexivity.
Qed.

Lemma n12_skip sq ecls w c R : nibn c = false -> forall l fuel,
  (forall u, In u l -> nth_error w u = Some c) ->
  n12_loop (length l + fuel) sq ecls w (l ++ R) c = n12_loop fuel sq ecls w R c.
Proof.
  intros Hc. induction l as [|u l IH]; intros fuel H; [reflexivity|].
  cbn [length app Nat.add n12_loop]. rewrite (get_some _ _ _ _ (H u (or_introl eq_refl))).
  cbn [bind]. fold (nibn c). rewrite Hc. apply IH. intros u' Hu'. apply H. right. exact Hu'.
Qed.

Section Sim.
Variable lens : list nat.
Hypothesis Hpos : Forall (fun l => 0 < l) lens.
Notation k := (length lens).
Notation U := (ustart lens).
Notation E := (expand lens).

Lemma len_pos i : i < k -> 0 < nth i lens 0.
Proof. intros H. rewrite Forall_forall in Hpos. apply Hpos, nth_In, H. Qed.

Lemma units_cons i : i < k -> exists tl, units lens i = U i :: tl.
Proof.
  intros H. unfold units. pose proof (len_pos i H) as Hp.
  destruct (nth i lens 0) as [|m]; [lia|]. eexists. reflexivity.
Qed.

Lemma ustart_in_units i : i < k -> In (U i) (units lens i).
Proof. intros H. destruct (units_cons i H) as (tl & ->). left. reflexivity. Qed.

Lemma ustart_ltb i j : i <= k -> j <= k -> (U i <? U j) = (i <? j).
Proof.
  intros Hi Hj. destruct (Nat.ltb_spec i j) as [H|H].
  - apply Nat.ltb_lt. apply ustart_lt; assumption.
  - apply Nat.ltb_ge. apply ustart_mono. exact H.
Qed.

(* [f j] lists the units of character j, forwards ([units]) or backwards ([runits]) *)
Definition lists_units (f : nat -> list nat) : Prop :=
  forall j, NoDup (f j) /\ forall u, In u (f j) <-> In u (units lens j).

Lemma lists_units_units : lists_units (units lens).
Proof. intros j. split; [apply seq_NoDup | reflexivity]. Qed.

Lemma lists_units_runits : lists_units (runits lens).
Proof.
  intros j. unfold runits. split; [apply NoDup_rev, seq_NoDup|]. intros u. symmetry. apply in_rev.
Qed.

Lemma lists_units_cons f j : lists_units f -> j < k -> exists u tl, f j = u :: tl.
Proof.
  intros Hf Hj. destruct (f j) as [|u tl] eqn:Ef; [|eauto].
  apply ustart_in_units, (Hf j) in Hj. rewrite Ef in Hj. destruct Hj.
Qed.

Lemma find_value_by_sim {A} s p f : lists_units f -> forall idxs (v : list A) r,
  length v = k -> find_value_by s p v idxs = Ok r ->
  find_value_by s p (E v) (flat_map f idxs) = Ok r.
Proof.
  intros Hf. induction idxs as [|i rest IH]; intros v r Hl H; [exact H|].
  cbn [find_value_by] in H. apply bind_ok in H as (c & Hc & H). apply get_ok in Hc.
  pose proof (nth_error_lt _ _ _ Hc) as Hi. rewrite Hl in Hi.
  assert (Hv : forall u, In u (f i) -> nth_error (E v) u = Some c).
  { intros u Hu. apply (expand_units lens v i); [exact Hl | exact Hc | apply Hf, Hu]. }
  cbn [flat_map]. destruct (p c) eqn:Ep.
  - injection H as <-. destruct (lists_units_cons f i Hf Hi) as (u & tl & Ef). rewrite Ef in *.
    apply fvb_hit; [apply Hv; left; reflexivity | exact Ep].
  - rewrite fvb_skip; [apply IH; assumption|]. intros u Hu. exists c. auto.
Qed.

Lemma set_while_bn_sim s x f : lists_units f -> forall idxs v r,
  length v = k -> set_while_bn s v idxs x = Ok r ->
  set_while_bn s (E v) (flat_map f idxs) x = Ok (E r).
Proof.
  intros Hf. induction idxs as [|i rest IH]; intros v r Hl H.
  - injection H as <-. reflexivity.
  - cbn [set_while_bn] in H. apply bind_ok in H as (c & Hc & H). apply get_ok in Hc.
    pose proof (nth_error_lt _ _ _ Hc) as Hi. rewrite Hl in Hi.
    assert (Hv : forall u, In u (f i) -> nth_error (E v) u = Some c).
    { intros u Hu. apply (expand_units lens v i); [exact Hl | exact Hc | apply Hf, Hu]. }
    cbn [flat_map]. destruct (c =c BN) eqn:Ec.
    + apply ceq_eq in Ec. subst c.
      apply bind_ok in H as (v' & Hv' & H). apply upd_ok_inv in Hv' as [_ ->].
      rewrite swb_block; [|apply Hf | exact Hv].
      rewrite (lset_all_units lens v (f i) i x Hl (proj2 (Hf i))).
      apply IH; [rewrite lset_length; exact Hl | exact H].
    + injection H as <-. destruct (lists_units_cons f i Hf Hi) as (u & tl & Ef). rewrite Ef in *.
      apply (swb_stop s x (E v) u _ c); [apply Hv; left; reflexivity | apply ceq_neq; exact Ec].
Qed.

Lemma n0_nsm_sim oc x : length oc = k -> forall idxs v r,
  length v = k -> n0_nsm false oc v idxs x = Ok r ->
  n0_nsm false (E oc) (E v) (flat_map (units lens) idxs) x = Ok (E r).
Proof.
  intros Hoc. induction idxs as [|i rest IH]; intros v r Hl H.
  - injection H as <-. reflexivity.
  - cbn [n0_nsm] in H. apply bind_ok in H as (o & Ho & H). apply bind_ok in H as (c & Hc & H).
    apply get_ok in Hc. apply get_ok in Ho.
    pose proof (nth_error_lt _ _ _ Hc) as Hi. rewrite Hl in Hi.
    cbn [flat_map]. destruct ((o =c NSM) || removed_by_x9 o) eqn:Ec.
    + apply bind_ok in H as (v' & Hv' & H). apply upd_ok_inv in Hv' as [_ ->].
      rewrite (nsm_block _ _ o _ Ec).
      * rewrite (lset_all_units lens v _ i x Hl (fun u => iff_refl _)).
        apply IH; [rewrite lset_length; exact Hl | exact H].
      * intros u Hu. split; [eapply expand_units; eauto|].
        rewrite expand_length by exact Hl. eapply units_lt, Hu.
    + injection H as <-. destruct (units_cons i Hi) as (tl & Ei). rewrite Ei. cbn [app].
      apply (nsm_stop _ _ _ _ _ o c); [| |exact Ec]; eapply expand_units; eauto; apply ustart_in_units, Hi.
Qed.

Lemma set_all_units {A} s (x : A) idxs v : length v = k ->
  set_all s (E v) (flat_map (units lens) idxs) x = Ok (E (lset_all v idxs x)).
Proof.
  intros Hl. rewrite set_all_lset_all.
  - rewrite (lset_all_expand lens (units lens) x (fun j u => iff_refl _)) by exact Hl. reflexivity.
  - intros u Hu. rewrite expand_length by exact Hl.
    apply in_flat_map in Hu as (j & _ & Hu). eapply units_lt, Hu.
Qed.

Lemma n0_scan_sim oc v ecls not_e pe : length oc = k -> length v = k ->
  forall idxs fe fn r,
  (forall i, In i idxs -> i < k) ->
  n0_scan false oc v ecls not_e pe idxs fe fn = Ok r ->
  n0_scan false (E oc) (E v) ecls not_e (U pe) (flat_map (units lens) idxs) fe fn = Ok r.
Proof.
  intros Hoc Hl. induction idxs as [|i rest IH]; intros fe fn r Hk H; [exact H|].
  pose proof (Hk i (or_introl eq_refl)) as Hi.
  assert (Hrest : forall j, In j rest -> j < k) by (intros j Hj; apply Hk; right; exact Hj).
  cbn [flat_map]. destruct (units_cons i Hi) as (tl & Ei).
  destruct (nth_error v i) as [c|] eqn:Hc; [|apply nth_error_None in Hc; lia].
  destruct (nth_error oc i) as [o|] eqn:Ho; [|apply nth_error_None in Ho; lia].
  assert (Hu : forall u, In u (units lens i) -> nth_error (E oc) u = Some o /\ nth_error (E v) u = Some c).
  { intros u Hin. split; eapply expand_units; eauto. }
  rewrite n0_scan_cons in H. rewrite (get_some _ _ _ _ Ho), (get_some _ _ _ _ Hc) in H. cbn [bind] in H.
  destruct (Nat.leb_spec pe i) as [Hpe|Hpe].
  - rewrite Ei. cbn [app]. rewrite n0_scan_cons.
    destruct (Nat.leb_spec (U pe) (U i)) as [_|Hlt]; [exact H|].
    pose proof (ustart_mono lens pe i Hpe). lia.
  - assert (Hlt : forall u, In u (units lens i) -> u < U pe).
    { intros u Hin. apply in_units in Hin as (t & Ht & ->).
      pose proof (ustart_mono lens (S i) pe Hpe). rewrite ustart_S in *. lia. }
    rewrite Ei in Hu, Hlt |- *. cbn [app].
    destruct (Hu _ (or_introl eq_refl)) as [Ho1 Hc1].
    rewrite (n0_scan_block _ _ _ _ _ o c (U i)); [|exact Ho1|exact Hc1|apply Hlt; left; reflexivity|].
    2:{ intros a Ha. destruct (Hu a (or_intror Ha)). repeat split; auto. apply Hlt. right. exact Ha. }
    rewrite n0_scan_cons. destruct (Nat.leb_spec (U pe) (U i)) as [Hge|_].
    { specialize (Hlt _ (or_introl eq_refl)). lia. }
    rewrite (get_some _ _ _ _ Ho1), (get_some _ _ _ _ Hc1). cbn [bind].
    destruct (removed_by_x9 o); [apply IH; assumption|]. cbv zeta in *.
    destruct (fst (scan_step c ecls not_e fe fn)); [exact H | apply IH; assumption].
Qed.

Lemma iter_forwards_lt runs pos idx l : Forall (run_in k) runs ->
  iter_forwards_from runs pos idx = Ok l -> forall i, In i l -> i < k.
Proof.
  intros Hr H i Hi. apply iter_forwards_inv in H as (r & Hn & ->). rewrite Forall_forall in Hr.
  apply in_app_or in Hi as [Hi|Hi].
  - apply in_range in Hi. apply nth_error_In in Hn. destruct (Hr r Hn). lia.
  - apply in_flat_map in Hi as (r' & Hr' & Hi). apply in_skipn in Hr'. apply in_range in Hi.
    destruct (Hr r' Hr'). lia.
Qed.

(* At unit level a round starts at the first unit of character i.  If i is strong its other units are
   skipped with the same prev_class ([Hskip] below).  If i is neutral the inner loop takes the units of
   the whole run and stops at the first unit of the character j that ended it; the write is the
   expansion of the write at character level, and the other units of j are skipped as before. *)
Lemma n12_loop_sim sq ecls : forall fc v idxs prev r fu,
  length v = k ->
  n12_loop fc sq ecls v idxs prev = Ok r ->
  length (flat_map (units lens) idxs) < fu ->
  n12_loop fu (useq lens sq) ecls (E v) (flat_map (units lens) idxs) prev = Ok (E r).
Proof.
  induction fc as [|fc IH]; intros v idxs prev r fu Hl H Hfu; [discriminate|].
  destruct fu as [|fu]; [lia|].
  destruct idxs as [|i rest]; [injection H as <-; reflexivity|].
  apply n12_loop_inv in H as (c & Hc & H).
  pose proof (nth_error_lt _ _ _ Hc) as Hi. rewrite Hl in Hi.
  destruct (units_cons i Hi) as (tl & Ei).
  assert (Hv : forall u, In u (U i :: tl) -> nth_error (E v) u = Some c).
  { rewrite <- Ei. intros u Hu. eapply expand_units; eauto. }
  assert (Hskip : forall j c' tlj v' rest' f, length v' = k -> nth_error v' j = Some c' -> nibn c' = false ->
            units lens j = U j :: tlj -> n12_loop fc sq ecls v' rest' c' = Ok r ->
            length (tlj ++ flat_map (units lens) rest') < f ->
            n12_loop f (useq lens sq) ecls (E v') (tlj ++ flat_map (units lens) rest') c' = Ok (E r)).
  { intros j c' tlj v' rest' f Hl' Hj Hn Ej H' Hf. rewrite app_length in Hf.
    replace f with (length tlj + (f - length tlj)) by lia. rewrite n12_skip.
    - apply IH; [exact Hl' | exact H' | lia].
    - exact Hn.
    - intros u Hu. apply (expand_units lens v' j); [exact Hl' | exact Hj | rewrite Ej; right; exact Hu]. }
  cbn [flat_map] in *. rewrite Ei in *. cbn [app length] in Hfu. cbn [app n12_loop].
  rewrite (get_some _ _ _ _ (Hv _ (or_introl eq_refl))). cbn [bind]. fold (nibn c).
  destruct (nibn c) eqn:En.
  2:{ apply (Hskip i c tl v rest fu); auto. lia. }
  destruct H as (l1 & Hl1 & H).
  assert (Hni : forall u, In u (tl ++ flat_map (units lens) l1) ->
                  exists c, nth_error (E v) u = Some c /\ nibn c = true).
  { intros u Hu. apply in_app_or in Hu as [Hu|Hu]; [exists c; split; [apply Hv; right; exact Hu | exact En]|].
    apply in_flat_map in Hu as (y & Hy & Hu). destruct (Hl1 y Hy) as (c2 & H2 & H3).
    exists c2. split; [eapply expand_units; eauto | exact H3]. }
  assert (Hrun : [U i] ++ tl ++ flat_map (units lens) l1 = flat_map (units lens) (i :: l1)).
  { cbn [flat_map]. rewrite Ei. reflexivity. }
  destruct H as [(-> & ->)|(j & rest' & c' & -> & Hj & Hn' & Hnot & H)].
  - (* the iterator is exhausted inside the run *)
    destruct (ni_consume_block (E v) _ [] [U i] (U i) Hni) as (lu & Hlu & Elu).
    rewrite app_nil_r in Elu. rewrite Elu.
    cbn [ni_consume bind opt_or irs_eos useq]. rewrite Hrun, (set_all_units 480 _ _ _ Hl). cbn [bind].
    set (v' := lset_all v (i :: l1) _).
    destruct (get_total 484 (E v') lu) as (p & ->).
    { rewrite expand_length by (unfold v'; rewrite lset_all_length; exact Hl).
      rewrite <- (expand_length lens v Hl). destruct Hlu as [<-|Hin].
      - eapply nth_error_lt, Hv. left. reflexivity.
      - destruct (Hni _ Hin) as (c2 & H2 & _). eapply nth_error_lt, H2. }
    cbn [bind]. destruct fu; [cbn [length] in Hfu; lia | reflexivity].
  - (* the run ends at character j *)
    pose proof (nth_error_lt _ _ _ Hj) as Hjk. rewrite Hl in Hjk.
    destruct (units_cons j Hjk) as (tlj & Ej).
    rewrite flat_map_app. cbn [flat_map]. rewrite Ej. cbn [app]. rewrite app_assoc.
    destruct (ni_consume_block (E v) _ (U j :: tlj ++ flat_map (units lens) rest') [U i] (U i) Hni) as (lu & _ & ->).
    cbn [ni_consume].
    rewrite (get_some _ _ _ _ (expand_units lens v j c' (U j) Hl Hj (ustart_in_units j Hjk))).
    cbn [bind]. fold (nibn c'). rewrite Hn'. cbn [bind opt_or]. rewrite Hrun, (set_all_units 480 _ _ _ Hl). cbn [bind].
    set (v' := lset_all v (i :: l1) _) in *.
    assert (Hl' : length v' = k) by (unfold v'; rewrite lset_all_length; exact Hl).
    assert (Hj' : nth_error v' j = Some c') by (unfold v'; rewrite nth_error_lset_all_notin; assumption).
    rewrite (get_some _ _ _ _ (expand_units lens v' j c' (U j) Hl' Hj' (ustart_in_units j Hjk))). cbn [bind].
    apply (Hskip j c' tlj v' rest' fu Hl' Hj' Hn' Ej H).
    rewrite flat_map_app in Hfu. cbn [flat_map] in Hfu. rewrite Ej in Hfu.
    rewrite !app_length in *. cbn [length] in Hfu. lia.
Qed.

Definition uent (x : N * nat * nat) : N * nat * nat := (fst (fst x), U (snd (fst x)), snd x).
Definition ustk (st : list (N * nat * nat)) := map uent st.
Definition upair (p : bracket_pair) : bracket_pair :=
  {| bp_start := U (bp_start p); bp_end := U (bp_end p);
     bp_start_run := bp_start_run p; bp_end_run := bp_end_run p |}.

Definition stack_ok (st : list (N * nat * nat)) : Prop := Forall (fun x => snd (fst x) < k) st.
Definition pairs_ok (ps : list bracket_pair) : Prop := Forall (fun p => bp_start p < k) ps.

Lemma bracket_match_sim key : forall st,
  bracket_match key (ustk st)
  = match bracket_match key st with
    | Some (pos, ri, below) => Some (U pos, ri, ustk below)
    | None => None
    end.
Proof.
  induction st as [|[[k0 pos] ri] below IH]; [reflexivity|].
  cbn [ustk map uent fst snd bracket_match]. destruct (k0 =? key)%N; [reflexivity|]. exact IH.
Qed.

Lemma bracket_match_ok key : forall st pos ri below,
  bracket_match key st = Some (pos, ri, below) -> stack_ok st -> pos < k /\ stack_ok below.
Proof.
  induction st as [|[[k0 p0] r0] rest IH]; intros pos ri below H Hs; [discriminate|].
  inversion Hs as [|? ? Hx Hrest]; subst. cbn [bracket_match] in H.
  destruct (k0 =? key)%N.
  - injection H as <- <- <-. cbn [fst snd] in Hx. auto.
  - eapply IH; eauto.
Qed.

Definition cis_rel (s : nat) (ic pu : nat * N) : Prop :=
  snd ic = snd pu /\ U s + fst pu = U (s + fst ic).

Lemma bd16_run_sim ds oc pc ri s : length pc = k -> length oc = k ->
  forall cis_c cis_u, Forall2 (cis_rel s) cis_c cis_u ->
  forall stack pairs stack' pairs' stopped,
  bd16_run ds false oc pc ri s cis_c stack pairs = Ok (stack', pairs', stopped) ->
  stack_ok stack -> pairs_ok pairs ->
  bd16_run ds false (E oc) (E pc) ri (U s) cis_u (ustk stack) (map upair pairs)
    = Ok (ustk stack', map upair pairs', stopped) /\
  stack_ok stack' /\ pairs_ok pairs'.
Proof.
  intros Hl Hlo. induction 1 as [|[i ch] [p ch'] cis_c cis_u [Hch Hp] Hrel IH];
    intros stack pairs stack' pairs' stopped H Hs Hps.
  - cbn [bd16_run] in H. injection H as <- <- <-. auto.
  - cbn [fst snd] in Hch, Hp. subst ch'.
    cbn [bd16_run] in H |- *. apply bind_ok in H as (c & Hc & H). apply get_ok in Hc.
    pose proof (nth_error_lt _ _ _ Hc) as Hi. rewrite Hl in Hi.
    rewrite Hp, (get_some _ _ _ _ (expand_units lens pc _ c _ Hl Hc (ustart_in_units _ Hi))). cbn [bind].
    destruct (negb (c =c ON)); [apply IH; assumption|].
    apply bind_ok in H as (o & Ho & H). apply get_ok in Ho.
    rewrite (get_some _ _ _ _ (expand_units lens oc _ o _ Hlo Ho (ustart_in_units _ Hi))). cbn [bind].
    destruct (removed_by_x9 o && negb false); [apply IH; assumption|].
    destruct (ds_bracket ds ch) as [[opening is_open]|]; [|apply IH; assumption].
    destruct is_open.
    + unfold ustk at 1. rewrite map_length.
      destruct (bracket_limit <=? length stack).
      * injection H as <- <- <-. auto.
      * apply (IH ((opening, s + i, ri) :: stack)); [exact H| |exact Hps]. constructor; [exact Hi | exact Hs].
    + rewrite bracket_match_sim.
      destruct (bracket_match opening stack) as [[[pos r0] below]|] eqn:Em; [|apply IH; assumption].
      destruct (bracket_match_ok _ _ _ _ _ Em Hs) as [Hpos' Hbelow].
      specialize (IH below (pairs ++ [{| bp_start := pos; bp_end := s + i; bp_start_run := r0; bp_end_run := ri |}])).
      rewrite map_app in IH. apply IH; [exact H | exact Hbelow |].
      apply Forall_app. split; [exact Hps|]. constructor; [exact Hpos' | constructor].
Qed.

(* sort_by_key commutes with the (strictly monotone) map to unit positions *)
Lemma insert_pair_sim p : bp_start p < k -> forall l, pairs_ok l ->
  insert_pair (upair p) (map upair l) = map upair (insert_pair p l) /\ pairs_ok (insert_pair p l).
Proof.
  intros Hp. induction 1 as [|q l Hq Hf [IH1 IH2]]; [split; [reflexivity | repeat constructor; exact Hp]|].
  cbn [map insert_pair upair bp_start]. rewrite ustart_ltb by lia.
  destruct (bp_start p <? bp_start q); [split; [reflexivity | repeat constructor; assumption]|].
  cbn [map]. rewrite IH1. split; [reflexivity | constructor; assumption].
Qed.

Lemma sort_pairs_sim l : pairs_ok l -> sort_pairs (map upair l) = map upair (sort_pairs l).
Proof.
  unfold sort_pairs. change (@nil bracket_pair) with (map upair []) at 1.
  assert (Ha : pairs_ok []) by constructor. revert Ha. generalize (@nil bracket_pair).
  induction l as [|p l IH]; intros acc Ha Hl; [reflexivity|].
  inversion Hl as [|? ? Hp Hl']; subst. cbn [map fold_left].
  destruct (insert_pair_sim p Hp acc Ha) as [-> Ha']. apply IH; assumption.
Qed.

End Sim.

Section SimText.
Variable e : enc.
Variable text : list N.
Hypothesis Hvalid : valid_text e text.
Let chars := view_of e text.
Let cps := map fst chars.
Let lens := map snd chars.
Notation k := (length lens).
Notation U := (ustart lens).
Notation E := (expand lens).

Lemma chars_view : text_view e text chars.
Proof. apply view_of_proved, Hvalid. Qed.

Lemma lens_pos : Forall (fun l => 0 < l) lens.
Proof. apply view_lens_pos, Hvalid. Qed.

Lemma cps_length : length cps = k.
Proof. unfold cps, lens. rewrite !map_length. reflexivity. Qed.

Lemma chars_length : length chars = k.
Proof. unfold lens. rewrite map_length. reflexivity. Qed.

Lemma lens_nth i c l : nth_error chars i = Some (c, l) -> nth i lens 0 = l.
Proof. intros H. unfold lens. apply nth_error_nth. apply (map_nth_error snd _ _ H). Qed.

Lemma t_len_text : t_len e text = U k.
Proof.
  destruct chars_view as (_ & _ & _ & Hlen & _). rewrite Hlen. fold lens.
  rewrite ustart_all by lia. reflexivity.
Qed.

Lemma sub_unit site i j : i <= j -> j <= k ->
  exists sub, t_subrange site e text (U i) (U j) = Ok sub /\
              text_view e sub (firstn (j - i) (skipn i chars)).
Proof.
  intros Hij Hj.
  destruct (subrange_view_proved site e text i j Hvalid Hij) as (sub & H1 & H2 & H3).
  { fold chars. rewrite chars_length. exact Hj. }
  exists sub. split; [exact H1|]. fold chars in H2. rewrite <- H2. apply view_of_proved, H3.
Qed.

Lemma sub_char site i j sub : t_subrange site U32 cps i j = Ok sub ->
  i <= j /\ j <= k /\ sub = firstn (j - i) (skipn i cps).
Proof. cbn [t_subrange]. rewrite <- cps_length. apply slice_ok_inv. Qed.

Lemma first_char_len_char site i j sub n :
  t_subrange site U32 cps i j = Ok sub -> first_char_len U32 site sub = Ok n ->
  i < j /\ j <= k /\ n = 1.
Proof.
  intros H1 H2. apply sub_char in H1 as (Hij & Hj & ->).
  unfold first_char_len in H2. cbn [t_chars char_len] in H2.
  destruct (firstn (j - i) (skipn i cps)) as [|c r] eqn:Ef; [discriminate|].
  injection H2 as <-. split; [|auto].
  destruct (j - i) eqn:Eji; [discriminate | lia].
Qed.

Lemma first_char_len_unit site i j : i < j -> j <= k ->
  exists sub, t_subrange site e text (U i) (U j) = Ok sub /\
              first_char_len e site sub = Ok (nth i lens 0).
Proof.
  intros Hij Hj. destruct (sub_unit site i j ltac:(lia) Hj) as (sub & H1 & H2).
  exists sub. split; [exact H1|].
  destruct H2 as (_ & _ & Hch & _ & Hf).
  unfold first_char_len. rewrite Hch.
  destruct (nth_error chars i) as [[c l]|] eqn:Hn; [|apply nth_error_None in Hn; rewrite chars_length in Hn; lia].
  rewrite (skipn_nth_error _ _ _ Hn) in *.
  destruct (j - i) as [|m] eqn:Eji; [lia|].
  cbn [firstn map fst]. inversion Hf as [|? ? [Hl _] _]; subst. cbn [fst snd] in Hl.
  f_equal. rewrite <- Hl. symmetry. eapply lens_nth, Hn.
Qed.

Lemma cis_rel_positions s : forall m i p, s + i + m <= k -> U s + p = U (s + i) ->
  Forall2 (cis_rel lens s) (combine (seq i m) (map fst (firstn m (skipn (s + i) chars))))
          (map (fun x : nat * N * nat => (fst (fst x), snd (fst x))) (positions p (firstn m (skipn (s + i) chars)))).
Proof.
  induction m as [|m IH]; intros i p Hm Hp; [constructor|].
  destruct (nth_error chars (s + i)) as [[c l]|] eqn:Hn; [|apply nth_error_None in Hn; rewrite chars_length in Hn; lia].
  rewrite (skipn_nth_error _ _ _ Hn). cbn [firstn seq map combine positions fst snd]. constructor.
  - split; [reflexivity | exact Hp].
  - replace (S (s + i)) with (s + S i) by lia. apply IH; [lia|].
    replace (s + S i) with (S (s + i)) by lia. rewrite ustart_S, (lens_nth _ _ _ Hn). lia.
Qed.

Lemma bd16_runs_sim ds oc pc : length pc = k -> length oc = k ->
  forall runs ri stack pairs res, Forall (run_in k) runs ->
  bd16_runs U32 ds false cps oc pc ri runs stack pairs = Ok res ->
  stack_ok lens stack -> pairs_ok lens pairs ->
  bd16_runs e ds false text (E oc) (E pc) ri (map (urun lens) runs) (ustk lens stack) (map (upair lens) pairs)
    = Ok (map (upair lens) res) /\ pairs_ok lens res.
Proof.
  intros Hl Hlo. induction runs as [|[s en] runs IH]; intros ri stack pairs res Hr H Hs Hps.
  - cbn [bd16_runs] in H. injection H as <-. auto.
  - inversion Hr as [|? ? [Hr1 Hr2] Hr']; subst. cbn [fst snd] in Hr1, Hr2.
    cbn [bd16_runs] in H. apply bind_ok in H as (sub & Hsub & H).
    apply bind_ok in H as ([[stack' pairs'] stopped] & Hrun & H).
    apply sub_char in Hsub as (_ & _ & ->).
    destruct (sub_unit 517 s en ltac:(lia) Hr2) as (subu & Hu1 & Hu2).
    cbn [map bd16_runs]. unfold urun at 1. cbn [fst snd]. rewrite Hu1. cbn [bind].
    destruct Hu2 as (Hci & _).
    assert (Hrel : Forall2 (cis_rel lens s)
                     (t_char_indices U32 (firstn (en - s) (skipn s cps))) (t_char_indices e subu)).
    { rewrite Hci. cbn [t_char_indices]. unfold cps. rewrite skipn_map, firstn_map, !map_length.
      rewrite firstn_length, skipn_length, chars_length, Nat.min_l by lia.
      pose proof (cis_rel_positions s (en - s) 0 0) as G. rewrite !Nat.add_0_r in G. apply G; lia. }
    destruct (bd16_run_sim lens lens_pos ds oc pc ri s Hl Hlo _ _ Hrel _ _ _ _ _ Hrun Hs Hps)
      as (Hrun' & Hs' & Hps').
    rewrite Hrun'. cbn [bind].
    destruct (stopped && negb false).
    + injection H as <-. auto.
    + apply IH; assumption.
Qed.

Lemma ustart_succ i : U i + nth i lens 0 = U (i + 1).
Proof. rewrite Nat.add_1_r, ustart_S. reflexivity. Qed.

Lemma set_range_sim {A} s (v : list A) a b x r : length v = k ->
  set_range s v a b x = Ok r ->
  set_range s (E v) (U a) (U b) x = Ok (E r) /\ length r = k.
Proof.
  intros Hl H. apply set_range_lset_all_inv in H as (Hab & Hb & ->).
  split; [|rewrite lset_all_length; exact Hl].
  rewrite set_range_lset_all;
    [| apply ustart_mono, Hab | rewrite expand_length by exact Hl; apply ustart_le_total].
  rewrite range_units, (lset_all_expand lens (units lens) x (fun _ _ => iff_refl _)) by exact Hl.
  reflexivity.
Qed.

Lemma n0_pair_sim sq oc ecls not_e pc pair r : length pc = k -> length oc = k -> seq_in k sq ->
  n0_pair U32 false iter_backwards_from cps sq oc ecls not_e pc pair = Ok r ->
  n0_pair e false iter_backwards_from text (useq lens sq) (E oc) ecls not_e (E pc) (upair lens pair) = Ok (E r)
  /\ length r = k.
Proof.
  intros Hl Hoc Hsq H. unfold n0_pair in *. cbv zeta in *.
  cbn [useq irs_runs irs_sos upair bp_start bp_end bp_start_run bp_end_run].
  apply bind_ok in H as (sub & Hsub & H). apply bind_ok in H as (scl & Hscl & H).
  destruct (first_char_len_char _ _ _ _ _ Hsub Hscl) as (Hab & Hb & ->).
  destruct (first_char_len_unit 311 _ _ Hab Hb) as (subu & -> & Hscu). cbn [bind]. rewrite Hscu. cbn [bind].
  rewrite !ustart_succ.
  apply bind_ok in H as (fw & Hfw & H). rewrite Hfw in H. rewrite (iter_forwards_units lens _ _ _ _ Hfw). cbn [bind].
  apply bind_ok in H as ([fe fn] & Hscan & H).
  rewrite (n0_scan_sim lens lens_pos oc pc ecls not_e _ Hoc Hl _ _ _ _ (iter_forwards_lt lens _ _ _ _ Hsq Hfw) Hscan).
  cbn [bind].
  apply bind_ok in H as (cts & Hcts & H).
  match goal with |- bind ?X _ = _ /\ _ => assert (Hc : X = Ok cts) end.
  { destruct fe; [exact Hcts|]. destruct fn; [|exact Hcts].
    apply bind_ok in Hcts as (bw & Hbw & Hcts). apply bind_ok in Hcts as (ps & Hps & Hcts).
    rewrite (iter_backwards_units lens _ _ _ _ Hbw). cbn [bind].
    rewrite (find_value_by_sim lens lens_pos 357 _ _ (lists_units_runits lens) _ _ _ Hl Hps). exact Hcts. }
  rewrite Hc. cbn [bind]. destruct cts as [cts|]; [|injection H as <-; auto].
  apply bind_ok in H as (sub2 & Hsub2 & H). apply bind_ok in H as (ecl & Hecl & H). cbn [t_len] in Hsub2.
  destruct (first_char_len_char _ _ _ _ _ Hsub2 Hecl) as (Hbk & _ & ->). rewrite cps_length in Hbk.
  rewrite t_len_text. destruct (first_char_len_unit 386 _ k Hbk (le_n _)) as (subu2 & -> & Hecu).
  cbn [bind]. rewrite Hecu. cbn [bind]. rewrite !ustart_succ.
  apply bind_ok in H as (pc1 & Hpc1 & H). destruct (set_range_sim 387 _ _ _ _ _ Hl Hpc1) as [-> Hl1]. cbn [bind].
  apply bind_ok in H as (pc2 & Hpc2 & H). destruct (set_range_sim 390 _ _ _ _ _ Hl1 Hpc2) as [-> Hl2]. cbn [bind].
  apply bind_ok in H as (bw & Hbw & H). rewrite (iter_backwards_units lens _ _ _ _ Hbw). cbn [bind].
  apply bind_ok in H as (pc3 & Hpc3 & H).
  rewrite (set_while_bn_sim lens lens_pos 395 cts _ (lists_units_runits lens) _ _ _ Hl2 Hpc3). cbn [bind].
  apply set_while_bn_length in Hpc3. rewrite Hl2 in Hpc3.
  cbn [bind] in H. apply bind_ok in H as (pc4 & Hpc4 & H). rewrite (n0_nsm_sim lens lens_pos oc cts Hoc _ _ _ Hpc3 Hpc4). cbn [bind].
  apply n0_nsm_length in Hpc4. rewrite Hpc3 in Hpc4.
  apply bind_ok in H as (fw2 & Hfw2 & H). rewrite (iter_forwards_units lens _ _ _ _ Hfw2). cbn [bind].
  split; [apply (n0_nsm_sim lens lens_pos oc cts Hoc _ _ _ Hpc4 H)|].
  apply n0_nsm_length in H. congruence.
Qed.

Lemma n0_pairs_sim sq oc ecls not_e : length oc = k -> seq_in k sq -> forall pairs pc r,
  length pc = k ->
  n0_pairs U32 false iter_backwards_from cps sq oc ecls not_e pc pairs = Ok r ->
  n0_pairs e false iter_backwards_from text (useq lens sq) (E oc) ecls not_e (E pc) (map (upair lens) pairs)
    = Ok (E r) /\ length r = k.
Proof.
  intros Hoc Hsq. induction pairs as [|p pairs IH]; intros pc r Hl H.
  - cbn [n0_pairs] in H. injection H as <-. auto.
  - cbn [n0_pairs] in H. apply bind_ok in H as (pc' & Hp & H).
    destruct (n0_pair_sim sq oc ecls not_e pc p pc' Hl Hoc Hsq Hp) as [H1 Hl'].
    cbn [map n0_pairs]. rewrite H1. cbn [bind]. apply IH; assumption.
Qed.

Lemma resolve_neutral_sim ds sq lv oc pc out :
  length pc = k -> length oc = k -> length lv = k -> seq_in k sq ->
  resolve_neutral U32 ds cps sq lv oc pc = Ok out ->
  resolve_neutral e ds text (useq lens sq) (E lv) (E oc) (E pc) = Ok (E out).
Proof.
  intros Hl Hoc Hlv Hsq H. unfold resolve_neutral, resolve_neutral_gen in *.
  change (irs_runs (useq lens sq)) with (map (urun lens) (irs_runs sq)).
  change (irs_sos (useq lens sq)) with (irs_sos sq).
  destruct (irs_runs sq) as [|r0 rs] eqn:Er; [discriminate|].
  apply bind_ok in H as (l0 & Hl0 & H). apply get_ok in Hl0.
  pose proof (nth_error_lt _ _ _ Hl0) as Hr0. rewrite Hlv in Hr0.
  cbn [map]. unfold urun at 1. cbn [fst].
  rewrite (get_some _ _ _ _ (expand_units lens lv _ l0 _ Hlv Hl0 (ustart_in_units lens lens_pos _ Hr0))).
  cbn [bind].
  change (urun lens r0 :: map (urun lens) rs) with (map (urun lens) (r0 :: rs)). rewrite <- Er in *.
  apply bind_ok in H as (pairs & Hpairs & H). apply bind_ok in H as (pc1 & Hpc1 & H).
  unfold identify_bracket_pairs_gen in *. cbn [useq irs_runs].
  apply bind_ok in Hpairs as (ps & Hps & Hpairs). injection Hpairs as <-.
  destruct (bd16_runs_sim ds oc pc Hl Hoc (irs_runs sq) 0 [] [] ps Hsq Hps (Forall_nil _) (Forall_nil _))
    as [Hbd Hok].
  cbn [ustk map] in Hbd. rewrite Hbd. cbn [bind].
  rewrite (sort_pairs_sim lens lens_pos _ Hok).
  destruct (n0_pairs_sim sq oc (level_class l0) _ Hoc Hsq _ _ _ Hl Hpc1) as [Hn0 Hl1].
  rewrite Hn0. cbn [bind]. rewrite runs_units.
  apply (n12_loop_sim lens lens_pos sq (level_class l0) _ pc1 _ (irs_sos sq) out _ Hl1 H). lia.
Qed.

End SimText.

Theorem li_neutral_main : LI_neutral.
Proof.
  intros e text Hv ds sq lv oc pc out' H1 H2 H3 H4 H5.
  apply (resolve_neutral_sim e text Hv ds sq lv oc pc out'); try assumption;
    rewrite map_length; assumption.
Qed.

(* [X lens idxs], the unit-level index list of a character-level one, and facts stated on it *)

Definition units (lens : list nat) (i : nat) : list nat := seq (ustart lens i) (nth i lens 0).
Definition X (lens : list nat) (idxs : list nat) : list nat := flat_map (units lens) idxs.

Lemma total_nil : total [] = 0.
Proof. reflexivity. Qed.

Lemma expand_nil {A} (v : list A) : expand [] v = [].
Proof. reflexivity. Qed.

Lemma expand_nil_r {A} lens : expand lens (@nil A) = [].
Proof. apply Units.expand_nil_r. Qed.

Lemma n12_loop_length sq ecls : forall fc v idxs prev r,
  n12_loop fc sq ecls v idxs prev = Ok r -> length r = length v.
Proof.
  induction fc as [|fc IH]; intros v idxs prev r H; [discriminate|].
  destruct idxs as [|i rest]; [injection H as <-; reflexivity|].
  apply n12_loop_inv in H as (c & _ & H). destruct (nibn c); [|eapply IH, H].
  destruct H as (l1 & _ & [(_ & ->)|(j & rest' & c' & _ & _ & _ & _ & H)]); [apply lset_all_length|].
  rewrite (IH _ _ _ _ H). apply lset_all_length.
Qed.

Section OnX.
Variable lens : list nat.
Hypothesis Hpos : Forall (fun l => 0 < l) lens.
Notation k := (length lens).
Notation E := (expand lens).

Definition good_g (g : nat -> list nat) : Prop :=
  forall i, i < k -> g i <> [] /\ forall u, In u (g i) -> In u (units lens i).

Lemma good_units : good_g (units lens).
Proof.
  intros i Hi. split; [|auto]. destruct (units_cons lens Hpos i Hi) as (tl & E). unfold units.
  fold (Units.units lens i). rewrite E. discriminate.
Qed.

Lemma set_while_bn_sim_fwd s x : forall idxs v r,
  length v = k -> set_while_bn s v idxs x = Ok r ->
  set_while_bn s (E v) (X lens idxs) x = Ok (E r).
Proof. exact (set_while_bn_sim lens Hpos s x (Units.units lens) (lists_units_units lens)). Qed.

Definition runs_le (runs : list run) : Prop := Forall (fun r : run => snd r <= k) runs.

Lemma flat_run_range_lt runs : runs_le runs -> Forall (fun i => i < k) (flat_map run_range runs).
Proof.
  intros Hr. apply Forall_forall. intros i Hin. apply in_flat_map in Hin as (r & Hr1 & Hr2).
  unfold runs_le in Hr. rewrite Forall_forall in Hr. specialize (Hr r Hr1).
  apply in_range in Hr2. lia.
Qed.

End OnX.
