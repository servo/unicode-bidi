(* Proofs/TotalSequences.v — totality and well-formedness of prepare::isolating_run_sequences
   (T_sequences of Stmts4.v): on runs that tile [0,k) the model never panics, every output
   sequence is well formed (seq_wf) and the runs of all sequences are a permutation of the input.
   That nothing panics and what each sequence holds is read off the equations of SeqModel.v; what is proved
   here is that the BD13 fold keeps every pending and every finished sequence ascending and below the
   position reached ([good]), and loses no run. *)
From BidiVerif Require Import Base ModelResolve Stmts2 Stmts3 Stmts4.
From BidiVerif.Proofs Require Import LevelOps SeqModel.
From Coq Require Import Permutation.

Fixpoint end_of (a : nat) (l : list run) : nat :=
  match l with [] => a | (_, en) :: r => end_of en r end.

Lemma asc_app l1 l2 : forall a,
  runs_ascending a (l1 ++ l2) <-> runs_ascending a l1 /\ runs_ascending (end_of a l1) l2.
Proof.
  induction l1 as [|[s en] t IH]; intros a; cbn [app runs_ascending end_of]; [tauto|].
  rewrite (IH en). tauto.
Qed.

Lemma end_of_app a l1 l2 : end_of a (l1 ++ l2) = end_of (end_of a l1) l2.
Proof. revert a; induction l1 as [|[s en] t IH]; intros a; cbn [app end_of]; [reflexivity|apply IH]. Qed.

Lemma asc_bounds l : forall a, runs_ascending a l ->
  a <= end_of a l /\ Forall (fun r => a <= fst r /\ fst r < snd r /\ snd r <= end_of a l) l.
Proof.
  induction l as [|[s en] t IH]; intros a H; cbn [runs_ascending end_of] in *.
  - split; [lia|constructor].
  - destruct H as [H1 [H2 H3]]. destruct (IH en H3) as [B1 B2]. split; [lia|].
    constructor; [cbn [fst snd]; lia|].
    eapply Forall_impl; [|exact B2]. cbn beta. intros r Hr. lia.
Qed.

Definition good (pos : nat) (sq : list run) : Prop := runs_ascending 0 sq /\ end_of 0 sq <= pos.

Lemma good_mono p q : p <= q -> forall l, Forall (good p) l -> Forall (good q) l.
Proof. intros H l. apply Forall_impl. intros sq [H1 H2]. split; [exact H1|lia]. Qed.

Lemma good_nil p : good p [].
Proof. unfold good. cbn. split; [exact I|lia]. Qed.

Lemma good_snoc p sq s en : good p sq -> p <= s -> s < en -> good en (sq ++ [(s, en)]).
Proof.
  unfold good. intros [H1 H2] H3 H4. split.
  - apply asc_app. split; [exact H1|]. cbn [runs_ascending]. repeat split; lia.
  - rewrite end_of_app. cbn [end_of]. lia.
Qed.

Lemma good_run_in k sq : good k sq -> Forall (run_in k) sq.
Proof.
  unfold good. intros [H1 H2]. destruct (asc_bounds sq 0 H1) as [_ B].
  eapply Forall_impl; [|exact B]. cbn beta. intros r Hr. unfold run_in. lia.
Qed.

Lemma concat_filter_nonempty (st : list (list run)) :
  concat (filter (fun s => negb (length s =? 0)) st) = concat st.
Proof.
  induction st as [|x t IH]; cbn [filter concat]; [reflexivity|].
  destruct x as [|r x']; cbn [length Nat.eqb negb]; [exact IH|].
  cbn [concat]. rewrite IH. reflexivity.
Qed.

Lemma filter_nonempty_spec (st : list (list run)) :
  Forall (fun sq => sq <> []) (filter (fun s => negb (length s =? 0)) st).
Proof.
  apply Forall_forall. intros sq Hsq. apply filter_In in Hsq as [_ H]. intros ->. discriminate.
Qed.

Lemma Forall_filter {A} (P : A -> Prop) f (l : list A) : Forall P l -> Forall P (filter f l).
Proof.
  rewrite !Forall_forall. intros H x Hx. apply filter_In in Hx as [Hx _]. apply H, Hx.
Qed.

Lemma perm_run_in {A} (sq : list A) r X rest :
  Permutation (((sq ++ [r]) ++ X) ++ rest) ((sq ++ X) ++ r :: rest).
Proof. rewrite <- !app_assoc. apply Permutation_app_head. cbn [app]. apply Permutation_middle. Qed.

Section Stage.
Variable cls : list bclass.
Variable k : nat.
Hypothesis Hcls : length cls = k.

Lemma bd13_total : forall rest pos stack seqs,
  tile_from pos k rest -> stack <> [] ->
  Forall (good pos) stack -> Forall (good pos) seqs -> Forall (fun sq => sq <> []) seqs ->
  exists out, bd13_fold cls rest stack seqs = Ok out /\
              Forall (good k) out /\ Forall (fun sq => sq <> []) out /\
              Permutation (concat out) (concat seqs ++ concat stack ++ rest).
Proof.
  induction rest as [|[s en] rest IH]; intros pos stack seqs Ht Hne Hst Hsq Hnn; cbn [tile_from] in Ht.
  - subst pos. eexists. split; [reflexivity|]. split; [|split].
    + apply Forall_app. split; [exact Hsq|]. apply Forall_filter; exact Hst.
    + apply Forall_app. split; [exact Hnn|]. apply filter_nonempty_spec.
    + rewrite concat_app, concat_filter_nonempty, app_nil_r. apply Permutation_refl.
  - destruct Ht as [Hs [Hlt Ht]]; subst pos. pose proof (tile_le k rest en Ht) as Hen.
    rewrite (bd13_step_eq cls k Hcls) by assumption.
    (* whether the run continues the top sequence or starts a new one: what is pending stays good, holds the
       same runs, and the rest of the stack is not empty *)
    set (ch := if (nth s cls BN =c PDI) && (1 <? length stack) then (hd [] stack, tl stack) else ([], stack)).
    assert (Hch : Forall (good s) (fst ch :: snd ch) /\ fst ch ++ concat (snd ch) = concat stack /\ snd ch <> []).
    { unfold ch. destruct ((nth s cls BN =c PDI) && (1 <? length stack)) eqn:Ec; cbn [fst snd].
      - apply andb_true_iff in Ec as [_ Hl]. apply Nat.ltb_lt in Hl.
        destruct stack as [|top [|b below]]; cbn [length] in Hl; try lia. cbn [hd tl].
        split; [exact Hst|]. split; [reflexivity|discriminate].
      - split; [constructor; [apply good_nil|exact Hst]|]. split; [reflexivity|exact Hne]. }
    destruct ch as [sequence stack1]. cbn [fst snd] in Hch. destruct Hch as (Hg & Hc & Hne1).
    assert (Gs : good en (sequence ++ [(s, en)])) by (apply (good_snoc s); [exact (Forall_inv Hg)|lia|lia]).
    assert (G1 : Forall (good en) stack1) by (apply (good_mono s); [lia|exact (Forall_inv_tail Hg)]).
    assert (Gq : Forall (good en) seqs) by (apply (good_mono s); [lia|exact Hsq]).
    rewrite <- Hc. destruct (is_isolate_init _).
    + destruct (IH en ((sequence ++ [(s, en)]) :: stack1) seqs Ht) as [out [Ho [Hgo [Hn Hp]]]];
        [discriminate|constructor; assumption|exact Gq|exact Hnn|].
      exists out. split; [exact Ho|]. split; [exact Hgo|]. split; [exact Hn|].
      eapply Permutation_trans; [exact Hp|]. apply Permutation_app_head. cbn [concat]. apply perm_run_in.
    + destruct (IH en stack1 (seqs ++ [sequence ++ [(s, en)]]) Ht) as [out [Ho [Hgo [Hn Hp]]]];
        [exact Hne1|exact G1| | |].
      { apply Forall_app. split; [exact Gq|]. constructor; [exact Gs|constructor]. }
      { apply Forall_app. split; [exact Hnn|]. constructor; [|constructor]. destruct sequence; discriminate. }
      exists out. split; [exact Ho|]. split; [exact Hgo|]. split; [exact Hn|].
      eapply Permutation_trans; [exact Hp|].
      rewrite concat_app. cbn [concat]. rewrite app_nil_r, <- (app_assoc (concat seqs)).
      apply Permutation_app_head. rewrite app_assoc. apply perm_run_in.
Qed.

Variable pl : nat.
Variable lv : list nat.
Hypothesis Hlv : length lv = k.

Lemma sequences_total runs has_iso : tile_from 0 k runs ->
  exists seqs, isolating_run_sequences pl cls lv runs has_iso = Ok seqs /\
               Forall (seq_wf k) seqs /\ Permutation (flat_map irs_runs seqs) runs.
Proof.
  intros Ht. pose proof (tile_run_in k runs 0 Ht) as Hin. destruct has_iso.
  - destruct (bd13_total runs 0 [[]] [] Ht) as [out [Ho [Hg [Hn Hp]]]];
      [discriminate|constructor; [apply good_nil|constructor]|constructor|constructor|].
    exists (map (general_seq pl cls lv k) out). rewrite Forall_forall in Hg, Hn. split; [|split].
    + apply (sequences_general_eq pl cls lv k Hcls Hlv runs out Ho).
      apply Forall_forall. intros sg Hsg. split; [apply Hn, Hsg|apply good_run_in, Hg, Hsg].
    + apply Forall_map, Forall_forall. intros sg Hsg. unfold seq_wf, seq_in. cbn [general_seq irs_runs irs_sos irs_eos].
      split; [apply Hn, Hsg|]. split; [apply good_run_in, Hg, Hsg|]. split; [apply (Hg sg Hsg)|].
      split; apply level_class_LR.
    + rewrite flat_map_concat_map, map_map, map_id. exact Hp.
  - exists (map (fast_seq pl cls lv k) runs). split; [|split].
    + apply (sequences_fast_eq pl cls lv k Hcls Hlv runs Hin).
    + apply Forall_map. eapply Forall_impl; [|exact Hin]. intros [s en] Hr. unfold seq_wf, seq_in.
      cbn [fast_seq irs_runs irs_sos irs_eos]. split; [discriminate|]. split; [constructor; [exact Hr|constructor]|].
      destruct Hr as [Hr _]. cbn [fst snd] in Hr. split; [cbn [runs_ascending]; lia|]. split; apply level_class_LR.
    + rewrite flat_map_concat_map, map_map. rewrite <- flat_map_concat_map.
      clear. induction runs as [|[s en] t IH]; [constructor|]. cbn [flat_map fast_seq irs_runs app]. constructor. exact IH.
Qed.

End Stage.

Theorem sequences_total_proved : T_sequences.
Proof.
  unfold T_sequences. intros pl cls lv runs has_iso k Hcls Hlv _ Ht.
  apply sequences_total; assumption.
Qed.
