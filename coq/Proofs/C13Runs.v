(* Proofs/C13Runs.v — BD7 level runs and BD13 chains of the specification (Spec.level_runs, continuation, chain,
   isolating_sequences): the runs partition the remaining positions into non-empty increasing blocks that differ
   in level where they meet; a continuation lies later in the list, so [chain] with fuel [length runs] unfolds
   like a recursive definition ([chainT_unfold]). *)
From BidiVerif Require Import Base Spec.
From BidiVerif.Proofs Require Import CSSeqOpen.

Definition same_lvl (a b : option nat) : bool :=
  match a, b with Some a, Some b => a =? b | _, _ => false end.

Lemma same_lvl_eq a b : same_lvl a b = true -> a = b.
Proof. destruct a, b; cbn; try discriminate. intros H. apply Nat.eqb_eq in H. congruence. Qed.

Lemma lrf_step lev cur curl i rest :
  level_runs_from lev cur curl (i :: rest) =
  match cur with
  | [] => level_runs_from lev [i] (snth lev i None) rest
  | _ => if same_lvl (snth lev i None) curl then level_runs_from lev (cur ++ [i]) curl rest
         else cur :: level_runs_from lev [i] (snth lev i None) rest
  end.
Proof. reflexivity. Qed.

Lemma lrf_nil_curl lev a b idx : level_runs_from lev [] a idx = level_runs_from lev [] b idx.
Proof. destruct idx; reflexivity. Qed.

Fixpoint lr_ext (lev : list (option nat)) (curl : option nat) (idx : list nat) : list nat :=
  match idx with
  | [] => []
  | i :: r => if same_lvl (snth lev i None) curl then i :: lr_ext lev curl r else []
  end.
Fixpoint lr_rest (lev : list (option nat)) (curl : option nat) (idx : list nat) : list (list nat) :=
  match idx with
  | [] => []
  | i :: r => if same_lvl (snth lev i None) curl then lr_rest lev curl r
              else (i :: lr_ext lev (snth lev i None) r) :: lr_rest lev (snth lev i None) r
  end.

Lemma lrf_cons lev idx : forall cur curl, cur <> [] ->
  level_runs_from lev cur curl idx = (cur ++ lr_ext lev curl idx) :: lr_rest lev curl idx.
Proof.
  induction idx as [|i r IH]; intros cur curl Hc.
  - destruct cur; [contradiction|]. cbn [level_runs_from lr_ext lr_rest]. rewrite app_nil_r. reflexivity.
  - rewrite lrf_step. destruct cur as [|c0 cr]; [contradiction|].
    cbn [lr_ext lr_rest]. destruct (same_lvl (snth lev i None) curl).
    + rewrite IH by (destruct cr; discriminate). rewrite <- app_assoc. reflexivity.
    + rewrite IH by discriminate. rewrite app_nil_r. reflexivity.
Qed.

Lemma level_runs_cons lev i r :
  level_runs lev (i :: r) = (i :: lr_ext lev (snth lev i None) r) :: lr_rest lev (snth lev i None) r.
Proof. unfold level_runs. rewrite lrf_step. rewrite lrf_cons by discriminate. reflexivity. Qed.

Lemma lrf_concat lev idx : forall cur curl, concat (level_runs_from lev cur curl idx) = cur ++ idx.
Proof.
  induction idx as [|i r IH]; intros cur curl.
  - destruct cur; cbn [level_runs_from concat]; rewrite ?app_nil_r; reflexivity.
  - rewrite lrf_step. destruct cur as [|c0 cr]; [rewrite IH; reflexivity|].
    destruct (same_lvl _ _).
    + rewrite IH, <- app_assoc. reflexivity.
    + cbn [concat]. rewrite IH. reflexivity.
Qed.

Lemma lrf_nonempty lev idx : forall cur curl, Forall (fun r => r <> []) (level_runs_from lev cur curl idx).
Proof.
  induction idx as [|i r IH]; intros cur curl.
  - destruct cur; cbn [level_runs_from]; constructor; [discriminate|constructor].
  - rewrite lrf_step. destruct cur as [|c0 cr]; [apply IH|].
    destruct (same_lvl _ _); [apply IH|]. constructor; [discriminate|apply IH].
Qed.

(* adjacent runs differ in level where they meet *)
Fixpoint adj_ok (lev : list (option nat)) (L : list (list nat)) : Prop :=
  match L with
  | a :: ((b :: _) as t) => same_lvl (snth lev (hd 0 b) None) (snth lev (last a 0) None) = false /\ adj_ok lev t
  | _ => True
  end.

Lemma lrf_adj lev idx : forall cur curl, cur <> [] -> snth lev (last cur 0) None = curl ->
  adj_ok lev (level_runs_from lev cur curl idx).
Proof.
  induction idx as [|i r IH]; intros cur curl Hne Hl.
  - destruct cur; [contradiction|exact I].
  - rewrite lrf_step. destruct cur as [|c0 cr] eqn:Ec; [contradiction|]. rewrite <- Ec in *.
    destruct (same_lvl (snth lev i None) curl) eqn:Es.
    + apply IH; [destruct cur; discriminate|]. rewrite last_last. exact (same_lvl_eq _ _ Es).
    + pose proof (IH [i] (snth lev i None) ltac:(discriminate) eq_refl) as HA.
      rewrite lrf_cons in HA |- * by discriminate. cbn [adj_ok app hd]. rewrite Hl. split; [exact Es|exact HA].
Qed.

Lemma level_runs_adj lev idx : adj_ok lev (level_runs lev idx).
Proof.
  unfold level_runs. destruct idx as [|i r]; [exact I|]. rewrite lrf_step. apply lrf_adj; [discriminate|reflexivity].
Qed.

Lemma lrf_ext_lev lev lev' idx : (forall i, In i idx -> snth lev i None = snth lev' i None) ->
  forall cur curl, level_runs_from lev cur curl idx = level_runs_from lev' cur curl idx.
Proof.
  induction idx as [|i r IH]; intros H cur curl; [reflexivity|].
  rewrite !lrf_step. rewrite <- (H i (or_introl eq_refl)).
  assert (H' : forall j, In j r -> snth lev j None = snth lev' j None) by (intros j Hj; apply H; right; exact Hj).
  destruct cur; [apply IH, H'|]. destruct (same_lvl _ _); rewrite (IH H'); reflexivity.
Qed.

(* the last run of A is still open when B begins *)
Lemma lrf_app lev A : A <> [] -> forall cur curl B,
  level_runs_from lev cur curl (A ++ B) =
  removelast (level_runs_from lev cur curl A)
  ++ level_runs_from lev (last (level_runs_from lev cur curl A) []) (snth lev (last A 0) None) B.
Proof.
  induction A as [|i A IH]; intros HA cur curl B; [contradiction|]. destruct A as [|i' A'].
  - cbn [app last]. rewrite !lrf_step. destruct cur as [|c0 cr]; [reflexivity|].
    destruct (same_lvl (snth lev i None) curl) eqn:Es; [rewrite (same_lvl_eq _ _ Es)|]; reflexivity.
  - specialize (IH ltac:(discriminate)). change ((i :: i' :: A') ++ B) with (i :: (i' :: A') ++ B).
    change (last (i :: i' :: A') 0) with (last (i' :: A') 0).
    rewrite (lrf_step lev cur curl i (i' :: A')), (lrf_step lev cur curl i ((i' :: A') ++ B)).
    destruct cur as [|c0 cr]; [apply IH|]. destruct (same_lvl _ _); [apply IH|].
    rewrite IH, (lrf_cons lev (i' :: A') [i]) by discriminate. reflexivity.
Qed.

Lemma level_runs_app lev A b B : A <> [] ->
  level_runs lev (A ++ b :: B) =
  if same_lvl (snth lev b None) (snth lev (last A 0) None)
  then removelast (level_runs lev A)
       ++ (last (level_runs lev A) [] ++ hd [] (level_runs lev (b :: B))) :: tl (level_runs lev (b :: B))
  else level_runs lev A ++ level_runs lev (b :: B).
Proof.
  intros HA. rewrite level_runs_cons. cbn [hd tl]. unfold level_runs. rewrite lrf_app by exact HA.
  set (LA := level_runs_from lev [] None A).
  assert (Hne : LA <> []) by (subst LA; destruct A; [contradiction|]; rewrite lrf_step, lrf_cons; discriminate).
  assert (Hl : last LA [] <> []).
  { pose proof (lrf_nonempty lev A [] None) as HF. fold LA in HF. rewrite Forall_forall in HF.
    apply HF. rewrite (app_removelast_last [] Hne) at 2. apply in_or_app. right. left. reflexivity. }
  rewrite lrf_step. destruct (last LA []) as [|c0 cr] eqn:El; [contradiction|].
  destruct (same_lvl _ _) eqn:Es.
  - rewrite lrf_cons by (destruct cr; discriminate). rewrite <- (same_lvl_eq _ _ Es), <- app_assoc. reflexivity.
  - rewrite lrf_cons by discriminate. rewrite (app_removelast_last [] Hne) at 2. rewrite El, <- app_assoc. reflexivity.
Qed.

Lemma lrf_map (f : nat -> nat) lev1 lev0 idx :
  (forall i, In i idx -> snth lev1 (f i) None = snth lev0 i None) ->
  forall cur curl, level_runs_from lev1 (map f cur) curl (map f idx) = map (map f) (level_runs_from lev0 cur curl idx).
Proof.
  induction idx as [|i r IH]; intros H cur curl.
  - destruct cur; reflexivity.
  - cbn [map]. rewrite !lrf_step. rewrite (H i (or_introl eq_refl)).
    assert (H' : forall j, In j r -> snth lev1 (f j) None = snth lev0 j None) by (intros j Hj; apply H; right; exact Hj).
    destruct cur as [|c0 cr]; cbn [map].
    + apply (IH H' [i]).
    + destruct (same_lvl _ _).
      * rewrite <- (IH H'). rewrite map_app. reflexivity.
      * cbn [map]. f_equal. apply (IH H' [i]).
Qed.

Fixpoint inc (l : list nat) : Prop :=
  match l with
  | [] => True
  | x :: r => Forall (fun y => x < y) r /\ inc r
  end.

Lemma inc_app A B : inc (A ++ B) <-> inc A /\ inc B /\ (forall x y, In x A -> In y B -> x < y).
Proof.
  induction A as [|a A IH]; cbn [app inc].
  - split; [intros H; repeat split; [exact H|intros x y []]|intros (_ & H & _); exact H].
  - rewrite IH, Forall_app. split.
    + intros ((F1 & F2) & I1 & I2 & I3). repeat split; try assumption.
      intros x y [<-|Hx] Hy; [rewrite Forall_forall in F2; apply F2, Hy|apply I3; assumption].
    + intros ((F1 & I1) & I2 & I3). repeat split; try assumption.
      * apply Forall_forall. intros y Hy. apply I3; [left; reflexivity|exact Hy].
      * intros x y Hx Hy. apply I3; [right; exact Hx|exact Hy].
Qed.

Lemma inc_filter p l : inc l -> inc (filter p l).
Proof.
  induction l as [|x r IH]; intros H; [exact I|].
  destruct H as [F Hr]. cbn [filter]. destruct (p x); [|apply IH, Hr].
  split; [|apply IH, Hr]. rewrite Forall_forall in *. intros y Hy. apply filter_In in Hy. apply F, Hy.
Qed.

Lemma inc_seq n : forall a, inc (seq a n).
Proof.
  induction n as [|n IH]; intros a; [exact I|]. cbn [seq inc]. split; [|apply IH].
  apply Forall_forall. intros y Hy. apply in_seq in Hy. lia.
Qed.

Lemma inc_map (f : nat -> nat) l : (forall x y, x < y -> f x < f y) -> inc l -> inc (map f l).
Proof.
  intros Hf. induction l as [|x r IH]; intros H; [exact I|]. destruct H as [F Hr]. cbn [map inc].
  split; [|apply IH, Hr]. rewrite Forall_forall in *. intros y Hy. apply in_map_iff in Hy.
  destruct Hy as (z & <- & Hz). apply Hf, F, Hz.
Qed.

Lemma inc_remaining cls0 : inc (remaining cls0).
Proof. unfold remaining. apply inc_filter, inc_seq. Qed.

Lemma inc_NoDup l : inc l -> NoDup l.
Proof.
  induction l as [|x r IH]; intros H; [constructor|]. destruct H as [F Hr]. constructor; [|apply IH, Hr].
  intros Hx. rewrite Forall_forall in F. specialize (F x Hx). lia.
Qed.

Lemma first_of_in r : r <> [] -> In (first_of r) r.
Proof. destruct r; [contradiction|]. intros _. left. reflexivity. Qed.

Lemma last_of_in r : r <> [] -> In (last_of r) r.
Proof.
  unfold last_of. induction r as [|x r IH]; [contradiction|]. intros _.
  destruct r as [|y r']; [left; reflexivity|]. right. apply IH. discriminate.
Qed.

Lemma inc_first_le r x : inc r -> In x r -> first_of r <= x.
Proof.
  destruct r as [|a r]; [intros _ []|]. intros [F _] [<-|Hx]; cbn [first_of hd]; [lia|].
  rewrite Forall_forall in F. specialize (F x Hx). lia.
Qed.

Lemma first_of_map (f : nat -> nat) r : f 0 = 0 -> first_of (map f r) = f (first_of r).
Proof. intros H. destruct r; cbn; [symmetry; exact H|reflexivity]. Qed.

Lemma last_of_map (f : nat -> nat) r : f 0 = 0 -> last_of (map f r) = f (last_of r).
Proof.
  intros H. unfold last_of. induction r as [|x r IH]; [symmetry; exact H|].
  destruct r as [|y r']; [reflexivity|]. exact IH.
Qed.

Lemma last_of_app a b : b <> [] -> last_of (a ++ b) = last_of b.
Proof.
  intros Hb. unfold last_of. induction a as [|x a IH]; [reflexivity|].
  cbn [app]. destruct (a ++ b) eqn:E; [apply app_eq_nil in E; destruct E; contradiction|]. exact IH.
Qed.

Lemma first_of_app a b : a <> [] -> first_of (a ++ b) = first_of a.
Proof. destruct a; [contradiction|reflexivity]. Qed.

Definition wf_runs (runs : list (list nat)) : Prop := inc (concat runs) /\ Forall (fun r => r <> []) runs.

Lemma wf_level_runs lev idx : inc idx -> wf_runs (level_runs lev idx).
Proof.
  intros H. split; [unfold level_runs; rewrite lrf_concat; exact H|apply lrf_nonempty].
Qed.

Lemma wf_runs_app A B : wf_runs (A ++ B) -> wf_runs A /\ wf_runs B /\
  forall r r' x y, In r A -> In r' B -> In x r -> In y r' -> x < y.
Proof.
  intros [H1 H2]. rewrite concat_app in H1. apply inc_app in H1. destruct H1 as (I1 & I2 & I3).
  apply Forall_app in H2. destruct H2 as [F1 F2].
  split; [split; assumption|]. split; [split; assumption|].
  intros r r' x y Hr Hr' Hx Hy. apply I3; apply in_concat; eauto.
Qed.

Lemma wf_runs_inc runs r : wf_runs runs -> In r runs -> inc r /\ r <> [].
Proof.
  intros [H1 H2] Hr. rewrite Forall_forall in H2. split; [|apply H2, Hr].
  apply in_split in Hr. destruct Hr as (A & B & ->). rewrite concat_app in H1. cbn [concat] in H1.
  apply inc_app in H1. destruct H1 as (_ & H1 & _). apply inc_app in H1. apply H1.
Qed.

Lemma wf_runs_before A r Bs r' : wf_runs (A ++ r :: Bs) -> In r' (A ++ [r]) -> first_of r' <= last_of r.
Proof.
  intros W Hr'. pose proof (wf_runs_inc _ r W ltac:(apply in_or_app; right; left; reflexivity)) as [Ir Nr].
  apply in_app_or in Hr'. destruct Hr' as [Hr'|[<-|[]]].
  - destruct (wf_runs_app _ _ W) as (WA & _ & Hlt).
    pose proof (wf_runs_inc _ r' WA Hr') as [_ Nr'].
    specialize (Hlt r' r (first_of r') (last_of r) Hr' (or_introl eq_refl) (first_of_in _ Nr') (last_of_in _ Nr)). lia.
  - apply inc_first_le; [exact Ir|apply last_of_in, Nr].
Qed.

Lemma wf_runs_firsts_NoDup runs : wf_runs runs -> NoDup (map first_of runs).
Proof.
  induction runs as [|r rs IH]; intros W; [constructor|].
  cbn [map]. constructor.
  - intros Hin. apply in_map_iff in Hin. destruct Hin as (r' & E & Hr').
    change (r :: rs) with ([r] ++ rs) in W. destruct (wf_runs_app _ _ W) as (W1 & W2 & Hlt).
    pose proof (wf_runs_inc _ r W1 (or_introl eq_refl)) as [_ Nr].
    pose proof (wf_runs_inc _ r' W2 Hr') as [_ Nr'].
    specialize (Hlt r r' (first_of r) (first_of r') (or_introl eq_refl) Hr' (first_of_in _ Nr) (first_of_in _ Nr')). lia.
  - apply IH. change (r :: rs) with ([r] ++ rs) in W. apply (wf_runs_app _ _ W).
Qed.

Lemma rsa_in runs : forall p r, run_starting_at runs p = Some r -> In r runs /\ first_of r = p.
Proof.
  induction runs as [|x rs IH]; intros p r H; [discriminate|]. cbn [run_starting_at] in H.
  destruct (first_of x =? p) eqn:E.
  - injection H as <-. apply Nat.eqb_eq in E. split; [left; reflexivity|exact E].
  - apply IH in H. destruct H. split; [right; assumption|assumption].
Qed.

Lemma rsa_none runs : forall p, run_starting_at runs p = None <-> (forall r, In r runs -> first_of r <> p).
Proof.
  induction runs as [|x rs IH]; intros p; cbn [run_starting_at].
  - split; [intros _ r []|reflexivity].
  - destruct (first_of x =? p) eqn:E.
    + apply Nat.eqb_eq in E. split; [discriminate|]. intros H. exfalso. apply (H x); [left; reflexivity|exact E].
    + apply Nat.eqb_neq in E. rewrite IH. split.
      * intros H r [<-|Hr]; [exact E|apply H, Hr].
      * intros H r Hr. apply H. right. exact Hr.
Qed.

Lemma rsa_some runs r : NoDup (map first_of runs) -> In r runs -> run_starting_at runs (first_of r) = Some r.
Proof.
  induction runs as [|x rs IH]; intros N Hr; [destruct Hr|].
  cbn [run_starting_at]. cbn [map] in N. inversion N as [|? ? N1 N2]; subst.
  destruct Hr as [->|Hr]; [rewrite Nat.eqb_refl; reflexivity|].
  destruct (first_of x =? first_of r) eqn:E; [|apply IH; assumption].
  apply Nat.eqb_eq in E. exfalso. apply N1. rewrite E. apply in_map, Hr.
Qed.

Lemma continuation_some cls0 runs r r' : continuation cls0 runs r = Some r' ->
  is_init (snth cls0 (last_of r) ON) = true /\
  exists j, matching_pdi cls0 (last_of r) = Some j /\ run_starting_at runs j = Some r'.
Proof.
  unfold continuation. destruct (is_init _); [|discriminate].
  destruct (matching_pdi cls0 (last_of r)) as [j|]; [|discriminate].
  intros H. split; [reflexivity|]. exists j. split; [reflexivity|exact H].
Qed.

Section Chains.
Variable cls0 : list bclass.
Variable runs : list (list nat).
Hypothesis W : wf_runs runs.

Lemma cont_later A r Bs r' : runs = A ++ r :: Bs -> continuation cls0 runs r = Some r' -> In r' Bs.
Proof.
  intros E H. apply continuation_some in H. destruct H as (_ & j & Hm & Hr).
  apply matching_pdi_gt in Hm. apply rsa_in in Hr. destruct Hr as [Hin Hf].
  rewrite E in Hin. apply in_app_or in Hin.
  assert (Hle : In r' (A ++ [r]) -> False).
  { intros Hb. rewrite E in W. pose proof (wf_runs_before A r Bs r' W Hb). lia. }
  destruct Hin as [Hin|[<-|Hin]]; [exfalso; apply Hle, in_or_app; left; exact Hin
                                  |exfalso; apply Hle, in_or_app; right; left; reflexivity|exact Hin].
Qed.

Lemma cont_in r r' : continuation cls0 runs r = Some r' -> In r' runs.
Proof.
  intros H. apply continuation_some in H. destruct H as (_ & j & _ & Hr). apply rsa_in in Hr. apply Hr.
Qed.

Lemma runs_ind (P : list nat -> Prop) :
  (forall r, In r runs -> (forall r', continuation cls0 runs r = Some r' -> P r') -> P r) ->
  forall r, In r runs -> P r.
Proof.
  intros Hstep.
  assert (G : forall n A r Bs, runs = A ++ r :: Bs -> length Bs < n -> P r).
  { induction n as [|n IH]; intros A r Bs E Hn; [lia|].
    apply Hstep; [rewrite E; apply in_or_app; right; left; reflexivity|].
    intros r' Hc. pose proof (cont_later A r Bs r' E Hc) as Hin.
    apply in_split in Hin. destruct Hin as (B1 & B2 & ->).
    apply (IH (A ++ r :: B1) r' B2).
    - rewrite E, <- app_assoc. reflexivity.
    - rewrite app_length in Hn. cbn [length] in Hn. lia. }
  intros r Hr. apply in_split in Hr. destruct Hr as (A & Bs & E). apply (G (S (length Bs)) A r Bs E). lia.
Qed.

Lemma chain_stable : forall n A r Bs, runs = A ++ r :: Bs -> length Bs < n ->
  forall fuel, n <= fuel -> chain fuel cls0 runs r = chain n cls0 runs r.
Proof.
  induction n as [|n IH]; intros A r Bs E Hn fuel Hf; [lia|].
  destruct fuel as [|f]; [lia|]. cbn [chain].
  destruct (continuation cls0 runs r) as [r'|] eqn:Hc; [|reflexivity].
  pose proof (cont_later A r Bs r' E Hc) as Hin.
  apply in_split in Hin. destruct Hin as (B1 & B2 & ->).
  f_equal. apply (IH (A ++ r :: B1) r' B2).
  - rewrite E, <- app_assoc. reflexivity.
  - rewrite app_length in Hn. cbn [length] in Hn. lia.
  - lia.
Qed.

Definition chainT (r : list nat) : list nat := chain (length runs) cls0 runs r.

Lemma chain_S f r :
  chain (S f) cls0 runs r = match continuation cls0 runs r with Some r' => r ++ chain f cls0 runs r' | None => r end.
Proof. reflexivity. Qed.

Lemma chainT_unfold r : In r runs ->
  chainT r = match continuation cls0 runs r with Some r' => r ++ chainT r' | None => r end.
Proof.
  intros Hr. apply in_split in Hr. destruct Hr as (A & Bs & E).
  unfold chainT. assert (HL : length runs = S (length A + length Bs)).
  { rewrite E, app_length. cbn [length]. lia. }
  rewrite HL. set (k := length A + length Bs) in *. rewrite (chain_S k r).
  destruct (continuation cls0 runs r) as [r'|] eqn:Hc; [|reflexivity].
  pose proof (cont_later A r Bs r' E Hc) as Hin.
  apply in_split in Hin. destruct Hin as (B1 & B2 & EB).
  assert (E' : runs = (A ++ r :: B1) ++ r' :: B2) by (rewrite E, EB, <- app_assoc; reflexivity).
  assert (Hk : S (length B2) <= k) by (unfold k; rewrite EB, app_length; cbn [length]; lia).
  rewrite (chain_stable (S (length B2)) _ r' B2 E' ltac:(lia) k Hk).
  rewrite (chain_stable (S (length B2)) _ r' B2 E' ltac:(lia) (S k) ltac:(lia)).
  reflexivity.
Qed.

Lemma chainT_first r : In r runs -> first_of (chainT r) = first_of r.
Proof.
  intros Hr. rewrite chainT_unfold by exact Hr. destruct (continuation cls0 runs r); [|reflexivity].
  apply first_of_app. apply (wf_runs_inc _ _ W Hr).
Qed.

Lemma chainT_nonempty r : In r runs -> chainT r <> [].
Proof.
  intros Hr. rewrite chainT_unfold by exact Hr. pose proof (wf_runs_inc _ _ W Hr) as [_ N].
  destruct (continuation cls0 runs r); [|exact N]. destruct r; [contradiction|discriminate].
Qed.

Lemma chainT_last r : In r runs -> exists r'', In r'' runs /\ last_of (chainT r) = last_of r''.
Proof.
  revert r. apply runs_ind. intros r Hr IH. rewrite chainT_unfold by exact Hr.
  destruct (continuation cls0 runs r) as [r'|] eqn:Hc.
  - destruct (IH r' eq_refl) as (r'' & H1 & H2). exists r''. split; [exact H1|].
    rewrite last_of_app; [exact H2|]. apply chainT_nonempty. apply cont_in with r. exact Hc.
  - exists r. split; [exact Hr|reflexivity].
Qed.

Lemma chainT_subset r : In r runs -> forall x, In x (chainT r) -> exists r'', In r'' runs /\ In x r''.
Proof.
  revert r. apply (runs_ind (fun r => forall x, In x (chainT r) -> exists r'', In r'' runs /\ In x r'')).
  intros r Hr IH x. rewrite chainT_unfold by exact Hr.
  destruct (continuation cls0 runs r) as [r'|] eqn:Hc.
  - intros Hx. apply in_app_or in Hx. destruct Hx as [Hx|Hx]; [exists r; split; assumption|].
    apply (IH r' eq_refl x Hx).
  - intros Hx. exists r. split; assumption.
Qed.
End Chains.

Lemma isolating_sequences_eq cls0 lev :
  isolating_sequences cls0 lev =
  let runs := level_runs lev (remaining cls0) in
  map (chainT cls0 runs)
      (filter (fun r => negb (existsb (fun t => match t with Some p => p =? first_of r | None => false end)
                                      (map (fun q => match continuation cls0 runs q with
                                                     | Some r' => Some (first_of r') | None => None end) runs)))
              runs).
Proof. reflexivity. Qed.

(* [is_cont r]: some level run continues into [r] (BD13), so [r] does not start a sequence *)
Definition ct (cls0 : list bclass) (runs : list (list nat)) (q : list nat) : option nat :=
  match continuation cls0 runs q with Some r' => Some (first_of r') | None => None end.
Definition is_cont (cls0 : list bclass) (runs : list (list nat)) (r : list nat) : bool :=
  existsb (fun t => match t with Some p => p =? first_of r | None => false end) (map (ct cls0 runs) runs).

Lemma isolating_sequences_eq' cls0 lev :
  isolating_sequences cls0 lev =
  let runs := level_runs lev (remaining cls0) in
  map (chainT cls0 runs) (filter (fun r => negb (is_cont cls0 runs r)) runs).
Proof. exact (isolating_sequences_eq cls0 lev). Qed.

Lemma is_cont_iff cls0 runs r :
  is_cont cls0 runs r = true <->
  exists r'' r', In r'' runs /\ continuation cls0 runs r'' = Some r' /\ first_of r' = first_of r.
Proof.
  unfold is_cont. rewrite existsb_exists. split.
  - intros (t & Ht & Hp). apply in_map_iff in Ht. destruct Ht as (r'' & Hc & Hr'').
    unfold ct in Hc. destruct (continuation cls0 runs r'') as [r'|] eqn:E; [|subst t; discriminate].
    subst t. apply Nat.eqb_eq in Hp. exists r'', r'. repeat split; assumption.
  - intros (r'' & r' & H1 & H2 & H3). exists (Some (first_of r')). split.
    + apply in_map_iff. exists r''. split; [unfold ct; rewrite H2; reflexivity|exact H1].
    + apply Nat.eqb_eq. exact H3.
Qed.
