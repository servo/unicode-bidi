(* Proofs/NeutralLoops.v — loops of implicit::resolve_neutral on arbitrary vectors, by inversion: what a
   run that succeeded has done.  The NSM fix-up of N0 keeps the length ([n0_nsm_length]); N1/N2: one neutral
   run ([ni_consume_inv], which is all that totality needs) and one round of the outer loop ([n12_loop_inv],
   for the length-independence and the specification proof of the stage). *)
From BidiVerif Require Import Base ModelResolve.
From BidiVerif.Proofs Require Import ListLib.

Lemma n0_nsm_length lg oc x : forall idxs pc r, n0_nsm lg oc pc idxs x = Ok r -> length r = length pc.
Proof.
  induction idxs as [|i rest IH]; intros pc r H; cbn [n0_nsm] in H; [inversion H; reflexivity|].
  apply bind_ok in H as (o & _ & H). apply bind_ok in H as (p & _ & H).
  destruct ((o =c NSM) || (if lg then p =c BN else removed_by_x9 o)); [|inversion H; reflexivity].
  apply bind_ok in H as (pc' & Hu & H). apply upd_ok_inv in Hu as [_ ->].
  rewrite (IH _ _ H). apply lset_length.
Qed.

(* the classes a run of N1/N2 extends over (implicit.rs:440, 450) *)
Definition nibn (c : bclass) : bool := is_NI c || (c =c BN).

Lemma ni_consume_inv pc : forall l acc last run last' nc rest',
  ni_consume pc l acc last = Ok (run, last', nc, rest') ->
  exists l1, run = acc ++ l1 /\ (forall y, In y l1 -> exists c, nth_error pc y = Some c /\ nibn c = true) /\
    ((nc = None /\ l = l1 /\ rest' = [] /\ In last' (last :: l)) \/
     (exists c, nc = Some c /\ l = l1 ++ last' :: rest' /\ nth_error pc last' = Some c /\ nibn c = false)).
Proof.
  induction l as [|j l IH]; intros acc last run last' nc rest' H; cbn [ni_consume] in H.
  - injection H as <- <- <- <-. exists []. rewrite app_nil_r. split; [reflexivity|]. split; [intros y []|].
    left. cbn. auto.
  - apply bind_ok in H as (c & Ec & H). apply get_ok in Ec. fold (nibn c) in H. destruct (nibn c) eqn:En.
    + apply IH in H as (l1 & -> & Hl1 & Hcase). exists (j :: l1). rewrite <- app_assoc. split; [reflexivity|].
      split; [intros y [<-|Hy]; eauto|].
      destruct Hcase as [(-> & -> & -> & Hin)|(c' & -> & -> & Hc' & Hn')].
      * left. repeat split; auto. right. exact Hin.
      * right. exists c'. auto.
    + injection H as <- <- <- <-. exists []. rewrite app_nil_r. split; [reflexivity|]. split; [intros y []|].
      right. exists c. auto.
Qed.

(* One round of the outer loop.  The class read back at the position that ended the run is the one
   read before the run was written: it is not neutral, so the position is not in the run. *)
Lemma n12_loop_inv f sq e pc i rest pm out : n12_loop (S f) sq e pc (i :: rest) pm = Ok out ->
  exists c, nth_error pc i = Some c /\
  if nibn c then
    exists l1, (forall y, In y l1 -> exists c, nth_error pc y = Some c /\ nibn c = true) /\
      ((rest = l1 /\ out = lset_all pc (i :: l1) (n12_class pm (irs_eos sq) e)) \/
       (exists j rest' c', rest = l1 ++ j :: rest' /\ nth_error pc j = Some c' /\ nibn c' = false /\
          ~ In j (i :: l1) /\
          n12_loop f sq e (lset_all pc (i :: l1) (n12_class pm c' e)) rest' c' = Ok out))
  else n12_loop f sq e pc rest c = Ok out.
Proof.
  cbn [n12_loop]. intros H. apply bind_ok in H as (c & Hc & H). apply get_ok in Hc.
  exists c. split; [exact Hc|]. fold (nibn c) in H. destruct (nibn c) eqn:En; [|exact H].
  apply bind_ok in H as ([[[run last'] nc] rest'] & Hcons & H).
  apply ni_consume_inv in Hcons as (l1 & -> & Hl1 & Hcase). exists l1. split; [exact Hl1|].
  apply bind_ok in H as (pc' & Hset & H). apply set_all_ok_inv in Hset as [_ ->].
  apply bind_ok in H as (p & Hp & H). apply get_ok in Hp. cbn [app] in *.
  destruct Hcase as [(-> & -> & -> & _)|(c' & -> & -> & Hc' & Hn')].
  - left. split; [reflexivity|]. destruct f; [discriminate|]. injection H as <-. reflexivity.
  - right. exists last', rest', c'. cbn [opt_or] in *.
    assert (Hnot : ~ In last' (i :: l1)).
    { intros [<-|Hin]; [congruence|]. destruct (Hl1 _ Hin) as (c2 & H2 & H3). congruence. }
    rewrite nth_error_lset_all_notin in Hp by exact Hnot.
    assert (p = c') by congruence. subst p. auto.
Qed.
