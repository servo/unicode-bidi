(* Proofs/CharAnalysis.v — the character-level (U32) analysis of a list of scalar values: for every base
   direction both constructors succeed, and [char_an] collects what the final-form theorems use of
   their results (lengths, bounds, the paragraphs tile the text).  The classes they store differ from
   the data source's only where compute_initial_info rewrites an FSI to LRI/RLI; the three are one
   group for rule L1, so L1 on the stored classes is L1 on the data source's classes. *)
From BidiVerif Require Import Base ModelText ModelResolve Spec Stmts.
From BidiVerif.Proofs Require Import ListLib.
From BidiVerif.Proofs Require Import L1 TotalAssemble.
From BidiVerif.Props Require Import Totality.

Lemma flags_kgroup : forall cls cls', map kgroup cls = map kgroup cls' ->
  l1_reset_flags cls = l1_reset_flags cls'.
Proof.
  induction cls as [|c r IH]; intros [|c' r'] H; cbn [map] in H; try discriminate; [reflexivity|].
  injection H as Hk Ht. rewrite !l1_reset_flags_cons, Hk, (IH _ Ht). reflexivity.
Qed.

Lemma apply_kgroup pl : forall cls cls' fl lev prev, map kgroup cls = map kgroup cls' ->
  l1_apply pl prev cls fl lev = l1_apply pl prev cls' fl lev.
Proof.
  induction cls as [|c r IH]; intros [|c' r'] fl lev prev H; cbn [map] in H; try discriminate; [reflexivity|].
  injection H as Hk Ht. destruct fl as [|f fr], lev as [|l lr]; cbn [l1_apply]; try reflexivity.
  rewrite !is_removed_kgroup, Hk. f_equal. apply IH. exact Ht.
Qed.

Lemma l1_kgroup pl cls cls' lev : map kgroup cls = map kgroup cls' -> l1 pl cls lev = l1 pl cls' lev.
Proof.
  intros H. unfold l1. rewrite (flags_kgroup cls cls' H). apply apply_kgroup. exact H.
Qed.

Lemma lset_kgroup : forall (l : list bclass) i x y,
  nth_error l i = Some y -> kgroup y = kgroup x -> map kgroup (lset l i x) = map kgroup l.
Proof.
  induction l as [|h t IH]; intros [|i] x y Hn Hk; cbn [nth_error] in Hn; try discriminate; cbn [lset map].
  - injection Hn as ->. rewrite Hk. reflexivity.
  - f_equal. exact (IH i x y Hn Hk).
Qed.

(* the rewrite of a pending FSI when the first strong character after it is met *)
Lemma fsi_write_kgroup classes start X k cl' :
  get 383 classes start = Ok k ->
  (if k =c FSI then write_fsi classes start (range 0 1) X else Ok classes) = Ok cl' ->
  kgroup X = 1 -> map kgroup cl' = map kgroup classes.
Proof.
  intros Hg Hw HX. destruct (k =c FSI) eqn:Ek; [|injection Hw as <-; reflexivity].
  apply ceq_eq in Ek. subst k. cbn [range seq Nat.sub write_fsi] in Hw.
  apply bind_ok in Hw as (cl2 & Hu & Hw). injection Hw as <-.
  apply upd_ok_inv in Hu as [_ ->]. rewrite Nat.add_0_r. apply get_ok in Hg.
  apply (lset_kgroup _ _ _ FSI Hg). rewrite HX. reflexivity.
Qed.

Lemma ii_step_kgroup ds split dl st i c st' :
  ii_step U32 ds split dl st (i, c) = Ok st' ->
  map kgroup (ii_classes st') = map kgroup (ii_classes st ++ [ds_class ds c]).
Proof.
  unfold ii_step. cbn [char_len repeat]. generalize (ii_classes st ++ [ds_class ds c]). intros classes.
  destruct (ds_class ds c); cbn [ceq bclass_beq ii_stack ii_classes]; intros H;
    try (injection H as <-; reflexivity);
    try (destruct split; injection H as <-; reflexivity).
  (* left: L, R, AL, which inside an isolate may rewrite a pending FSI to LRI/RLI: the same group *)
  all: destruct (ii_stack st) as [|start rest]; [injection H as <-; reflexivity|].
  all: apply bind_ok in H as (k & Hg & H); apply bind_ok in H as (cl' & Hw & H); injection H as <-.
  all: exact (fsi_write_kgroup _ _ _ _ _ Hg Hw eq_refl).
Qed.

Lemma ii_fold_kgroup ds split dl : forall l st st',
  ii_fold U32 ds split dl st l = Ok st' ->
  map kgroup (ii_classes st') = map kgroup (ii_classes st ++ map (fun ic => ds_class ds (snd ic)) l).
Proof.
  induction l as [|[i c] r IH]; intros st st' H; cbn [ii_fold] in H.
  - injection H as <-. cbn [map]. rewrite app_nil_r. reflexivity.
  - apply bind_ok in H as (st1 & H1 & H2).
    rewrite (IH _ _ H2), !map_app, (ii_step_kgroup _ _ _ _ _ _ _ H1), map_app, <- app_assoc. reflexivity.
Qed.

Lemma initial_info_kgroup ds cps d split ii :
  compute_initial_info U32 ds cps d split = Ok ii ->
  map kgroup (in_classes ii) = map kgroup (map (ds_class ds) cps).
Proof.
  unfold compute_initial_info. intros H. apply bind_ok in H as (st & Hf & H).
  apply ii_fold_kgroup in Hf. cbn [ii_classes app t_char_indices] in Hf.
  assert (G : forall n, map (fun ic : nat * N => ds_class ds (snd ic)) (combine (seq n (length cps)) cps)
                        = map (ds_class ds) cps).
  { clear. induction cps as [|c r IH]; intros n; cbn [length seq combine map snd]; [reflexivity|].
    rewrite IH. reflexivity. }
  rewrite G in Hf. destruct (split && _); injection H as <-; exact Hf.
Qed.

Lemma ptile_cover ps : forall a b u, ptile a b ps -> a <= u < b ->
  exists p, In p ps /\ p_start p <= u < p_end p.
Proof.
  induction ps as [|p r IH]; intros a b u H Hu; cbn [ptile] in H; [lia|].
  destruct H as (H1 & H2 & H3).
  destruct (Nat.lt_ge_cases u (p_end p)) as [Hlt|Hge].
  - exists p. split; [left; reflexivity | lia].
  - destruct (IH (p_end p) b u H3 ltac:(lia)) as (q & Hq & Hr).
    exists q. split; [right; exact Hq | exact Hr].
Qed.

Lemma ptile_in ps : forall a b p, ptile a b ps -> In p ps -> a <= p_start p /\ p_start p <= p_end p /\ p_end p <= b.
Proof.
  induction ps as [|q r IH]; intros a b p H Hin; [contradiction|].
  cbn [ptile] in H. destruct H as (H1 & H2 & H3). pose proof (ptile_le _ _ _ H3) as Hle.
  destruct Hin as [->|Hin]; [lia|].
  destruct (IH _ _ _ H3 Hin) as (A & B & C). lia.
Qed.

Record char_an (ds : datasource) (cps : list N) (d : option nat) (b : bidi_info) (p : para_bidi_info) : Prop := {
  ca_bi : bidi_info_new U32 ds cps d = Ok b;
  ca_bi_cls : length (bi_classes b) = length cps;
  ca_bi_lv : length (bi_levels b) = length cps;
  ca_bi_126 : Forall (fun l => l <= 126) (bi_levels b);
  ca_tile : ptile 0 (length cps) (bi_paras b);
  ca_plevel : Forall (fun q => p_level q <= 1) (bi_paras b);
  ca_bi_group : map kgroup (bi_classes b) = map kgroup (map (ds_class ds) cps);
  ca_pi : para_bidi_info_new U32 ds cps d = Ok p;
  ca_pi_cls : length (pb_classes p) = length cps;
  ca_pi_lv : length (pb_levels p) = length cps;
  ca_pi_126 : Forall (fun l => l <= 126) (pb_levels p);
  ca_pi_level : pb_level p <= 1;
  ca_pi_group : map kgroup (pb_classes p) = map kgroup (map (ds_class ds) cps) }.

Lemma bi_from_ii e ds text d b : bidi_info_new e ds text d = Ok b ->
  exists ii, compute_initial_info e ds text d true = Ok ii /\
             bi_classes b = in_classes ii /\ bi_paras b = in_paras ii.
Proof.
  unfold bidi_info_new, bidi_info_new_gen. intros H.
  apply bind_ok in H as (ii & Hi & H). apply bind_ok in H as (lv & _ & H).
  injection H as <-. exists ii. auto.
Qed.

Lemma pi_from_ii e ds text d p : para_bidi_info_new e ds text d = Ok p ->
  exists ii, compute_initial_info e ds text d false = Ok ii /\
             pb_classes p = in_classes ii /\ pb_level p = in_level ii.
Proof.
  unfold para_bidi_info_new, para_bidi_info_new_gen. intros H.
  apply bind_ok in H as (ii & Hi & H). apply bind_ok in H as (lv & _ & H).
  injection H as <-. exists ii. auto.
Qed.

Lemma char_an_exists ds cps d : dir3 d -> exists b p, char_an ds cps d b p.
Proof.
  intros Hd.
  destruct (constructors_total_char ds cps d Hd) as [(b & Eb & Ll & Lc & Bb) (p & Ep & Pl & Pc & Pb)].
  destruct (bi_from_ii _ _ _ _ _ Eb) as (ii & Ei & Hcls & Hparas).
  destruct (pi_from_ii _ _ _ _ _ Ep) as (ii2 & Ei2 & Hpcls & Hplev).
  destruct (initial_info_32 ds true d Hd cps) as (ii' & Ei' & _ & _ & Ht & Hlv & _).
  rewrite Ei in Ei'. injection Ei' as <-. specialize (Ht eq_refl). rewrite <- Hparas in Ht, Hlv.
  destruct (initial_info_32 ds false d Hd cps) as (ii2' & Ei2' & _ & Hl2 & _).
  rewrite Ei2 in Ei2'. injection Ei2' as <-.
  exists b, p. split; try assumption. (* the results, the lengths, ca_tile and ca_plevel are hypotheses *)
  - (* ca_bi_126: every level lies in a paragraph, where it is bounded *)
    apply Forall_forall. intros l Hin. apply In_nth_error in Hin as (u & Hu).
    assert (Hul : u < length cps) by (rewrite <- Ll; apply nth_error_Some; congruence).
    destruct (ptile_cover _ _ _ u Ht ltac:(lia)) as (q & Hq & Hr).
    apply levels_bounded_iff in Bb. unfold bounded_prop in Bb. rewrite Forall_forall in Bb.
    destruct (Bb q Hq u Hr) as (l' & Hn & _ & H126). congruence.
  - (* ca_bi_group *) rewrite Hcls. exact (initial_info_kgroup _ _ _ _ _ Ei).
  - (* ca_pi_126 *) eapply Forall_impl; [|exact Pb]. intros l [_ H]. exact H.
  - (* ca_pi_level *) rewrite Hplev. exact Hl2.
  - (* ca_pi_group *) rewrite Hpcls. exact (initial_info_kgroup _ _ _ _ _ Ei2).
Qed.
