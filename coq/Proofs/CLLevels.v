(* Proofs/CLLevels.v — the text seen one unit per character (v32): where its characters start and how
   long it is; and CL_reordered_levels, which is the instance of LLLevels.cl_reordered_levels
   (reordered_levels at character level is rule L1 on the slice i..j-1, everything outside unchanged). *)
From Coq Require Import List.
Import ListNotations.
From BidiVerif Require Import Base Judge Stmts5.
From BidiVerif.Proofs Require Import TextView LLLevels.

Lemma starts_from_v32 (t : list N) : forall p,
  starts_from p (map snd (v32 t)) = seq p (length t).
Proof.
  induction t as [|c r IH]; intros p; [reflexivity|].
  cbn [v32 map snd starts_from length seq]. f_equal.
  replace (p + 1) with (S p) by lia. apply IH.
Qed.

Lemma total_v32 (t : list N) : total (map snd (v32 t)) = length t.
Proof. rewrite total_slen. apply slen_v32. Qed.

Definition unw (x : option nat) : nat := match x with Some l => l | None => 0 end.

Lemma cl_reordered_levels_main : CL_reordered_levels.
Proof. exact cl_reordered_levels. Qed.
