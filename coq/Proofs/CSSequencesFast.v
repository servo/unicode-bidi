(* Proofs/CSSequencesFast.v — the library of live positions: the positions that X9 keeps in an index interval,
   as every proof about prepare::isolating_run_sequences and about the level runs uses them (CS_sequences_fast
   itself is the case has_iso = false of CSSequences.v).
   prepare.rs finds the first / last live position of a slice with position / rposition / rfind and of a
   sequence with find over an index iterator; the specification filters the position list.  Here the searches are
   written as the head / last element of the filtered interval [lives oc a b]; [first_in] / [last_in] say what
   it means to be that element.  At the end: the live positions of a level run, and what the boolean
   StageRel.runs_bd7 says about the model's level runs. *)
From BidiVerif Require Import Base ModelResolve Spec StageRel.
From BidiVerif.Proofs Require Import ListLib.

Definition olast {A} (l : list A) : option A := hd_error (rev l).

Lemma olast_snoc {A} (l : list A) x : olast (l ++ [x]) = Some x.
Proof. unfold olast. rewrite rev_app_distr. reflexivity. Qed.

Lemma olast_app {A} (a b : list A) :
  olast (a ++ b) = match olast b with Some e => Some e | None => olast a end.
Proof. unfold olast. rewrite rev_app_distr. destruct (rev b); reflexivity. Qed.

Lemma olast_cons {A} (x : A) l : olast (x :: l) = match olast l with Some e => Some e | None => Some x end.
Proof. apply (olast_app [x]). Qed.

Lemma hd_error_app {A} (a b : list A) :
  hd_error (a ++ b) = match hd_error a with Some e => Some e | None => hd_error b end.
Proof. destruct a; reflexivity. Qed.

Lemma hd_error_in {A} (l : list A) x : hd_error l = Some x -> In x l.
Proof. destruct l; cbn; intros H; [discriminate|injection H as ->; left; reflexivity]. Qed.

Lemma olast_in {A} (l : list A) x : olast l = Some x -> In x l.
Proof. intros H. apply in_rev, hd_error_in, H. Qed.

Lemma hd_error_hd {A} (l : list A) d x : hd_error l = Some x -> hd d l = x.
Proof. destruct l; cbn; intros H; [discriminate|injection H as ->; reflexivity]. Qed.

Lemma olast_last {A} (l : list A) d x : olast l = Some x -> last l d = x.
Proof.
  induction l as [|y t IH] using rev_ind; [discriminate|].
  rewrite olast_snoc, last_last. intros H; injection H as ->; reflexivity.
Qed.

Lemma nonempty_hd_last {A} (l : list A) : nonempty l = true ->
  exists f x, hd_error l = Some f /\ olast l = Some x.
Proof.
  destruct l as [|a t]; [discriminate|]. intros _. exists a.
  destruct (exists_last (l := a :: t)) as [t' [x E]]; [discriminate|].
  exists x. split; [reflexivity|]. rewrite E. apply olast_snoc.
Qed.

Lemma filter_rev {A} (f : A -> bool) l : filter f (rev l) = rev (filter f l).
Proof.
  induction l as [|x t IH]; [reflexivity|]. cbn [rev filter]. rewrite filter_app, IH. cbn [filter].
  destruct (f x); [reflexivity|]. apply app_nil_r.
Qed.

Lemma range_app a c b : a <= c -> c <= b -> range a b = range a c ++ range c b.
Proof.
  intros H1 H2. unfold range. replace (b - a) with ((c - a) + (b - c)) by lia.
  rewrite seq_app. replace (a + (c - a)) with c by lia. reflexivity.
Qed.

Definition first_in (f : nat -> bool) (a b : nat) (o : option nat) : Prop :=
  match o with
  | Some j => a <= j /\ j < b /\ f j = true /\ forall j', a <= j' -> j' < j -> f j' = false
  | None => forall j, a <= j -> j < b -> f j = false
  end.
Definition last_in (f : nat -> bool) (a b : nat) (o : option nat) : Prop :=
  match o with
  | Some j => a <= j /\ j < b /\ f j = true /\ forall j', j < j' -> j' < b -> f j' = false
  | None => forall j, a <= j -> j < b -> f j = false
  end.

Lemma hd_filter_first f : forall n a, first_in f a (a + n) (hd_error (filter f (seq a n))).
Proof.
  induction n as [|n IH]; intros a; cbn [seq filter].
  - cbn. intros j H1 H2. lia.
  - destruct (f a) eqn:E.
    + cbn. repeat split; try lia. exact E.
    + specialize (IH (S a)). destruct (hd_error (filter f (seq (S a) n))) as [j|]; cbn in *.
      * destruct IH as [A [B [C D]]]. repeat split; try lia; [exact C|].
        intros j' H1 H2. destruct (Nat.eq_dec j' a) as [->|N]; [exact E|]. apply D; lia.
      * intros j H1 H2. destruct (Nat.eq_dec j a) as [->|N]; [exact E|]. apply IH; lia.
Qed.

Lemma last_filter_last f : forall n a, last_in f a (a + n) (olast (filter f (seq a n))).
Proof.
  induction n as [|n IH]; intros a.
  - cbn. intros j H1 H2. lia.
  - rewrite seq_S, filter_app. cbn [filter]. destruct (f (a + n)) eqn:E.
    + rewrite olast_snoc. cbn. repeat split; try lia. exact E.
    + rewrite app_nil_r. specialize (IH a).
      destruct (olast (filter f (seq a n))) as [j|]; cbn in *.
      * destruct IH as [A [B [C D]]]. repeat split; try lia; [exact C|].
        intros j' H1 H2. destruct (Nat.eq_dec j' (a + n)) as [->|N]; [exact E|]. apply D; lia.
      * intros j H1 H2. destruct (Nat.eq_dec j (a + n)) as [->|N]; [exact E|]. apply IH; lia.
Qed.

Lemma first_in_le f a b j x : first_in f a b (Some j) -> a <= x -> f x = true -> j <= x.
Proof.
  intros [_ [_ [_ H]]] Ha Hx. destruct (Nat.le_gt_cases j x) as [L|L]; [exact L|].
  rewrite (H x Ha L) in Hx. discriminate.
Qed.

Lemma last_in_ge f a b j x : last_in f a b (Some j) -> x < b -> f x = true -> x <= j.
Proof.
  intros [_ [_ [_ H]]] Hb Hx. destruct (Nat.le_gt_cases x j) as [L|L]; [exact L|].
  rewrite (H x L Hb) in Hx. discriminate.
Qed.

(* [g] reads the list [l] at offset [a]: the searches return the first / last index in [a, a + length l) whose
   entry satisfies p *)
Section Search.
Context {A : Type} (p : A -> bool) (g : nat -> A) (d : A).

Lemma position_filter : forall l a, (forall j, j < length l -> g (a + j) = nth j l d) ->
  option_map (Nat.add a) (position p l) = hd_error (filter (fun i => p (g i)) (seq a (length l))).
Proof.
  induction l as [|x t IH]; intros a Hg; [reflexivity|]. cbn [position length seq filter].
  pose proof (Hg 0 ltac:(cbn; lia)) as H0. rewrite Nat.add_0_r in H0. cbn [nth] in H0. rewrite H0.
  destruct (p x); [cbn; f_equal; lia|].
  rewrite <- (IH (S a)).
  - destruct (position p t); cbn; [f_equal; lia|reflexivity].
  - intros j Hj. specialize (Hg (S j) ltac:(cbn; lia)). cbn [nth] in Hg. rewrite <- Hg. f_equal. lia.
Qed.

Lemma rposition_filter : forall l a i acc, (forall j, j < length l -> g (a + i + j) = nth j l d) ->
  option_map (Nat.add a) (rposition_aux p l i acc) =
  match olast (filter (fun j => p (g j)) (seq (a + i) (length l))) with
  | Some j => Some j
  | None => option_map (Nat.add a) acc
  end.
Proof.
  induction l as [|x t IH]; intros a i acc Hg; [reflexivity|]. cbn [rposition_aux length seq filter].
  pose proof (Hg 0 ltac:(cbn; lia)) as H0. rewrite Nat.add_0_r in H0. cbn [nth] in H0. rewrite H0.
  rewrite (IH a (S i)).
  2:{ intros j Hj. specialize (Hg (S j) ltac:(cbn; lia)). cbn [nth] in Hg. rewrite <- Hg. f_equal. lia. }
  rewrite Nat.add_succ_r. destruct (p x); [|reflexivity].
  rewrite olast_cons. destruct (olast _); reflexivity.
Qed.

Lemma rfind_filter : forall l a, (forall j, j < length l -> g (a + j) = nth j l d) ->
  rfind p l = option_map g (olast (filter (fun i => p (g i)) (seq a (length l)))).
Proof.
  induction l as [|x t IH] using rev_ind; intros a Hg; [reflexivity|].
  unfold rfind. rewrite rev_app_distr, app_length, Nat.add_1_r, seq_S, filter_app, olast_app.
  cbn [rev app find filter].
  pose proof (Hg (length t)) as Hx. rewrite app_length, app_nth2, Nat.sub_diag in Hx by lia.
  rewrite (Hx ltac:(cbn; lia)). cbn [nth]. destruct (p x) eqn:E; [cbn; rewrite Hx by (cbn; lia); reflexivity|].
  apply IH. intros j Hj. rewrite Hg by (rewrite app_length; lia). apply app_nth1. exact Hj.
Qed.

End Search.

Lemma nth_slice {A} (l : list A) d a b i : i < b - a ->
  nth i (firstn (b - a) (skipn a l)) d = nth (a + i) l d.
Proof. intros Hi. rewrite nth_firstn_lt by exact Hi. rewrite !nth_nth_error, nth_error_skipn. reflexivity. Qed.

Lemma firstn_as_slice {A} (l : list A) s : firstn s l = firstn (s - 0) (skipn 0 l).
Proof. rewrite Nat.sub_0_r. reflexivity. Qed.

Lemma skipn_as_slice {A} (l : list A) s : s <= length l ->
  skipn s l = firstn (length l - s) (skipn s l).
Proof. intros H. rewrite firstn_all2; [reflexivity|]. rewrite skipn_length. lia. Qed.

Section Slice.
Context {A : Type} (p : A -> bool) (d : A) (l : list A) (a b : nat).
Hypothesis Hab : a <= b.
Hypothesis Hb : b <= length l.

Lemma length_slice : length (firstn (b - a) (skipn a l)) = b - a.
Proof. rewrite firstn_length, skipn_length. lia. Qed.

Lemma slice_reads j : j < length (firstn (b - a) (skipn a l)) -> nth (a + j) l d = nth j (firstn (b - a) (skipn a l)) d.
Proof. rewrite length_slice. intros Hj. symmetry. apply nth_slice, Hj. Qed.

Lemma position_slice :
  option_map (Nat.add a) (position p (firstn (b - a) (skipn a l))) =
  hd_error (filter (fun i => p (nth i l d)) (range a b)).
Proof. rewrite (position_filter p (fun i => nth i l d) d _ a slice_reads), length_slice. reflexivity. Qed.

Lemma rposition_slice :
  option_map (Nat.add a) (rposition p (firstn (b - a) (skipn a l))) =
  olast (filter (fun i => p (nth i l d)) (range a b)).
Proof.
  unfold rposition. rewrite (rposition_filter p (fun i => nth i l d) d _ a 0 None).
  - rewrite Nat.add_0_r, length_slice. unfold range. destruct (olast _); reflexivity.
  - intros j Hj. rewrite Nat.add_0_r. apply slice_reads, Hj.
Qed.

Lemma rfind_slice :
  rfind p (firstn (b - a) (skipn a l)) =
  option_map (fun i => nth i l d) (olast (filter (fun i => p (nth i l d)) (range a b))).
Proof. rewrite (rfind_filter p (fun i => nth i l d) d _ a slice_reads), length_slice. reflexivity. Qed.

End Slice.

Lemma find_index_by_filter {A} site (p : A -> bool) v d : forall idxs,
  Forall (fun i => i < length v) idxs ->
  find_index_by site p v idxs = Ok (hd_error (filter (fun i => p (nth i v d)) idxs)).
Proof.
  induction idxs as [|i rest IH]; intros HF; cbn [find_index_by filter]; [reflexivity|].
  inversion HF as [|? ? Hi Hrest]; subst.
  rewrite (get_some _ _ _ _ (nth_error_nth' v d Hi)). cbn [bind].
  destruct (p (nth i v d)); [reflexivity|]. apply IH, Hrest.
Qed.

Section Lives.
Variable oc : list bclass.
Definition lives (a b : nat) : list nat := filter (live oc) (range a b).
End Lives.

Lemma live_lt oc i : live oc i = true -> i < length oc.
Proof.
  unfold live. intros H. destruct (Nat.lt_ge_cases i (length oc)) as [Hl|Hl]; [exact Hl|].
  rewrite nth_overflow in H by lia. discriminate.
Qed.

Lemma in_lives oc a b x : In x (lives oc a b) <-> (a <= x /\ x < b /\ live oc x = true).
Proof. unfold lives. rewrite filter_In, in_range. tauto. Qed.

Lemma lives_first oc a b : first_in (live oc) a b (hd_error (lives oc a b)).
Proof.
  unfold lives, range. destruct (Nat.le_gt_cases a b) as [H|H].
  - replace b with (a + (b - a)) at 1 by lia. apply hd_filter_first.
  - replace (b - a) with 0 by lia. cbn. intros j H1 H2. lia.
Qed.

Lemma lives_last oc a b : last_in (live oc) a b (olast (lives oc a b)).
Proof.
  unfold lives, range. destruct (Nat.le_gt_cases a b) as [H|H].
  - replace b with (a + (b - a)) at 1 by lia. apply last_filter_last.
  - replace (b - a) with 0 by lia. cbn. intros j H1 H2. lia.
Qed.

Lemma lives_first_some oc a b f : hd_error (lives oc a b) = Some f -> first_in (live oc) a b (Some f).
Proof. intros <-. apply lives_first. Qed.

Lemma lives_last_some oc a b l : olast (lives oc a b) = Some l -> last_in (live oc) a b (Some l).
Proof. intros <-. apply lives_last. Qed.

Lemma lives_app oc a c b : a <= c -> c <= b -> lives oc a b = lives oc a c ++ lives oc c b.
Proof. intros. unfold lives. rewrite (range_app a c b) by assumption. apply filter_app. Qed.

Lemma lives_cons oc a b : a < b -> live oc a = true -> lives oc a b = a :: lives oc (S a) b.
Proof. intros H L. unfold lives. rewrite (range_cons a b H). cbn [filter]. rewrite L. reflexivity. Qed.

Lemma lives_dead oc a b : (forall q, a <= q -> q < b -> live oc q = false) -> lives oc a b = [].
Proof. intros H. apply filter_none. intros x Hx. apply in_range in Hx. apply H; lia. Qed.

Lemma lives_dead_l oc a c b : a <= c -> c <= b -> (forall q, a <= q -> q < c -> live oc q = false) ->
  lives oc a b = lives oc c b.
Proof. intros H1 H2 Hd. rewrite (lives_app oc a c b H1 H2), (lives_dead oc a c Hd). reflexivity. Qed.

Lemma lives_dead_r oc a c b : a <= c -> c <= b -> (forall q, c <= q -> q < b -> live oc q = false) ->
  lives oc a b = lives oc a c.
Proof. intros H1 H2 Hd. rewrite (lives_app oc a c b H1 H2), (lives_dead oc c b Hd). apply app_nil_r. Qed.

Lemma lives_before_first oc a b c f : hd_error (lives oc a b) = Some f -> c <= a -> lives oc c f = lives oc c a.
Proof.
  intros Hf Hc. destruct (lives_first_some oc a b f Hf) as [H1 [_ [_ H2]]].
  apply lives_dead_r; assumption.
Qed.

Lemma lives_after_last oc a b c l : olast (lives oc a b) = Some l -> b <= c -> lives oc (S l) c = lives oc b c.
Proof.
  intros Hl Hc. destruct (lives_last_some oc a b l Hl) as [_ [H1 [_ H2]]].
  apply lives_dead_l; [lia|exact Hc|]. intros q Hq. apply H2. lia.
Qed.

Lemma lives_NoDup oc a b : NoDup (lives oc a b).
Proof. apply NoDup_filter, seq_NoDup. Qed.

Lemma lives_below oc a b c : a <= c -> c <= b -> filter (fun i => i <? c) (lives oc a b) = lives oc a c.
Proof.
  intros H1 H2. rewrite (lives_app oc a c b H1 H2), filter_app, filter_all, filter_none.
  - apply app_nil_r.
  - intros x Hx. apply in_lives in Hx. apply Nat.ltb_ge. lia.
  - intros x Hx. apply in_lives in Hx. apply Nat.ltb_lt. lia.
Qed.

Lemma lives_above oc a b c : a <= S c -> S c <= b -> filter (fun i => c <? i) (lives oc a b) = lives oc (S c) b.
Proof.
  intros H1 H2. rewrite (lives_app oc a (S c) b H1 H2), filter_app, filter_none, filter_all.
  - reflexivity.
  - intros x Hx. apply in_lives in Hx. apply Nat.ltb_lt. lia.
  - intros x Hx. apply in_lives in Hx. apply Nat.ltb_ge. lia.
Qed.

Section Para.
Variable cls0 : list bclass.
Let oc := reported_classes cls0.

Definition liveR (r : run) : list nat := lives oc (fst r) (snd r).

Lemma runs_live_liveR runs : runs_live oc runs = filter StageRel.nonempty (map liveR runs).
Proof. reflexivity. Qed.

End Para.

Lemma runs_bd7_iff cls0 xlev oc lv runs : runs_bd7 cls0 xlev oc lv runs = true <->
  runs_live oc runs = level_runs xlev (remaining cls0) /\
  (forall r i, In r runs -> In i (filter (live oc) (run_range r)) -> nth i xlev None = Some (nth (fst r) lv 0)) /\
  (forall r, In r (tl runs) -> live oc (fst r) = true).
Proof.
  unfold runs_bd7, nat_ll_eqb. rewrite !andb_true_iff, !forallb_forall.
  rewrite (list_eqb_eq _ (list_eqb_eq _ Nat.eqb_eq)). split.
  - intros ((H1 & H2) & H3). split; [exact H1|]. split; [|exact H3]. intros r i Hr Hi. specialize (H2 r Hr).
    rewrite forallb_forall in H2. specialize (H2 i Hi).
    destruct (nth i xlev None); [|discriminate]. apply Nat.eqb_eq in H2. rewrite H2. reflexivity.
  - intros (H1 & H2 & H3). split; [split; [exact H1|]|exact H3]. intros r Hr. apply forallb_forall. intros i Hi.
    rewrite (H2 r i Hr Hi). apply Nat.eqb_refl.
Qed.
