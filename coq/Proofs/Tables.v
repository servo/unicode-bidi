(* Proofs/Tables.v — C14 / C15: structure of the generated tables and of the two table lookups.
   General part: on ANY sorted, disjoint range table the halving search equals the first-match
   linear lookup.  Concrete part: closed boolean checkers evaluated by [vm_compute] on the
   regenerated tables (never reasoning about particular entries). *)
From BidiVerif Require Import Base TablesGen ModelText Stmts.
From Coq Require Import List.

Notation entry := (N * N * bclass)%type.

(* sorted_disjoint as a pairwise statement on indices *)
Definition above (p : option N) (a : N) : Prop :=
  match p with Some q => (q < a)%N | None => True end.

Definition nonempty_ranges (tab : list entry) : Prop :=
  forall i a b k, nth_error tab i = Some (a, b, k) -> (a <= b)%N.

Definition increasing_ranges (tab : list entry) : Prop :=
  forall i j a b k a' b' k', (i < j)%nat ->
    nth_error tab i = Some (a, b, k) -> nth_error tab j = Some (a', b', k') -> (b < a')%N.

Lemma sdf_cons p lo hi k rest :
  sorted_disjoint_from p ((lo, hi, k) :: rest) = true <->
  (lo <= hi)%N /\ above p lo /\ sorted_disjoint_from (Some hi) rest = true.
Proof.
  cbn [sorted_disjoint_from]. rewrite !andb_true_iff, N.leb_le.
  destruct p as [q|]; cbn [above]; [rewrite N.ltb_lt|]; tauto.
Qed.

Lemma sdf_spec : forall (tab : list entry) (p : option N),
  sorted_disjoint_from p tab = true ->
  (forall i a b k, nth_error tab i = Some (a, b, k) -> (a <= b)%N /\ above p a) /\
  increasing_ranges tab.
Proof.
  induction tab as [|[[lo hi] k0] rest IH]; intros p H.
  - split.
    + intros i a b k Hi. destruct i; discriminate Hi.
    + intros i j a b k a' b' k' _ Hi. destruct i; discriminate Hi.
  - apply sdf_cons in H. destruct H as [Hle [Hp Hrest]].
    specialize (IH (Some hi) Hrest). destruct IH as [IHa IHb].
    split.
    + intros i a b k Hi. destruct i as [|i'].
      * cbn [nth_error] in Hi. injection Hi as -> -> ->. split; assumption.
      * cbn [nth_error] in Hi. specialize (IHa i' a b k Hi). destruct IHa as [Hab Hhi].
        cbn [above] in Hhi. split; [exact Hab|].
        destruct p as [q|]; cbn [above] in *; [lia | exact I].
    + intros i j a b k a' b' k' Hij Hi Hj.
      destruct j as [|j']; [lia|]. cbn [nth_error] in Hj.
      destruct i as [|i'].
      * cbn [nth_error] in Hi. injection Hi as -> -> ->.
        specialize (IHa j' a' b' k' Hj). destruct IHa as [_ Hhi]. exact Hhi.
      * cbn [nth_error] in Hi. apply (IHb i' j' a b k a' b' k'); [lia | exact Hi | exact Hj].
Qed.

Lemma sorted_disjoint_pairwise (tab : list entry) :
  sorted_disjoint tab = true -> nonempty_ranges tab /\ increasing_ranges tab.
Proof.
  intros H. unfold sorted_disjoint in H. apply sdf_spec in H. destruct H as [Ha Hb].
  split; [|exact Hb].
  intros i a b k Hi. apply (Ha i a b k Hi).
Qed.

Definition inside (c a b : N) : Prop := (a <= c)%N /\ (c <= b)%N.

Lemma inside_b c a b : ((a <=? c)%N && (c <=? b)%N) = true <-> inside c a b.
Proof.
  unfold inside. rewrite andb_true_iff, N.leb_le, N.leb_le. reflexivity.
Qed.

Lemma mid_bounds lo hi : (lo < hi)%nat ->
  (lo <= lo + (hi - lo) / 2)%nat /\ (lo + (hi - lo) / 2 < hi)%nat.
Proof.
  intros H. assert (Hd : ((hi - lo) / 2 < hi - lo)%nat) by (apply Nat.div_lt; lia).
  lia.
Qed.

Lemma bsearch_fuel_unfold f tab c lo hi :
  bsearch_fuel (S f) tab c lo hi =
    if (hi <=? lo)%nat then None else
    match nth_error tab (lo + (hi - lo) / 2)%nat with
    | None => None
    | Some (a, b, k) =>
      if ((a <=? c)%N && (c <=? b)%N) then Some k
      else if (b <? c)%N then bsearch_fuel f tab c (S (lo + (hi - lo) / 2)) hi
      else bsearch_fuel f tab c lo (lo + (hi - lo) / 2)%nat
    end.
Proof. reflexivity. Qed.

Lemma bsearch_none (tab : list entry) (c : N) :
  (forall i a b k, nth_error tab i = Some (a, b, k) -> ~ inside c a b) ->
  forall fuel lo hi, bsearch_fuel fuel tab c lo hi = None.
Proof.
  intros Hno. induction fuel as [|f IH]; intros lo hi; [reflexivity|].
  rewrite bsearch_fuel_unfold.
  destruct (hi <=? lo)%nat; [reflexivity|].
  destruct (nth_error tab (lo + (hi - lo) / 2)) as [[[a b] k]|] eqn:Hm; [|reflexivity].
  destruct ((a <=? c)%N && (c <=? b)%N) eqn:Hin.
  - apply inside_b in Hin. exfalso. exact (Hno _ a b k Hm Hin).
  - destruct (b <? c)%N; apply IH.
Qed.

Lemma hit_order (tab : list entry) (c : N) : increasing_ranges tab ->
  forall i a b k, nth_error tab i = Some (a, b, k) -> inside c a b ->
  forall j a' b' k', nth_error tab j = Some (a', b', k') ->
    ((j < i)%nat -> (b' < c)%N) /\ ((i < j)%nat -> (c < a')%N) /\ (j = i -> (a', b', k') = (a, b, k)).
Proof.
  intros Hinc i a b k Hi [Hac Hcb] j a' b' k' Hj. repeat split.
  - intros Hlt. pose proof (Hinc j i a' b' k' a b k Hlt Hj Hi). lia.
  - intros Hlt. pose proof (Hinc i j a b k a' b' k' Hlt Hi Hj). lia.
  - intros ->. congruence.
Qed.

Lemma bsearch_found (tab : list entry) (c : N) :
  nonempty_ranges tab -> increasing_ranges tab ->
  forall i a b k, nth_error tab i = Some (a, b, k) -> inside c a b ->
  forall fuel lo hi, (hi - lo < fuel)%nat -> (hi <= length tab)%nat ->
    (lo <= i)%nat -> (i < hi)%nat ->
    bsearch_fuel fuel tab c lo hi = Some k.
Proof.
  intros Hne Hinc i a b k Hi Hin.
  induction fuel as [|f IH]; intros lo hi Hfuel Hlen Hlo Hhi; [lia|].
  rewrite bsearch_fuel_unfold.
  destruct (Nat.leb_spec hi lo) as [Hc|_]; [lia|].
  destruct (mid_bounds lo hi) as [Hm1 Hm2]; [lia|].
  set (mid := (lo + (hi - lo) / 2)%nat) in *.
  destruct (nth_error tab mid) as [[[a' b'] k']|] eqn:Hm.
  2:{ apply nth_error_None in Hm. lia. }
  pose proof (Hne mid a' b' k' Hm) as Hab'.
  destruct (hit_order tab c Hinc i a b k Hi Hin mid a' b' k' Hm) as (Hbelow & Habove & Hsame).
  destruct (Nat.lt_trichotomy mid i) as [Hlt|[Heq|Hgt]].
  - (* the probed range, hence every earlier one, is below c *)
    specialize (Hbelow Hlt).
    destruct (N.leb_spec a' c), (N.leb_spec c b'), (N.ltb_spec b' c); cbn [andb]; try lia. apply IH; lia.
  - injection (Hsame Heq) as -> -> ->. rewrite (proj2 (inside_b c a b) Hin). reflexivity.
  - (* the probed range, hence every later one, is above c *)
    specialize (Habove Hgt).
    destruct (N.leb_spec a' c), (N.leb_spec c b'), (N.ltb_spec b' c); cbn [andb]; try lia. apply IH; lia.
Qed.

Lemma lookup_linear_some : forall (tab : list entry) c k,
  lookup_linear tab c = Some k ->
  exists i a b, nth_error tab i = Some (a, b, k) /\ inside c a b.
Proof.
  induction tab as [|[[lo hi] k0] rest IH]; intros c k H; [discriminate H|].
  cbn [lookup_linear] in H.
  destruct ((lo <=? c)%N && (c <=? hi)%N) eqn:Hin.
  - injection H as ->. apply inside_b in Hin. exists 0%nat, lo, hi. split; [reflexivity | exact Hin].
  - destruct (IH c k H) as [i [a [b [Hi Hab]]]]. exists (S i), a, b. split; assumption.
Qed.

Lemma lookup_linear_none : forall (tab : list entry) c,
  lookup_linear tab c = None ->
  forall i a b k, nth_error tab i = Some (a, b, k) -> ~ inside c a b.
Proof.
  induction tab as [|[[lo hi] k0] rest IH]; intros c H i a b k Hi Hab.
  - destruct i; discriminate Hi.
  - cbn [lookup_linear] in H.
    destruct ((lo <=? c)%N && (c <=? hi)%N) eqn:Hin; [discriminate H|].
    destruct i as [|i'].
    + cbn [nth_error] in Hi. injection Hi as -> -> ->.
      apply inside_b in Hab. rewrite Hab in Hin. discriminate Hin.
    + cbn [nth_error] in Hi. exact (IH c H i' a b k Hi Hab).
Qed.

Theorem bsearch_eq_linear : forall tab c, sorted_disjoint tab = true ->
  bsearch_class tab c = match lookup_linear tab c with Some k => k | None => L end.
Proof.
  intros tab c Hs. apply sorted_disjoint_pairwise in Hs. destruct Hs as [Hne Hinc].
  unfold bsearch_class.
  destruct (lookup_linear tab c) as [k|] eqn:Hl.
  - apply lookup_linear_some in Hl. destruct Hl as [i [a [b [Hi Hab]]]].
    assert (Hlt : (i < length tab)%nat) by (apply nth_error_Some; rewrite Hi; discriminate).
    rewrite (bsearch_found tab c Hne Hinc i a b k Hi Hab (S (length tab)) 0%nat (length tab));
      [reflexivity | lia | lia | lia | exact Hlt].
  - rewrite (bsearch_none tab c (lookup_linear_none tab c Hl)). reflexivity.
Qed.

(* C14: the regenerated class table (closed booleans, evaluated) *)

Lemma class_table_sorted : sorted_disjoint bidi_class_table = true.
Proof. vm_compute. reflexivity. Qed.

Lemma class_table_scalar :
  forallb (fun x => is_scalar (fst (fst x)) && is_scalar (snd (fst x)) &&
                    negb ((fst (fst x) <? 55296)%N && (57343 <? snd (fst x))%N)) bidi_class_table = true.
Proof. vm_compute. reflexivity. Qed.

Theorem C14_structure : C14_structure_statement.
Proof.
  split; [exact bsearch_eq_linear|]. split; [exact class_table_sorted|]. split; [exact class_table_scalar|].
  (* the classes of the twelve format characters, then the version: closed equations *)
  do 12 (split; [vm_compute; reflexivity|]). vm_compute. reflexivity.
Qed.

Notation ptriple := (N * N * option N)%type.

Fixpoint memb (x : N) (l : list N) : bool :=
  match l with [] => false | y :: r => (x =? y)%N || memb x r end.
Fixpoint nodupb (l : list N) : bool :=
  match l with [] => true | x :: r => negb (memb x r) && nodupb r end.

Lemma memb_In x l : In x l -> memb x l = true.
Proof.
  induction l as [|y r IH]; intros H; [destruct H|].
  cbn [memb]. destruct H as [->|H].
  - rewrite N.eqb_refl. reflexivity.
  - rewrite (IH H). apply orb_true_r.
Qed.

Lemma nodupb_sound l : nodupb l = true -> NoDup l.
Proof.
  induction l as [|x r IH]; intros H; [constructor|].
  cbn [nodupb] in H. apply andb_true_iff in H. destruct H as [Hm Hr].
  constructor; [|exact (IH Hr)].
  intros Hin. apply memb_In in Hin. rewrite Hin in Hm. discriminate Hm.
Qed.

Definition option_eqb {A} (eqb : A -> A -> bool) (a b : option A) : bool :=
  match a, b with Some x, Some y => eqb x y | None, None => true | _, _ => false end.
Definition prod_eqb {A B} (ea : A -> A -> bool) (eb : B -> B -> bool) (x y : A * B) : bool :=
  ea (fst x) (fst y) && eb (snd x) (snd y).

Lemma option_eqb_eq {A} (eqb : A -> A -> bool) (H : forall x y, eqb x y = true -> x = y) a b :
  option_eqb eqb a b = true -> a = b.
Proof. destruct a as [x|], b as [y|]; cbn [option_eqb]; intros E; try discriminate E; [f_equal; auto | reflexivity]. Qed.
Lemma prod_eqb_eq {A B} ea eb (Ha : forall x y : A, ea x y = true -> x = y) (Hb : forall x y : B, eb x y = true -> x = y) x y :
  prod_eqb ea eb x y = true -> x = y.
Proof. destruct x, y. unfold prod_eqb. cbn [fst snd]. intros E. apply andb_true_iff in E as [E1 E2]. f_equal; auto. Qed.

Lemma N_eqb_eq x y : (x =? y)%N = true -> x = y.
Proof. apply N.eqb_eq. Qed.

(* what the bracket lookup returns: (key, is-opening) *)
Definition bracket_eqb : option (N * bool) -> option (N * bool) -> bool := option_eqb (prod_eqb N.eqb Bool.eqb).
Lemma bracket_eqb_eq a b : bracket_eqb a b = true -> a = b.
Proof. apply option_eqb_eq, prod_eqb_eq; [exact N_eqb_eq | exact Bool.eqb_prop]. Qed.

Definition ptriple_eqb : ptriple -> ptriple -> bool := prod_eqb (prod_eqb N.eqb N.eqb) (option_eqb N.eqb).
Lemma ptriple_eqb_eq x y : ptriple_eqb x y = true -> x = y.
Proof. apply prod_eqb_eq; [apply prod_eqb_eq; exact N_eqb_eq | apply option_eqb_eq, N_eqb_eq]. Qed.

Lemma pairs_nodup : NoDup (pair_chars bidi_pairs_table).
Proof. apply nodupb_sound. vm_compute. reflexivity. Qed.

Lemma matched_is_find : forall (tab : list ptriple) c,
  matched_opening_bracket_in tab c =
    match find (fun x => (fst (fst x) =? c)%N || (snd (fst x) =? c)%N) tab with
    | Some x => Some (pair_key x, (fst (fst x) =? c)%N)
    | None => None
    end.
Proof.
  induction tab as [|[[o cl] k] rest IH]; intros c; [reflexivity|].
  cbn [matched_opening_bracket_in find fst snd].
  destruct ((o =? c)%N || (cl =? c)%N).
  - unfold pair_key. cbn [fst snd]. reflexivity.
  - apply IH.
Qed.

Lemma bracket_is_find : forall c,
  hardcoded_bracket c =
    match find (fun x => (fst (fst x) =? c)%N || (snd (fst x) =? c)%N) bidi_pairs_table with
    | Some x => Some (pair_key x, (fst (fst x) =? c)%N)
    | None => None
    end.
Proof. intros c. unfold hardcoded_bracket. apply matched_is_find. Qed.

Lemma bracket_members : forall x, In x bidi_pairs_table ->
  hardcoded_bracket (fst (fst x)) = Some (pair_key x, true) /\
  hardcoded_bracket (snd (fst x)) = Some (pair_key x, false).
Proof.
  assert (H : forallb (fun x => bracket_eqb (hardcoded_bracket (fst (fst x))) (Some (pair_key x, true)) &&
                                bracket_eqb (hardcoded_bracket (snd (fst x))) (Some (pair_key x, false)))
                      bidi_pairs_table = true) by (vm_compute; reflexivity).
  intros x Hx. rewrite forallb_forall in H. specialize (H x Hx).
  apply andb_true_iff in H. destruct H as [Ho Hc].
  split; apply bracket_eqb_eq; assumption.
Qed.

Lemma bracket_keys : forall x y, In x bidi_pairs_table -> In y bidi_pairs_table ->
  pair_key x = pair_key y -> x = y \/ pair_key x = 12296%N.
Proof.
  assert (H : forallb (fun x => forallb (fun y =>
                implb (pair_key x =? pair_key y)%N (ptriple_eqb x y || (pair_key x =? 12296)%N)) bidi_pairs_table)
                      bidi_pairs_table = true) by (vm_compute; reflexivity).
  intros x y Hx Hy Hk.
  rewrite forallb_forall in H. specialize (H x Hx).
  rewrite forallb_forall in H. specialize (H y Hy).
  rewrite Hk, N.eqb_refl in H. cbn [implb] in H. rewrite <- Hk in H.
  apply orb_true_iff in H. destruct H as [H|H].
  - left. apply ptriple_eqb_eq. exact H.
  - right. apply N.eqb_eq. exact H.
Qed.

Lemma brackets_ON : Forall (fun c => hardcoded_class c = ON) (pair_chars bidi_pairs_table).
Proof.
  assert (H : forallb (fun c => ceq (hardcoded_class c) ON) (pair_chars bidi_pairs_table) = true) by (vm_compute; reflexivity).
  apply Forall_forall. intros c Hc. rewrite forallb_forall in H. apply ceq_eq. exact (H c Hc).
Qed.

Theorem C15_structure : C15_structure_statement.
Proof.
  split; [exact pairs_nodup|]. split; [exact bracket_is_find|].
  split; [exact bracket_members|]. split; [exact bracket_keys|].
  exact brackets_ON.
Qed.
