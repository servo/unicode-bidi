(* Proofs/C13Spec.v — C13 "isolates isolate" at the level of the specification: re-exports the files
   C13Explicit .. C13Full and names their two closing results. *)
From BidiVerif Require Import Stmts7.
From BidiVerif.Proofs Require Export C13Explicit C13Full.

Lemma c13_explicit_spec_proof : C13_explicit.
Proof. exact c13_explicit_proof. Qed.

Lemma c13_full_spec_proof : C13_full.
Proof. exact c13_full_proof. Qed.
