(* Proofs/C13Seqs.v — C13 part B: correspondence of level runs, continuations, chains and isolating
   run sequences between the text with content c and the text with empty content. *)
From BidiVerif Require Import Base Spec Stmts7.
From BidiVerif.Proofs Require Import C13Explicit C13Runs C13Text.

Section Corr.
Variables (prefix suffix c : list bclass) (ini : bclass).
Hypothesis Hini : ini = LRI \/ ini = RLI.
Hypothesis Hbal : iso_bal 0 c = true.

Let np := length prefix.
Let m := length c.
Let q := np + 1 + m.
Let T := txt prefix ini c suffix.
Let T0 := txt prefix ini [] suffix.
Let f := fo np m.

Variables (R0 R1 E Rr CR : list (list nat)) (cura X : list nat) (merged : bool).
Let X' := map f X.
Let M0 := cura ++ (np + 1) :: X.
Let M1 := cura ++ q :: X'.
Let M1b := q :: X'.
Let G0 := if merged then M1 else cura.
Let H0 := if merged then M1 else M1b.
Let MID := if merged then [M1] else cura :: CR ++ [M1b].

Hypothesis HW0 : wf_runs R0.
Hypothesis HW1 : wf_runs R1.
Hypothesis HR0 : R0 = E ++ M0 :: Rr.
Hypothesis HR1 : R1 = E ++ MID ++ map (map f) Rr.
Hypothesis HE : forall r x, In r E -> In x r -> x < np.
Hypothesis Hc1 : cura <> [].
Hypothesis Hc2 : forall x, In x cura -> x <= np.
Hypothesis Hc3 : last_of cura = np.
Hypothesis HX : forall x, In x X -> np + 1 < x.
Hypothesis HRr : forall r x, In r Rr -> In x r -> np + 1 < x.
Hypothesis HCR : forall r x, In r CR -> In x r -> np < x < q.

Lemma merged_cases : merged = true \/ merged = false.
Proof. generalize merged. intros []; auto. Qed.

Lemma map_f_small r : (forall x, In x r -> x <= np) -> map f r = r.
Proof.
  intros H. rewrite <- (map_id r) at 2. apply map_ext_in. intros x Hx. apply fo_le, H, Hx.
Qed.

Lemma f_np1 : f (np + 1) = q.
Proof. apply fo_succ. Qed.

Lemma M1_eq : M1 = map f M0.
Proof.
  unfold M1, M0. rewrite map_app. cbn [map]. rewrite (map_f_small cura Hc2), f_np1. reflexivity.
Qed.

(* the run of R1 that stands for a run of R0: its renaming, except that [Z] stands for the run M0 through
   the pair: the part G0 that begins like M0, or the part H0 that ends like it *)
Definition img (Z r : list nat) : list nat := if list_eq_dec Nat.eq_dec r M0 then Z else map f r.
Local Notation g := (img G0).
Local Notation h := (img H0).

Lemma img_M0 Z : img Z M0 = Z.
Proof. unfold img. destruct (list_eq_dec Nat.eq_dec M0 M0); [reflexivity|contradiction]. Qed.
Lemma img_other Z r : r <> M0 -> img Z r = map f r.
Proof. intros H. unfold img. destruct (list_eq_dec Nat.eq_dec r M0); [contradiction|reflexivity]. Qed.

Lemma E_ne_M0 r : In r E -> r <> M0.
Proof.
  intros Hr ->. specialize (HE M0 (np + 1) Hr). unfold M0 in HE.
  specialize (HE ltac:(apply in_or_app; right; left; reflexivity)). lia.
Qed.

Lemma Rr_ne_M0 r : In r Rr -> r <> M0.
Proof.
  intros Hr ->. pose proof (first_of_in cura Hc1) as Hin.
  specialize (HRr M0 (first_of cura) Hr). unfold M0 in HRr.
  specialize (HRr ltac:(apply in_or_app; left; exact Hin)). specialize (Hc2 _ Hin). lia.
Qed.

Lemma in_R0 r : In r R0 <-> In r E \/ r = M0 \/ In r Rr.
Proof.
  rewrite HR0, in_app_iff. cbn [In]. split; intros [H|[H|H]]; auto.
Qed.

Lemma in_R1 r : In r R1 <-> In r E \/ In r MID \/ exists r0, In r0 Rr /\ r = map f r0.
Proof.
  rewrite HR1, !in_app_iff, in_map_iff. split.
  - intros [H|[H|(r0 & H1 & H2)]]; auto. right. right. exists r0. auto.
  - intros [H|[H|(r0 & H1 & H2)]]; auto. right. right. exists r0. auto.
Qed.

Lemma in_MID r : In r MID -> In r R1.
Proof. intros H. apply in_R1. right. left. exact H. Qed.

Lemma MID_false : merged = false -> MID = cura :: CR ++ [M1b].
Proof. intros Em. unfold MID. rewrite Em. reflexivity. Qed.

Lemma G0_in : In G0 MID.
Proof. unfold G0, MID. destruct merged; left; reflexivity. Qed.
Lemma H0_in : In H0 MID.
Proof.
  unfold H0, MID. destruct merged; [left; reflexivity|]. right. apply in_or_app. right. left. reflexivity.
Qed.

Lemma E_small r : In r E -> map f r = r.
Proof. intros Hr. apply map_f_small. intros x Hx. specialize (HE r x Hr Hx). lia. Qed.

Lemma img_in Z r : In Z MID -> In r R0 -> In (img Z r) R1.
Proof.
  intros HZ Hr. apply in_R0 in Hr. apply in_R1. destruct Hr as [Hr|[->|Hr]].
  - left. rewrite img_other, E_small by (exact Hr || apply E_ne_M0, Hr). exact Hr.
  - right. left. rewrite img_M0. exact HZ.
  - right. right. exists r. split; [exact Hr|]. apply img_other, Rr_ne_M0, Hr.
Qed.

Lemma R1_cases Z r1 : In Z MID -> In r1 R1 ->
  (exists r0, In r0 R0 /\ r1 = img Z r0) \/ (merged = false /\ In r1 (cura :: CR ++ [M1b]) /\ r1 <> Z).
Proof.
  intros HZ H. apply in_R1 in H. destruct H as [H|[H|(r0 & H1 & H2)]].
  - left. exists r1. split; [apply in_R0; left; exact H|].
    rewrite img_other, E_small by (exact H || apply E_ne_M0, H). reflexivity.
  - destruct (list_eq_dec Nat.eq_dec r1 Z) as [->|Hne].
    + left. exists M0. split; [apply in_R0; right; left; reflexivity | symmetry; apply img_M0].
    + destruct merged_cases as [Em|Em]; [|right; rewrite <- (MID_false Em); auto].
      exfalso. unfold MID in H, HZ. rewrite Em in H, HZ. destruct H as [<-|[]]. destruct HZ as [<-|[]]. apply Hne. reflexivity.
  - left. exists r0. split; [apply in_R0; right; right; exact H1|].
    rewrite img_other by (apply Rr_ne_M0, H1). exact H2.
Qed.

Lemma first_cura : first_of cura <= np.
Proof. apply Hc2, first_of_in, Hc1. Qed.

Lemma first_M0 : first_of M0 = first_of cura.
Proof. unfold M0. apply first_of_app, Hc1. Qed.

Lemma first_G0 : first_of G0 = first_of cura.
Proof. unfold G0, M1. destruct merged; [apply first_of_app, Hc1|reflexivity]. Qed.

Lemma first_g r : In r R0 -> first_of (g r) = f (first_of r).
Proof.
  intros Hr. destruct (list_eq_dec Nat.eq_dec r M0) as [->|Hne].
  - rewrite (img_M0 G0), first_G0, first_M0. unfold f. rewrite fo_le by apply first_cura. reflexivity.
  - rewrite (img_other G0) by exact Hne. apply first_of_map, (fo_0 np m).
Qed.

Lemma last_M0 : last_of M0 = last_of ((np + 1) :: X).
Proof. unfold M0. apply last_of_app. discriminate. Qed.

Lemma last_X_ge : np + 1 <= last_of ((np + 1) :: X).
Proof.
  pose proof (last_of_in ((np + 1) :: X) ltac:(discriminate)) as [H|H]; [lia|]. specialize (HX _ H). lia.
Qed.

Lemma last_H0 : last_of H0 = f (last_of M0).
Proof.
  assert (E1 : last_of M1b = f (last_of ((np + 1) :: X))).
  { unfold M1b, X'. rewrite <- f_np1.
    change (f (np + 1) :: map f X) with (map f ((np + 1) :: X)). apply last_of_map, (fo_0 np m). }
  rewrite last_M0. unfold H0. destruct merged; [|exact E1].
  unfold M1. rewrite last_of_app by discriminate. exact E1.
Qed.

Lemma last_h r : In r R0 -> last_of (h r) = f (last_of r) /\ last_of r <> np.
Proof.
  intros Hr. destruct (list_eq_dec Nat.eq_dec r M0) as [->|Hne].
  - rewrite (img_M0 H0). split; [apply last_H0|]. rewrite last_M0. pose proof last_X_ge. lia.
  - rewrite (img_other H0) by exact Hne. split; [apply last_of_map, (fo_0 np m)|].
    pose proof (wf_runs_inc _ _ HW0 Hr) as [_ Nr]. pose proof (last_of_in r Nr) as Hl.
    apply in_R0 in Hr. destruct Hr as [Hr|[->|Hr]]; [|contradiction|].
    + specialize (HE r _ Hr Hl). lia.
    + specialize (HRr r _ Hr Hl). lia.
Qed.

Lemma first_R0_ne r : In r R0 -> first_of r <> np + 1.
Proof.
  intros Hr. pose proof (wf_runs_inc _ _ HW0 Hr) as [_ Nr]. pose proof (first_of_in r Nr) as Hl.
  apply in_R0 in Hr. destruct Hr as [Hr|[->|Hr]].
  - specialize (HE r _ Hr Hl). lia.
  - rewrite first_M0. pose proof first_cura. lia.
  - specialize (HRr r _ Hr Hl). lia.
Qed.

Lemma first_R1_cases r1 : In r1 R1 ->
  (exists r0, In r0 R0 /\ r1 = g r0) \/ (merged = false /\ (r1 = M1b \/ In r1 CR)).
Proof.
  intros H. destruct (R1_cases G0 r1 G0_in H) as [L|(Em & Hin & Hne)]; [left; exact L|].
  right. split; [exact Em|]. unfold G0 in Hne. rewrite Em in Hne.
  destruct Hin as [<-|Hin]; [contradiction|]. apply in_app_or in Hin. destruct Hin as [Hc|[<-|[]]]; auto.
Qed.

Lemma CR_first r : merged = false -> In r CR -> np < first_of r < q.
Proof.
  intros Em Hr. assert (Hin : In r R1).
  { apply in_MID. rewrite (MID_false Em). right. apply in_or_app. left. exact Hr. }
  pose proof (wf_runs_inc _ _ HW1 Hin) as [_ Nr]. apply (HCR r _ Hr), first_of_in, Nr.
Qed.

Lemma rsa_corr j : j <> np + 1 -> run_starting_at R1 (f j) = option_map g (run_starting_at R0 j).
Proof.
  intros Hj. destruct (run_starting_at R0 j) as [r'|] eqn:E0; cbn [option_map].
  - apply rsa_in in E0. destruct E0 as [Hin Hf]. rewrite <- Hf, <- first_g by exact Hin.
    apply rsa_some; [apply wf_runs_firsts_NoDup, HW1|apply (img_in G0 _ G0_in), Hin].
  - apply rsa_none. intros r1 Hr1 Hf. rewrite rsa_none in E0.
    apply first_R1_cases in Hr1. destruct Hr1 as [(r0 & H1 & ->)|(Em & [->|Hc])].
    + rewrite first_g in Hf by exact H1. apply fo_inj in Hf. apply (E0 r0 H1 Hf).
    + cbn [first_of hd M1b] in Hf. rewrite <- f_np1 in Hf. apply fo_inj in Hf. lia.
    + pose proof (CR_first r1 Em Hc) as Hr. rewrite Hf in Hr. pose proof (fo_range np m j). fold f in H.
      unfold q in Hr. lia.
Qed.

Lemma cont_corr r : In r R0 -> continuation T R1 (h r) = option_map g (continuation T0 R0 r).
Proof.
  intros Hr. destruct (last_h r Hr) as [Hl Hne]. unfold continuation. rewrite Hl.
  unfold f, T, T0, np, m. rewrite (T_snth prefix suffix c ini ON (last_of r)).
  fold np. fold m. fold T. fold T0. fold f.
  destruct (is_init (snth T0 (last_of r) ON)); [|reflexivity].
  destruct (matching_outside prefix suffix c ini Hini Hbal (last_of r) Hne) as [Hm Hm'].
  fold np m f T T0 in Hm, Hm'. rewrite Hm.
  destruct (matching_pdi T0 (last_of r)) as [j|]; cbn [option_map]; [|reflexivity].
  apply rsa_corr. intros ->. apply Hm'. reflexivity.
Qed.

Lemma cont_cura : merged = false -> continuation T R1 cura = Some M1b.
Proof.
  intros Em. unfold continuation. rewrite Hc3.
  assert (Hs : snth T np ON = ini).
  { unfold snth, T, txt. rewrite app_nth2 by (fold np; lia). fold np. rewrite Nat.sub_diag. reflexivity. }
  rewrite Hs. rewrite (lri_rli_init ini Hini).
  pose proof (matching_ini prefix suffix c ini Hbal) as Hm. fold np m q T in Hm. rewrite Hm.
  change q with (first_of M1b). apply rsa_some; [apply wf_runs_firsts_NoDup, HW1|].
  apply in_MID. rewrite (MID_false Em). right. apply in_or_app. right. left. reflexivity.
Qed.

Lemma cont_CR r r' : merged = false -> In r CR -> continuation T R1 r = Some r' -> In r' CR.
Proof.
  intros Em Hr Hc. assert (Hin : In r R1).
  { apply in_MID. rewrite (MID_false Em). right. apply in_or_app. left. exact Hr. }
  pose proof (wf_runs_inc _ _ HW1 Hin) as [_ Nr].
  pose proof (HCR r _ Hr (last_of_in r Nr)) as Hl.
  apply continuation_some in Hc. destruct Hc as (Hi & j & Hm & Hrs).
  destruct (matching_content prefix suffix c ini Hbal (last_of r)) as (j' & Hm' & Hj1 & Hj2);
    [fold np; lia|fold np m q; lia|exact Hi|].
  fold np m q T in Hm', Hj2. rewrite Hm in Hm'. injection Hm' as <-.
  apply rsa_in in Hrs. destruct Hrs as [Hin' Hf].
  apply first_R1_cases in Hin'. destruct Hin' as [(r0 & H1 & ->)|(_ & [->|Hc])].
  - rewrite first_g in Hf by exact H1. pose proof (fo_range np m (first_of r0)) as Hrg. fold f in Hrg.
    unfold q in Hj2. lia.
  - cbn [first_of hd M1b] in Hf. lia.
  - exact Hc.
Qed.

Lemma R1_cases_h r1 : In r1 R1 ->
  (exists r0, In r0 R0 /\ r1 = h r0) \/ (merged = false /\ (r1 = cura \/ In r1 CR)).
Proof.
  intros H. destruct (R1_cases H0 r1 H0_in H) as [L|(Em & Hin & Hne)]; [left; exact L|].
  right. split; [exact Em|]. unfold H0 in Hne. rewrite Em in Hne.
  destruct Hin as [<-|Hin]; [auto|]. apply in_app_or in Hin. destruct Hin as [Hc|[<-|[]]]; [auto|contradiction].
Qed.

Lemma is_cont_corr r : In r R0 -> is_cont T R1 (g r) = is_cont T0 R0 r.
Proof.
  intros Hr. apply Bool.eq_true_iff_eq. rewrite !is_cont_iff. rewrite (first_g r Hr). split.
  - intros (r1 & r1' & H1 & H2 & H3).
    apply R1_cases_h in H1. destruct H1 as [(r0 & Hr0 & ->)|(Em & [->|Hc])].
    + rewrite (cont_corr r0 Hr0) in H2.
      destruct (continuation T0 R0 r0) as [r0'|] eqn:E0; [|discriminate]. cbn [option_map] in H2.
      injection H2 as <-. pose proof (cont_in T0 R0 r0 r0' E0) as Hin'.
      rewrite (first_g r0' Hin') in H3. apply fo_inj in H3.
      exists r0, r0'. repeat split; assumption.
    + rewrite (cont_cura Em) in H2. injection H2 as <-. cbn [first_of hd M1b] in H3.
      rewrite <- f_np1 in H3. apply fo_inj in H3. symmetry in H3. exfalso. apply (first_R0_ne r Hr H3).
    + pose proof (cont_CR r1 r1' Em Hc H2) as Hc'. pose proof (CR_first r1' Em Hc') as Hrg.
      rewrite H3 in Hrg. pose proof (fo_range np m (first_of r)) as Hf. fold f in Hf. unfold q in Hrg. lia.
  - intros (r0 & r0' & H1 & H2 & H3). exists (h r0), (g r0'). split; [apply (img_in H0 _ H0_in), H1|].
    split; [rewrite (cont_corr r0 H1), H2; reflexivity|].
    rewrite first_g by (apply (cont_in T0 R0 r0 r0' H2)). rewrite H3. reflexivity.
Qed.

Lemma is_cont_M1b : merged = false -> is_cont T R1 M1b = true.
Proof.
  intros Em. apply is_cont_iff. exists cura, M1b. split; [|split; [apply cont_cura, Em|reflexivity]].
  apply in_MID. rewrite (MID_false Em). left. reflexivity.
Qed.

Lemma chainT_tail cls runs r : wf_runs runs -> In r runs ->
  chainT cls runs r = r ++ match continuation cls runs r with Some r' => chainT cls runs r' | None => [] end.
Proof.
  intros W Hr. rewrite (chainT_unfold cls runs W r Hr) at 1.
  destruct (continuation cls runs r); [reflexivity|rewrite app_nil_r; reflexivity].
Qed.

Lemma chain_corr r : In r R0 -> chainT T R1 (g r) = map f (chainT T0 R0 r).
Proof.
  revert r. apply (runs_ind T0 R0 HW0). intros r Hr IH.
  assert (HH : chainT T R1 (h r) =
               h r ++ match continuation T0 R0 r with Some r' => map f (chainT T0 R0 r') | None => [] end).
  { rewrite (chainT_tail T R1 (h r) HW1 (img_in H0 r H0_in Hr)), (cont_corr r Hr).
    destruct (continuation T0 R0 r) as [r'|] eqn:E0; cbn [option_map]; [|reflexivity].
    rewrite (IH r' eq_refl). reflexivity. }
  rewrite (chainT_tail T0 R0 r HW0 Hr), map_app.
  assert (Htail : map f match continuation T0 R0 r with Some r' => chainT T0 R0 r' | None => [] end
                  = match continuation T0 R0 r with Some r' => map f (chainT T0 R0 r') | None => [] end).
  { destruct (continuation T0 R0 r); reflexivity. }
  rewrite Htail.
  destruct (list_eq_dec Nat.eq_dec r M0) as [->|Hne].
  - rewrite (img_M0 H0) in HH. rewrite (img_M0 G0), <- M1_eq. unfold G0, H0 in *.
    destruct merged_cases as [Em|Em]; rewrite Em in *; [exact HH|].
    assert (Hcin : In cura R1).
    { apply in_MID. rewrite (MID_false Em). left. reflexivity. }
    rewrite (chainT_tail T R1 cura HW1 Hcin), (cont_cura Em), HH. unfold M1, M1b.
    rewrite <- app_assoc. reflexivity.
  - rewrite (img_other H0) in HH by exact Hne. rewrite (img_other G0) by exact Hne. exact HH.
Qed.

Lemma chain_CR : merged = false -> forall r, In r R1 -> In r CR ->
  forall x, In x (chainT T R1 r) -> np < x < q.
Proof.
  intros Em. apply (runs_ind T R1 HW1 (fun r => In r CR -> forall x, In x (chainT T R1 r) -> np < x < q)).
  intros r Hr IH Hc x. rewrite (chainT_unfold T R1 HW1 r Hr).
  destruct (continuation T R1 r) as [r'|] eqn:E1.
  - intros Hx. apply in_app_or in Hx. destruct Hx as [Hx|Hx]; [apply (HCR r x Hc Hx)|].
    apply (IH r' eq_refl (cont_CR r r' Em Hc E1) x Hx).
  - intros Hx. apply (HCR r x Hc Hx).
Qed.

(* with empty content the initiator (np) and its PDI (np + 1) are adjacent and linked: no sequence ends at the
   one or begins at the other *)
Lemma seq0_ends r : In r R0 ->
  first_of (chainT T0 R0 r) <> np + 1 /\ last_of (chainT T0 R0 r) <> np /\ chainT T0 R0 r <> [].
Proof.
  intros Hr. split; [rewrite (chainT_first T0 R0 HW0 r Hr); apply first_R0_ne, Hr|].
  split; [|apply (chainT_nonempty T0 R0 HW0 r Hr)].
  destruct (chainT_last T0 R0 HW0 r Hr) as (r'' & H1 & H2). rewrite H2. apply (last_h r'' H1).
Qed.

Let nc0 := fun r => negb (is_cont T0 R0 r).
Let nc1 := fun r => negb (is_cont T R1 r).

Lemma part_corr L : (forall r, In r L -> In r R0) ->
  map (chainT T R1) (filter nc1 (map g L)) = map (map f) (map (chainT T0 R0) (filter nc0 L)).
Proof.
  induction L as [|r L IH]; intros HL; [reflexivity|].
  cbn [map filter]. unfold nc1 at 1, nc0 at 1.
  rewrite (is_cont_corr r (HL r (or_introl eq_refl))).
  assert (IH' := IH (fun r' Hr' => HL r' (or_intror Hr'))).
  destruct (is_cont T0 R0 r); cbn [negb map]; [exact IH'|].
  rewrite (chain_corr r (HL r (or_introl eq_refl))), IH'. reflexivity.
Qed.

Lemma map_g_E : map g E = E.
Proof.
  rewrite <- (map_id E) at 2. apply map_ext_in. intros r Hr.
  rewrite (img_other G0) by (apply E_ne_M0, Hr). apply E_small, Hr.
Qed.

Lemma map_g_Rr : map g Rr = map (map f) Rr.
Proof. apply map_ext_in. intros r Hr. apply img_other, Rr_ne_M0, Hr. Qed.

Lemma seqs_corr :
  exists SA SB SC,
    map (chainT T0 R0) (filter nc0 R0) = SA ++ SB /\
    map (chainT T R1) (filter nc1 R1) = map (map f) SA ++ SC ++ map (map f) SB /\
    (forall s x, In s SC -> In x s -> np < x < q) /\
    (forall s, In s (SA ++ SB) -> first_of s <> np + 1 /\ last_of s <> np /\ s <> []).
Proof.
  exists (map (chainT T0 R0) (filter nc0 (E ++ [M0]))), (map (chainT T0 R0) (filter nc0 Rr)).
  assert (HinE : forall r, In r (E ++ [M0]) -> In r R0).
  { intros r Hr. apply in_R0. apply in_app_or in Hr. destruct Hr as [Hr|[<-|[]]]; auto. }
  assert (HinR : forall r, In r Rr -> In r R0) by (intros r Hr; apply in_R0; auto).
  assert (E0 : map (chainT T0 R0) (filter nc0 R0) =
               map (chainT T0 R0) (filter nc0 (E ++ [M0])) ++ map (chainT T0 R0) (filter nc0 Rr)).
  { rewrite HR0. replace (E ++ M0 :: Rr) with ((E ++ [M0]) ++ Rr) by (rewrite <- app_assoc; reflexivity).
    rewrite filter_app, map_app. reflexivity. }
  assert (Hends : forall s, In s (map (chainT T0 R0) (filter nc0 (E ++ [M0])) ++ map (chainT T0 R0) (filter nc0 Rr)) ->
                  first_of s <> np + 1 /\ last_of s <> np /\ s <> []).
  { intros s Hs. rewrite <- E0 in Hs. apply in_map_iff in Hs. destruct Hs as (r & <- & Hr).
    apply filter_In in Hr. apply seq0_ends, Hr. }
  (* R1: the images of the runs of R0 in order, and behind the image of M0 the content runs with the PDI's run *)
  set (XTRA := if merged then [] else CR ++ [M1b]).
  assert (ER1 : R1 = map g (E ++ [M0]) ++ XTRA ++ map g Rr).
  { rewrite HR1, map_app, map_g_E, map_g_Rr. cbn [map]. rewrite (img_M0 G0). unfold MID, G0, XTRA.
    destruct merged; rewrite <- !app_assoc; cbn [app]; rewrite <- ?app_assoc; reflexivity. }
  exists (map (chainT T R1) (filter nc1 XTRA)). split; [exact E0|]. split; [|split; [|exact Hends]].
  - replace (filter nc1 R1) with (filter nc1 (map g (E ++ [M0]) ++ XTRA ++ map g Rr)) by (rewrite <- ER1; reflexivity).
    set (L1 := map g (E ++ [M0])). set (L2 := map g Rr). match goal with |- _ = ?R => set (RHS := R) end.
    rewrite !filter_app, !map_app. subst L1 L2 RHS. rewrite (part_corr _ HinE), (part_corr _ HinR). reflexivity.
  - intros s x Hs Hx. apply in_map_iff in Hs. destruct Hs as (r & <- & Hr). apply filter_In in Hr.
    destruct Hr as [Hr Hnc]. unfold XTRA in Hr. destruct merged_cases as [Em|Em]; rewrite Em in Hr; [destruct Hr|].
    apply in_app_or in Hr. destruct Hr as [Hr|[<-|[]]].
    + apply (chain_CR Em r); [|exact Hr|exact Hx].
      apply in_MID. rewrite (MID_false Em). right. apply in_or_app. left. exact Hr.
    + unfold nc1 in Hnc. rewrite (is_cont_M1b Em) in Hnc. discriminate.
Qed.
End Corr.

Lemma last_of_snoc l x : last_of (l ++ [x]) = x.
Proof. apply last_of_app. discriminate. Qed.

Section Decomp.
Variables (prefix suffix c : list bclass) (ini : bclass).
Hypothesis Hini : ini = LRI \/ ini = RLI.
Hypothesis Hbal : iso_bal 0 c = true.
Variables (LP LS LC : list (option nat)) (tl : nat).

Let np := length prefix.
Let m := length c.
Let q := np + 1 + m.
Let T := txt prefix ini c suffix.
Let T0 := txt prefix ini [] suffix.
Let f := fo np m.
Let XL := LP ++ [Some tl] ++ LC ++ [Some tl] ++ LS.
Let XL0 := LP ++ [Some tl] ++ [] ++ [Some tl] ++ LS.

Hypothesis HLP : length LP = np.
Hypothesis HLC : length LC = m.
Hypothesis Habove : Forall (above tl) LC.
Hypothesis Hkept : forall k, k < m -> is_removed (nth k c BN) = false -> nth k LC None <> None.

Let RP := remaining prefix.
Let RC := map (fun i => np + 1 + i) (remaining c).
Let RS0 := map (fun i => np + 2 + i) (remaining suffix).
Let RS := map f RS0.

Lemma XL_f j : snth XL (f j) None = snth XL0 j None.
Proof. unfold snth, XL, XL0, f, np, m. apply T_nth; assumption. Qed.

Lemma XL_low i : i <= np -> snth XL i None = snth XL0 i None.
Proof. intros H. rewrite <- XL_f. unfold f. rewrite fo_le by exact H. reflexivity. Qed.

Lemma XL0_np : snth XL0 np None = Some tl.
Proof. unfold snth, XL0. rewrite app_nth2 by lia. rewrite HLP, Nat.sub_diag. reflexivity. Qed.

Lemma XL0_np1 : snth XL0 (np + 1) None = Some tl.
Proof.
  unfold snth, XL0. rewrite app_nth2 by lia. rewrite HLP. replace (np + 1 - np) with 1 by lia. reflexivity.
Qed.

Lemma XL_q : snth XL q None = Some tl.
Proof.
  change q with (np + 1 + m). rewrite <- (fo_succ np m). fold f. rewrite XL_f. apply XL0_np1.
Qed.

Lemma RP_lt x : In x RP -> x < np.
Proof. intros H. apply remaining_lt in H. apply H. Qed.

Lemma RC_facts x : In x RC -> np < x < q /\ exists l, snth XL x None = Some l /\ tl < l.
Proof.
  intros H. unfold RC in H. apply in_map_iff in H. destruct H as (k & <- & Hk).
  apply remaining_lt in Hk. destruct Hk as [Hk1 Hk2]. fold m in Hk1. split; [unfold q; lia|].
  unfold snth, XL. rewrite app_nth2 by lia. rewrite HLP.
  replace (np + 1 + k - np) with (S k) by lia. cbn [app nth]. rewrite app_nth1 by lia.
  specialize (Hkept k Hk1 Hk2). rewrite Forall_forall in Habove.
  assert (HkL : k < length LC) by (rewrite HLC; exact Hk1).
  specialize (Habove (nth k LC None) (nth_In LC None HkL)).
  destruct (nth k LC None) as [l|]; [|contradiction]. exists l. split; [reflexivity|exact Habove].
Qed.

Lemma RS0_gt x : In x RS0 -> np + 1 < x.
Proof. intros H. unfold RS0 in H. apply in_map_iff in H. destruct H as (k & <- & _). lia. Qed.

Lemma runs_decomp :
  exists (E Rr CR : list (list nat)) (cura X : list nat) (merged : bool),
    let R0 := level_runs XL0 (remaining T0) in
    let R1 := level_runs XL (remaining T) in
    wf_runs R0 /\ wf_runs R1 /\
    R0 = E ++ (cura ++ (np + 1) :: X) :: Rr /\
    R1 = E ++ (if merged then [cura ++ q :: map f X] else cura :: CR ++ [q :: map f X]) ++ map (map f) Rr /\
    (forall r x, In r E -> In x r -> x < np) /\
    cura <> [] /\ (forall x, In x cura -> x <= np) /\ last_of cura = np /\
    (forall x, In x X -> np + 1 < x) /\
    (forall r x, In r Rr -> In x r -> np + 1 < x) /\
    (forall r x, In r CR -> In x r -> np < x < q).
Proof.
  (* the block before the pair, initiator included: the same runs in both texts, the last one open *)
  set (A := RP ++ [np]).
  assert (HA : A <> []) by (unfold A; destruct RP; discriminate).
  assert (HAle : forall x, In x A -> x <= np).
  { intros x Hx. apply in_app_or in Hx. destruct Hx as [Hx|[<-|[]]]; [apply RP_lt in Hx; lia|lia]. }
  assert (Hlast : snth XL0 (last A 0) None = Some tl) by (unfold A; rewrite last_last; apply XL0_np).
  assert (Hlast1 : snth XL (last A 0) None = Some tl) by (rewrite XL_low, Hlast; [reflexivity|apply HAle, last_of_in, HA]).
  set (LA := level_runs XL0 A).
  assert (ELA1 : level_runs XL A = LA).
  { apply lrf_ext_lev. intros i Hi. apply XL_low, HAle, Hi. }
  assert (HLAne : LA <> []) by (unfold LA, level_runs; destruct A; [contradiction|]; rewrite lrf_step, lrf_cons; discriminate).
  set (E := removelast LA). set (cura := last LA []).
  assert (ELA : LA = E ++ [cura]) by (apply app_removelast_last, HLAne).
  (* the block after the pair, PDI included: the runs of the text with content are those of the other, renamed *)
  set (X := lr_ext XL0 (Some tl) RS0). set (Rr := lr_rest XL0 (Some tl) RS0).
  assert (ELB0 : level_runs XL0 ((np + 1) :: RS0) = ((np + 1) :: X) :: Rr)
    by (rewrite level_runs_cons, XL0_np1; reflexivity).
  assert (ELB1 : level_runs XL (q :: RS) = (q :: map f X) :: map (map f) Rr).
  { rewrite <- (fo_succ np m : f (np + 1) = q). change (f (np + 1) :: RS) with (map f ((np + 1) :: RS0)).
    unfold level_runs. rewrite (lrf_map f XL XL0 _ (fun i _ => XL_f i) [] None).
    fold (level_runs XL0 ((np + 1) :: RS0)). rewrite ELB0. reflexivity. }
  assert (ER0 : level_runs XL0 (remaining T0) = E ++ (cura ++ (np + 1) :: X) :: Rr).
  { unfold T0. rewrite (idx0_eq prefix suffix ini Hini). fold np RP RS0 A. rewrite (level_runs_app XL0 A _ _ HA), Hlast, XL0_np1, ELB0.
    cbn [same_lvl hd List.tl]. rewrite Nat.eqb_refl. reflexivity. }
  assert (Hcat : concat E ++ cura = A).
  { pose proof (lrf_concat XL0 A [] None) as Hc. fold (level_runs XL0 A) in Hc. fold LA in Hc.
    rewrite ELA, concat_app in Hc. cbn [concat app] in Hc. rewrite app_nil_r in Hc. exact Hc. }
  assert (Hc1 : cura <> []).
  { pose proof (lrf_nonempty XL0 A [] None) as HF. fold (level_runs XL0 A) in HF. fold LA in HF.
    rewrite Forall_forall in HF. apply HF. rewrite ELA. apply in_or_app. right. left. reflexivity. }
  assert (Hc3 : last_of cura = np).
  { rewrite <- (last_of_app (concat E) cura Hc1), Hcat. apply last_of_snoc. }
  assert (Hinc : inc (concat E ++ cura)).
  { rewrite Hcat. apply inc_app. split; [apply inc_remaining|]. split; [cbn; auto|].
    intros x y Hx [<-|[]]. apply RP_lt, Hx. }
  assert (HE : forall r x, In r E -> In x r -> x < np).
  { intros r x Hr Hx. apply inc_app in Hinc. destruct Hinc as (_ & _ & Hlt).
    rewrite <- Hc3. apply Hlt; [apply in_concat; eauto|apply last_of_in, Hc1]. }
  assert (Hc2 : forall x, In x cura -> x <= np).
  { intros x Hx. apply HAle. rewrite <- Hcat. apply in_or_app. right. exact Hx. }
  assert (HXR : X ++ concat Rr = RS0).
  { pose proof (lrf_concat XL0 ((np + 1) :: RS0) [] None) as Hc. fold (level_runs XL0 ((np + 1) :: RS0)) in Hc.
    rewrite ELB0 in Hc. cbn [concat app] in Hc. injection Hc as Hc. exact Hc. }
  assert (HX : forall x, In x X -> np + 1 < x).
  { intros x Hx. apply RS0_gt. rewrite <- HXR. apply in_or_app. left. exact Hx. }
  assert (HRr : forall r x, In r Rr -> In x r -> np + 1 < x).
  { intros r x Hr Hx. apply RS0_gt. rewrite <- HXR. apply in_or_app. right. apply in_concat. eauto. }
  assert (W0 : wf_runs (level_runs XL0 (remaining T0))) by apply wf_level_runs, inc_remaining.
  assert (W1 : wf_runs (level_runs XL (remaining T))) by apply wf_level_runs, inc_remaining.
  destruct RC as [|i RC'] eqn:ERC.
  - (* all content characters removed: the run of the initiator goes on at the PDI *)
    exists E, Rr, [], cura, X, true. cbn zeta.
    split; [exact W0|]. split; [exact W1|]. split; [exact ER0|].
    split; [|repeat (split; [assumption|]); intros r x []].
    unfold T. rewrite (idx1_eq prefix suffix c ini Hini). fold np m q f RP RC RS0 RS.
    rewrite ERC. cbn [app]. fold A. rewrite (level_runs_app XL A _ _ HA), Hlast1, XL_q, ELB1, ELA1.
    cbn [same_lvl hd List.tl]. rewrite Nat.eqb_refl. reflexivity.
  - (* the kept content characters lie above both border levels: their runs stand alone *)
    assert (HRC : forall x, In x (i :: RC') -> np < x < q /\ exists l, snth XL x None = Some l /\ tl < l).
    { intros x Hx. apply RC_facts. rewrite ERC. exact Hx. }
    exists E, Rr, (level_runs XL (i :: RC')), cura, X, false. cbn zeta.
    split; [exact W0|]. split; [exact W1|]. split; [exact ER0|].
    split; [|repeat (split; [assumption|])].
    + destruct (HRC i (or_introl eq_refl)) as (_ & l & Hl & Hlt).
      destruct (HRC _ (last_of_in (i :: RC') ltac:(discriminate))) as (_ & l' & Hl' & Hlt'). unfold last_of in Hl'.
      unfold T. rewrite (idx1_eq prefix suffix c ini Hini). fold np m q f RP RC RS0 RS.
      rewrite ERC. fold A. change ((i :: RC') ++ q :: RS) with (i :: RC' ++ q :: RS).
      rewrite (level_runs_app XL A _ _ HA), Hlast1, Hl. cbn [same_lvl].
      replace (l =? tl) with false by (symmetry; apply Nat.eqb_neq; lia).
      change (i :: RC' ++ q :: RS) with ((i :: RC') ++ q :: RS).
      rewrite (level_runs_app XL (i :: RC')) by discriminate. rewrite XL_q, Hl'. cbn [same_lvl].
      replace (tl =? l') with false by (symmetry; apply Nat.eqb_neq; lia).
      rewrite ELB1, ELA1, ELA, <- !app_assoc. cbn [app]. rewrite <- app_assoc. reflexivity.
    + intros r x Hr Hx. apply (HRC x). pose proof (lrf_concat XL (i :: RC') [] None) as Hc.
      fold (level_runs XL (i :: RC')) in Hc. cbn [app] in Hc. rewrite <- Hc. apply in_concat. eauto.
Qed.
End Decomp.

(* BD13: the isolating run sequences of the text with content c are those of the text with empty
   content, renamed, plus sequences that lie inside the content *)
Lemma seqs_decomp prefix suffix c ini LP LS LC tl :
  ini = LRI \/ ini = RLI -> iso_bal 0 c = true ->
  length LP = length prefix -> length LC = length c -> Forall (above tl) LC ->
  (forall k, k < length c -> is_removed (nth k c BN) = false -> nth k LC None <> None) ->
  let np := length prefix in let q := np + 1 + length c in let f := fo np (length c) in
  exists SA SB SC,
    isolating_sequences (txt prefix ini [] suffix) (LP ++ [Some tl] ++ [] ++ [Some tl] ++ LS) = SA ++ SB /\
    isolating_sequences (txt prefix ini c suffix) (LP ++ [Some tl] ++ LC ++ [Some tl] ++ LS)
      = map (map f) SA ++ SC ++ map (map f) SB /\
    (forall s x, In s SC -> In x s -> np < x < q) /\
    (forall s, In s (SA ++ SB) -> first_of s <> np + 1 /\ last_of s <> np /\ s <> []).
Proof.
  intros Hini Hbal HLP HLC Habove Hkept np q f.
  destruct (runs_decomp prefix suffix c ini Hini LP LS LC tl HLP HLC Habove Hkept)
    as (E & Rr & CR & cura & X & merged & H).
  cbn zeta in H. destruct H as (W0 & W1 & ER0 & ER1 & HE & Hc1 & Hc2 & Hc3 & HX & HRr & HCR).
  rewrite !isolating_sequences_eq'. cbn zeta.
  exact (seqs_corr prefix suffix c ini Hini Hbal _ _ E Rr CR cura X merged W0 W1 ER0 ER1 HE Hc1 Hc2 Hc3 HX HRr HCR).
Qed.
