(* Proofs/CSSequences.v — CS_sequences (Stmts6.v): the sequences that prepare::isolating_run_sequences builds
   with its stack of pending sequences (bd13_fold) are, up to order and up to sequences without a character
   that X9 keeps, the isolating run sequences of BD13 (level runs chained from an isolate initiator to its
   matching PDI) with the sos/eos of X10.
   After each level run the pending sequences on the stack are those that end with an open isolate initiator
   which is the last live position of its level run ([open_ends]: the open list of CSSeqOpen.v filtered by
   [lor]).  A run whose first live position is the PDI closing the top one continues it ([pdi_lor]); any other
   run starts a sequence that no level run continues into ([nc]).  Without isolate controls the model takes the fast
   path, which returns what the general path returns (SeqModel.sequences_noinit): CS_sequences_fast is the
   case has_iso = false. *)
From BidiVerif Require Import Base ModelResolve Spec StageRel Stmts2 Stmts3 Stmts6.
From BidiVerif.Proofs Require Import ListLib LevelOps CSSequencesFast SeqModel ExplicitSteps ReportedClasses TotalSequences CSSeqOpen C13Runs.
From Coq Require Import Permutation.

(* CS_sequences with the third conjunct of runs_bd7 (only the first run may start at a removed character)
   as a hypothesis of its own as well *)
Definition CS_sequences_alt : Prop :=
  forall cls0 pl lv runs has_iso seqs,
    cs_sequences_hyps cls0 pl lv runs ->
    forallb (fun r => live (reported_classes cls0) (fst r)) (tl runs) = true ->
    let oc := reported_classes cls0 in
    (has_iso = false -> forallb (fun c => negb (is_isolate_init c)) oc = true) ->
    isolating_run_sequences pl oc lv runs has_iso = Ok seqs ->
    Permutation (model_seq3 oc seqs) (spec_seq3 cls0 (fst (explicit_levels cls0 pl)) pl).

Lemma model_seq3_cons oc sq seqs :
  model_seq3 oc (sq :: seqs) =
  (if StageRel.nonempty (live_idx oc sq) then [(live_idx oc sq, irs_sos sq, irs_eos sq)] else [])
  ++ model_seq3 oc seqs.
Proof.
  unfold model_seq3. cbn [map filter fst]. destruct (StageRel.nonempty (live_idx oc sq)); reflexivity.
Qed.

Section Para.
Variable cls0 : list bclass.
Variable pl : nat.
Variable lv : list nat.
Let oc := reported_classes cls0.
Let k := length cls0.
Notation lev := (lev cls0 pl).
Hypothesis Hsp : single_para cls0.
Hypothesis Hlv : length lv = k.
Hypothesis Hagree : forall i, i < k -> live oc i = true -> nth_error lv i = nth i (fst (explicit_levels cls0 pl)) None.

Definition lvl (q : nat) : nat := nth q lv 0.

Lemma oc_len : length oc = k.
Proof. apply reported_length. Qed.

Lemma lev_live q : live oc q = true -> lev q = Some (lvl q).
Proof.
  intros H. pose proof (live_lt oc q H) as Hq. rewrite oc_len in Hq.
  unfold CSSeqOpen.lev, CSSeqOpen.xlev. rewrite <- (Hagree q Hq H).
  unfold lvl. rewrite (nth_error_nth' lv 0); [reflexivity|]. rewrite Hlv. exact Hq.
Qed.

Lemma noB q : q + 1 < k -> nth q cls0 BN <> B.
Proof. intros H. rewrite (nth_indep cls0 BN L) by (fold k; lia). apply Hsp. exact H. Qed.

Lemma live_cls q : live oc q = negb (is_removed (nth q cls0 BN)).
Proof. apply live_reported. Qed.

Lemma init_live q : is_init (nth q cls0 BN) = true -> live oc q = true.
Proof. intros H. rewrite live_cls. destruct (nth q cls0 BN); try discriminate H; reflexivity. Qed.

Lemma pdi_live q : nth q cls0 BN = PDI -> live oc q = true.
Proof. intros H. rewrite live_cls, H. reflexivity. Qed.

Lemma dead_ostep O q : live oc q = false -> ostep O q (nth q cls0 BN) = O.
Proof.
  rewrite live_cls. intros H. unfold ostep. destruct (nth q cls0 BN); try discriminate H; reflexivity.
Qed.

Notation lives := (lives oc).

Lemma next_live t : first_in (live oc) (S t) k (hd_error (lives (S t) k)) \/ k < S t.
Proof. left. apply lives_first. Qed.

Notation xlv := (fst (explicit_levels cls0 pl)).

Lemma lev_at_live i : live oc i = true -> lev_at xlv pl i = lvl i.
Proof. intros H. unfold lev_at, snth. change (nth i xlv None) with (lev i). rewrite (lev_live i H). reflexivity. Qed.

Lemma seq_sos_lives sq f : first_of sq = f -> live oc f = true ->
  seq_sos xlv pl (remaining cls0) sq = dir_of_level (Nat.max (lvl f) (lvl_or lv pl (olast (lives 0 f)))).
Proof.
  intros Hf Hl. unfold seq_sos. rewrite Hf, (lev_at_live f Hl). f_equal. f_equal.
  pose proof (live_lt oc f Hl) as Hfk. rewrite oc_len in Hfk.
  rewrite remaining_live. fold oc k. rewrite (lives_below oc 0 k f) by lia.
  unfold olast. destruct (rev (lives 0 f)) as [|i r] eqn:E; [reflexivity|]. apply lev_at_live.
  assert (Hi : In i (lives 0 f)) by (apply in_rev; rewrite E; left; reflexivity). apply in_lives in Hi. apply Hi.
Qed.

Lemma seq_eos_lives sq l : last_of sq = l -> live oc l = true ->
  seq_eos cls0 xlv pl (remaining cls0) sq =
  dir_of_level (Nat.max (lvl l)
     (if is_init (snth cls0 l ON) && match matching_pdi cls0 l with None => true | Some _ => false end
      then pl else lvl_or lv pl (hd_error (lives (S l) k)))).
Proof.
  intros Hf Hl. unfold seq_eos. rewrite Hf, (lev_at_live l Hl). f_equal. f_equal.
  destruct (is_init (snth cls0 l ON) && _); [reflexivity|].
  pose proof (live_lt oc l Hl) as Hfk. rewrite oc_len in Hfk.
  rewrite remaining_live. fold oc k. rewrite (lives_above oc 0 k l) by lia.
  destruct (lives (S l) k) as [|i r] eqn:E; [reflexivity|]. apply lev_at_live.
  assert (Hi : In i (lives (S l) k)) by (rewrite E; left; reflexivity). apply in_lives in Hi. apply Hi.
Qed.

Definition spec3 (s : list nat) : seq3 :=
  (s, seq_sos xlv pl (remaining cls0) s, seq_eos cls0 xlv pl (remaining cls0) s).

(* t is the last position of its level run *)
Definition lor (t : nat) : bool :=
  match hd_error (lives (S t) k) with Some t' => negb (lvl t' =? lvl t) | None => true end.
Definition open_ends (q : nat) : list nat := filter lor (opens cls0 q).

(* the PDI at p closes the initiator t; p' is the last live position before p.  t ends its level run
   exactly when p starts one: either nothing is live between t and p, or the first live position after t
   and p' both lie strictly between them, where the levels are above that of p (t was pushed) or equal to
   it (overflow) *)
Lemma pdi_lor p t X p' : p < k -> nth p cls0 BN = PDI -> opens cls0 p = t :: X ->
  olast (lives 0 p) = Some p' -> lor t = negb (lvl p' =? lvl p).
Proof.
  intros Hp Hc Ho Hp'.
  destruct (pdi_levels cls0 pl p t X Hp) as [la [Hla Hcase]]; try assumption.
  { intros q Hq. apply noB. lia. }
  destruct (opens_hd cls0 p t X ltac:(fold k; lia) Ho) as [Htp Hti].
  pose proof (init_live t Hti) as Lt. pose proof (pdi_live p Hc) as Lp.
  rewrite (lev_live p Lp) in Hla. injection Hla as <-.
  pose proof (lives_last_some oc 0 p p' Hp') as HL. pose proof HL as [_ [Hp'p [Lp' _]]].
  pose proof (last_in_ge _ _ _ _ t HL Htp Lt) as Htp'.
  unfold lor. pose proof (lives_first oc (S t) k) as HF.
  destruct (hd_error (lives (S t) k)) as [t'|]; [|rewrite (HF p ltac:(lia) Hp) in Lp; discriminate].
  pose proof HF as [Htt' [_ [Lt' _]]]. pose proof (first_in_le _ _ _ _ p HF ltac:(lia) Lp) as Ht'p.
  assert (Hbetween : (t' = p /\ p' = t) \/ (t' < p /\ t < p')).
  { destruct (Nat.eq_dec t' p) as [->|N].
    - left. split; [reflexivity|]. destruct (Nat.eq_dec p' t) as [E|N]; [exact E|].
      pose proof (first_in_le _ _ _ _ p' HF ltac:(lia) Lp'). lia.
    - right. pose proof (last_in_ge _ _ _ _ t' HL ltac:(lia) Lt'). lia. }
  f_equal. destruct Hcase as [[Hlt Hdeep]|Hsame].
  - rewrite (lev_live t Lt) in Hlt. injection Hlt as Hlt.
    destruct Hbetween as [[-> ->]|[H1 H2]]; [rewrite Hlt; reflexivity|].
    pose proof (Hdeep t' (lvl t') ltac:(lia) H1 (lev_live t' Lt')).
    pose proof (Hdeep p' (lvl p') H2 Hp'p (lev_live p' Lp')).
    destruct (Nat.eqb_spec (lvl t') (lvl t)), (Nat.eqb_spec (lvl p') (lvl p)); lia || reflexivity.
  - pose proof (Hsame t (lvl t) (le_n _) Htp (lev_live t Lt)) as Et.
    pose proof (Hsame p' (lvl p') Htp' Hp'p (lev_live p' Lp')) as Ep'.
    assert (Et' : lvl t' = lvl p).
    { destruct Hbetween as [[-> _]|[H1 _]]; [reflexivity|]. apply (Hsame t' (lvl t')); [lia|exact H1|exact (lev_live t' Lt')]. }
    rewrite Et, Et', Ep'. reflexivity.
Qed.

Lemma const_on {A} (F : nat -> A) a : forall b, a <= b -> (forall q, a <= q -> q < b -> F (S q) = F q) -> F b = F a.
Proof.
  induction 1 as [|b Hb IH]; intros H; [reflexivity|]. rewrite H by lia. apply IH. intros q H1 H2. apply H; lia.
Qed.

Lemma opens_dead a b : a <= b -> b <= k -> (forall q, a <= q -> q < b -> live oc q = false) ->
  opens cls0 b = opens cls0 a.
Proof.
  intros H1 H2 Hd. apply (const_on (opens cls0) a b H1). intros q Ha Hb.
  rewrite opens_S by (fold k; lia). apply dead_ostep, Hd; lia.
Qed.

Lemma open_ends_dead q : q < k -> live oc q = false -> open_ends (S q) = open_ends q.
Proof. intros Hq Lq. unfold open_ends. rewrite opens_S by exact Hq. rewrite dead_ostep by exact Lq. reflexivity. Qed.

(* the level run [s,en) with first live position p and last live position e, which ends its run *)
Section Run.
Variables s en p e : nat.
Hypothesis Hsen : s < en.
Hypothesis Henk : en <= k.
Hypothesis Hp : hd_error (lives s en) = Some p.
Hypothesis He : olast (lives s en) = Some e.
Hypothesis Hsame : forall q, In q (lives s en) -> lvl q = lvl p.
Hypothesis Hlore : lor e = true.

Lemma run_p : s <= p /\ p < en /\ live oc p = true /\ forall q, s <= q -> q < p -> live oc q = false.
Proof. exact (lives_first_some oc s en p Hp). Qed.

Lemma run_e : s <= e /\ e < en /\ live oc e = true /\ forall q, e < q -> q < en -> live oc q = false.
Proof. exact (lives_last_some oc s en e He). Qed.

Lemma run_pe : p <= e.
Proof. destruct run_e as [B1 [_ [B3 _]]]. exact (first_in_le _ _ _ _ e run_p B1 B3). Qed.

Lemma run_lvl q : s <= q -> q < en -> live oc q = true -> lvl q = lvl p.
Proof. intros. apply Hsame, in_lives. repeat split; assumption. Qed.

Lemma lor_inner q : s <= q -> q < e -> live oc q = true -> lor q = false.
Proof.
  intros H1 H2 Lq. destruct run_e as [B1 [B2 [B3 B4]]].
  unfold lor. pose proof (lives_first oc (S q) k) as HF.
  destruct (hd_error (lives (S q) k)) as [q'|]; [|rewrite (HF e ltac:(lia) ltac:(lia)) in B3; discriminate].
  pose proof (first_in_le _ _ _ _ e HF ltac:(lia) B3). destruct HF as [F1 [F2 [F3 F4]]].
  rewrite (run_lvl q'), (run_lvl q), Nat.eqb_refl by (lia || assumption). reflexivity.
Qed.

Lemma prev_inner q : p < q -> q < en -> live oc q = true ->
  exists q', olast (lives 0 q) = Some q' /\ lvl q' = lvl q.
Proof.
  intros H1 H2 Lq. destruct run_p as [A1 [A2 [A3 A4]]].
  pose proof (lives_last oc 0 q) as HL.
  destruct (olast (lives 0 q)) as [q'|]; [|rewrite (HL p ltac:(lia) H1) in A3; discriminate].
  exists q'. split; [reflexivity|]. pose proof (last_in_ge _ _ _ _ p HL H1 A3). destruct HL as [L1 [L2 [L3 L4]]].
  rewrite (run_lvl q'), (run_lvl q) by (lia || assumption). reflexivity.
Qed.

(* one live position of the run: an initiator stays in [open_ends] only at e; a PDI pops an entry of it only
   at p *)
Lemma open_ends_step q : p <= q -> q <= e -> live oc q = true ->
  open_ends (S q) = (if (q =? e) && is_init (nth q cls0 BN) then [q] else []) ++
            filter lor (if (q =? p) && (nth q cls0 BN =c PDI) then tl (opens cls0 q) else opens cls0 q).
Proof.
  intros H1 H2 Lq. destruct run_e as [B1 [B2 [B3 B4]]]. destruct run_p as [A1 [A2 [A3 A4]]].
  unfold open_ends. rewrite opens_S by (fold k; lia). unfold ostep.
  destruct (is_init (nth q cls0 BN)) eqn:Ei.
  - replace (nth q cls0 BN =c PDI) with false by (destruct (nth q cls0 BN); try discriminate Ei; reflexivity).
    rewrite andb_false_r, andb_true_r. cbn [filter].
    destruct (Nat.eqb_spec q e) as [->|N]; [rewrite Hlore; reflexivity|].
    rewrite (lor_inner q) by (lia || exact Lq). reflexivity.
  - rewrite andb_false_r. cbn [app]. destruct (nth q cls0 BN =c PDI) eqn:Ec; [|rewrite andb_false_r; reflexivity].
    rewrite andb_true_r. destruct (Nat.eqb_spec q p) as [->|N]; [reflexivity|].
    destruct (opens cls0 q) as [|t X] eqn:Eo; [reflexivity|]. cbn [tl filter].
    destruct (prev_inner q ltac:(lia) ltac:(lia) Lq) as [q' [Hq' Hlq]]. apply ceq_eq in Ec.
    rewrite (pdi_lor q t X q' ltac:(lia) Ec Eo Hq'), Hlq, Nat.eqb_refl. reflexivity.
Qed.

Lemma open_ends_inner q : p < q -> q < e -> open_ends (S q) = open_ends q.
Proof.
  intros H1 H2. destruct run_e as [B1 [B2 [B3 B4]]]. destruct (live oc q) eqn:Lq; [|apply open_ends_dead; [lia|exact Lq]].
  rewrite (open_ends_step q) by (lia || exact Lq).
  destruct (Nat.eqb_spec q e), (Nat.eqb_spec q p); try lia. reflexivity.
Qed.

Lemma opens_p : opens cls0 p = opens cls0 s.
Proof.
  destruct run_p as [A1 [A2 [A3 A4]]].
  exact (opens_dead s p A1 (Nat.le_trans _ _ _ (Nat.lt_le_incl _ _ A2) Henk) A4).
Qed.

Lemma open_ends_run :
  open_ends en = (if is_init (nth e cls0 BN) then [e] else []) ++
         filter lor (if nth p cls0 BN =c PDI then tl (opens cls0 s) else opens cls0 s).
Proof.
  pose proof run_pe as Hpe. destruct run_p as [A1 [A2 [A3 A4]]]. destruct run_e as [B1 [B2 [B3 B4]]].
  rewrite (const_on open_ends (S e) en) by (lia || (intros q Ha Hb; apply open_ends_dead; [lia|apply B4; lia])).
  rewrite (open_ends_step e Hpe (le_n e) B3), Nat.eqb_refl. cbn [andb]. f_equal.
  destruct (Nat.eqb_spec e p) as [E|N]; cbn [andb]; [rewrite E, opens_p; reflexivity|].
  fold (open_ends e). rewrite (const_on open_ends (S p) e) by (lia || (intros q Ha Hb; apply open_ends_inner; lia)).
  rewrite (open_ends_step p (le_n p) Hpe A3), Nat.eqb_refl, opens_p.
  destruct (Nat.eqb_spec p e); [lia|]. reflexivity.
Qed.

End Run.

Notation liveR := (liveR cls0).
Notation general_seq := (general_seq pl oc lv k).

Lemma liveR_eq r : liveR r = lives (fst r) (snd r).
Proof. reflexivity. Qed.

Lemma general_one_spec sg f l : sg <> [] -> Forall (run_in k) sg ->
  hd_error (liveR (hd (0, 0) sg)) = Some f -> olast (liveR (last sg (0, 0))) = Some l ->
  irs_sos (general_seq sg) = dir_of_level (Nat.max (lvl f) (lvl_or lv pl (olast (lives 0 f)))) /\
  irs_eos (general_seq sg) = dir_of_level (Nat.max (lvl l)
     (if is_isolate_init (nth l oc BN) then pl else lvl_or lv pl (hd_error (lives (S l) k)))).
Proof.
  intros Hne Hin Hf Hl. unfold SeqModel.general_seq. cbn [irs_sos irs_eos]. rewrite !level_class_dir.
  assert (E1 : hd_error (filter (live oc) (flat_map run_range sg)) = Some f).
  { destruct sg as [|r0 t]; [congruence|]. cbn [flat_map hd] in *. rewrite filter_app, hd_error_app.
    change (hd_error (filter (live oc) (run_range r0)) = Some f) in Hf. rewrite Hf. reflexivity. }
  assert (E2 : olast (filter (live oc) (flat_map run_range sg)) = Some l).
  { destruct (exists_last Hne) as [t [rl E]]. rewrite E, last_last in *.
    rewrite flat_map_app, filter_app, olast_app. cbn [flat_map]. rewrite app_nil_r.
    change (olast (filter (live oc) (run_range rl)) = Some l) in Hl. rewrite Hl. reflexivity. }
  assert (Hrl : fst (last sg (0, 0)) < snd (last sg (0, 0)) <= k).
  { destruct (exists_last Hne) as [t [rl E]]. rewrite E, last_last. rewrite Forall_forall in Hin.
    apply Hin. rewrite E. apply in_or_app. right. left. reflexivity. }
  rewrite E1, E2. cbn [opt_or].
  rewrite <- (lives_before_first oc _ _ 0 f Hf) by lia.
  rewrite <- (lives_after_last oc _ _ k l Hl) by lia.
  rewrite (lives_app oc 0 (fst (last sg (0, 0))) (snd (last sg (0, 0)))), olast_app by lia.
  change (lives (fst (last sg (0, 0))) (snd (last sg (0, 0)))) with (liveR (last sg (0, 0))).
  rewrite Hl. cbn [cls_or]. split; reflexivity.
Qed.

Lemma lives_none a b : (forall q, a <= q -> q < b -> live oc q = false) -> lives a b = [].
Proof using Hlv Hagree. apply lives_dead. Qed.

(* consecutive runs differ in level where their live positions meet; prev is the last live position before rs *)
Fixpoint seps (prev : option nat) (rs : list run) : Prop :=
  match rs with
  | [] => True
  | r :: t => match hd_error (liveR r), prev with Some a, Some b => lvl a <> lvl b | _, _ => True end /\
              seps (match olast (liveR r) with Some e => Some e | None => prev end) t
  end.

Lemma seps_some : forall rs a, (forall q, In q a -> live oc q = true) ->
  adj_ok xlv (a :: filter StageRel.nonempty (map liveR rs)) -> seps (olast a) rs.
Proof.
  induction rs as [|r t IH]; intros a Ha Hadj; cbn [seps]; [exact I|].
  cbn [map filter] in Hadj. destruct (liveR r) as [|x b] eqn:Er.
  - cbn [StageRel.nonempty hd_error] in *. split; [exact I|]. cbn [olast rev hd_error]. apply IH; assumption.
  - cbn [StageRel.nonempty] in Hadj. cbn [adj_ok] in Hadj. destruct Hadj as [Hns Hadj]. split.
    + cbn [hd_error]. destruct (olast a) as [y|] eqn:Ey; [|exact I]. intros Heq.
      rewrite (olast_last a 0 y Ey) in Hns. cbn [hd] in Hns.
      assert (Lx : live oc x = true).
      { assert (Hin : In x (liveR r)) by (rewrite Er; left; reflexivity). apply in_lives in Hin. apply Hin. }
      assert (Ly : live oc y = true) by (apply Ha; apply olast_in; exact Ey).
      unfold snth in Hns. change (nth ?i xlv None) with (lev i) in Hns.
      rewrite (lev_live x Lx), (lev_live y Ly), Heq in Hns. cbn [same_lvl] in Hns.
      rewrite Nat.eqb_refl in Hns. discriminate Hns.
    + assert (Eo : exists e, olast (x :: b) = Some e).
      { destruct (nonempty_hd_last (x :: b) eq_refl) as [f [e [_ H]]]. exists e; exact H. }
      destruct Eo as [e Ee]. rewrite Ee. rewrite <- Ee. apply IH; [|exact Hadj].
      intros q Hq. rewrite <- Er in Hq. apply in_lives in Hq. apply Hq.
Qed.

Lemma seps_none : forall rs, adj_ok xlv (filter StageRel.nonempty (map liveR rs)) -> seps None rs.
Proof.
  induction rs as [|r t IH]; intros Hadj; cbn [seps]; [exact I|].
  cbn [map filter] in Hadj. destruct (liveR r) as [|x b] eqn:Er.
  - cbn [StageRel.nonempty hd_error olast rev] in *. split; [exact I|]. apply IH. exact Hadj.
  - split; [destruct (hd_error (x :: b)); exact I|].
    cbn [StageRel.nonempty] in Hadj.
    destruct (nonempty_hd_last (x :: b) eq_refl) as [f [e [_ Ee]]]. rewrite Ee, <- Ee.
    apply seps_some; [|exact Hadj].
    intros q Hq. rewrite <- Er in Hq. apply in_lives in Hq. apply Hq.
Qed.

(* the model's level runs MR: their live positions are the specification's level runs R, each at one level,
   and only the first may start at a removed position *)
Variable MR : list run.
Let R := level_runs xlv (remaining cls0).
Hypothesis HR : runs_live oc MR = R.
Hypothesis HA : forall r q, In r MR -> In q (liveR r) -> lvl q = lvl (fst r).
Hypothesis HtileMR : tile_from 0 k MR.
Hypothesis Hstl : Forall (fun r => live oc (fst r) = true) (tl MR).

(* the level run that continues q (BD13); nc r: no level run continues into r, so r starts a sequence *)
Definition cont (q : list nat) : option (list nat) := continuation cls0 R q.
Definition nc (r : list nat) : bool := negb (is_cont cls0 R r).

Lemma isolating_nc : isolating_sequences cls0 xlv = map (chain (length R) cls0 R) (filter nc R).
Proof. exact (isolating_sequences_eq' cls0 xlv). Qed.

Lemma R_rsa r : In r R -> run_starting_at R (first_of r) = Some r.
Proof. apply rsa_some, wf_runs_firsts_NoDup, wf_level_runs, inc_remaining. Qed.

Lemma liveR_in_R r : In r MR -> liveR r <> [] -> In (liveR r) R.
Proof.
  intros Hin Hne. rewrite <- HR. unfold runs_live. apply filter_In. split.
  - apply in_map_iff. exists r. split; [reflexivity|exact Hin].
  - destruct (liveR r) eqn:E; [congruence|reflexivity].
Qed.

Lemma cont_inv q r' : cont q = Some r' ->
  let t := last_of q in
  t < k /\ is_init (nth t cls0 BN) = true /\ matching_pdi cls0 t = Some (first_of r') /\ In r' R.
Proof.
  cbv zeta. intros H. apply continuation_some in H. destruct H as (Ei & j & Em & H).
  apply rsa_in in H. destruct H as [H2 H1]. unfold snth in Ei.
  assert (Ht : last_of q < k).
  { destruct (Nat.lt_ge_cases (last_of q) k) as [Hl|Hl]; [exact Hl|].
    rewrite nth_overflow in Ei by (fold k; lia). discriminate. }
  rewrite (nth_indep cls0 ON BN) in Ei by (fold k; lia).
  repeat split; try assumption. rewrite H1. exact Em.
Qed.

Lemma cont_intro q r' : last_of q < k -> is_init (nth (last_of q) cls0 BN) = true ->
  matching_pdi cls0 (last_of q) = Some (first_of r') -> In r' R -> cont q = Some r'.
Proof.
  intros Ht Hi Hm Hin. unfold cont, continuation, snth.
  rewrite (nth_indep cls0 ON BN) by (fold k; lia). rewrite Hi, Hm. apply R_rsa. exact Hin.
Qed.

Lemma nc_false q r' r : In q R -> cont q = Some r' -> first_of r' = first_of r -> nc r = false.
Proof. intros Hin Hc Hf. apply negb_false_iff, is_cont_iff. exists q, r'. repeat split; assumption. Qed.

Lemma nc_true r : (forall q r', In q R -> cont q = Some r' -> first_of r' <> first_of r) -> nc r = true.
Proof.
  intros H. apply negb_true_iff, not_true_iff_false. intros Hex.
  apply is_cont_iff in Hex. destruct Hex as (q & r' & Hin & Hc & Hf). exact (H q r' Hin Hc Hf).
Qed.

Fixpoint is_chain (sg : list run) : Prop :=
  match sg with
  | a :: ((b :: _) as t) => cont (liveR a) = Some (liveR b) /\ is_chain t
  | _ => True
  end.

Lemma is_chain_snoc : forall sg r, is_chain sg ->
  (sg = [] \/ cont (liveR (last sg (0, 0))) = Some (liveR r)) -> is_chain (sg ++ [r]).
Proof.
  induction sg as [|a sg IH]; intros r Hc Hl; [exact I|].
  destruct sg as [|b sg].
  - cbn [app is_chain]. destruct Hl as [Hl|Hl]; [discriminate|]. cbn [last] in Hl. split; [exact Hl|exact I].
  - cbn [is_chain] in Hc. destruct Hc as [H1 H2].
    change ((a :: b :: sg) ++ [r]) with (a :: (b :: sg) ++ [r]).
    change (is_chain (a :: (b :: sg) ++ [r])) with (cont (liveR a) = Some (liveR b) /\ is_chain ((b :: sg) ++ [r])).
    split; [exact H1|]. apply IH; [exact H2|]. right. destruct Hl as [Hl|Hl]; [discriminate|]. exact Hl.
Qed.

(* a sequence of model runs that is a chain of level runs; e_of: its last live position.  A finished sequence
   has no live position at all, or is a chain that no level run continues *)
Definition wfs (sg : list run) : Prop :=
  sg <> [] /\ Forall (fun r => In (liveR r) R /\ liveR r <> []) sg /\ is_chain sg.
Definition e_of (sg : list run) : nat := last_of (liveR (last sg (0, 0))).
Definition done_ok (sg : list run) : Prop :=
  flat_map liveR sg = [] \/
  (wfs sg /\ (is_init (nth (e_of sg) cls0 BN) = true -> matching_pdi cls0 (e_of sg) = None)).
Definition hdl (sg : list run) : list nat := liveR (hd (0, 0) sg).
Definition hasl (sg : list run) : bool := StageRel.nonempty (flat_map liveR sg).

Lemma wfs_hasl sg : wfs sg -> hasl sg = true.
Proof.
  intros [Hne [HF _]]. destruct sg as [|r t]; [congruence|]. inversion HF as [|? ? [_ Hr] _]; subst.
  unfold hasl. cbn [flat_map]. destruct (liveR r); [congruence|reflexivity].
Qed.

Lemma wfs_single r : In (liveR r) R -> liveR r <> [] -> wfs [r].
Proof.
  intros H1 H2. split; [discriminate|]. split; [|exact I]. constructor; [split; assumption|constructor].
Qed.

Lemma wfs_snoc sg r : wfs sg -> In (liveR r) R -> liveR r <> [] ->
  cont (liveR (last sg (0, 0))) = Some (liveR r) -> wfs (sg ++ [r]).
Proof.
  intros [Hne [HF Hc]] H1 H2 H3. split; [destruct sg; discriminate|]. split.
  - apply Forall_app. split; [exact HF|]. constructor; [split; assumption|constructor].
  - apply is_chain_snoc; [exact Hc|right; exact H3].
Qed.

(* the fold after the runs [done], at position pos: the stack holds the pending sequences above the empty
   sequence it starts with, and they end with the initiators of open_ends pos, in this order; the finished
   sequences are done_ok; the level runs that start a sequence are the first runs of the sequences so far *)
Definition Jinv (done : list run) (pos : nat) (stack seqs : list (list run)) : Prop :=
  exists pend, stack = pend ++ [[]] /\ Forall wfs pend /\ map e_of pend = open_ends pos /\
    Forall done_ok seqs /\
    Permutation (map hdl (filter hasl seqs) ++ map hdl pend) (filter nc (runs_live oc done)).

Lemma runs_live_snoc done r :
  runs_live oc (done ++ [r]) =
  runs_live oc done ++ (if StageRel.nonempty (liveR r) then [liveR r] else []).
Proof. unfold runs_live. rewrite map_app, filter_app. reflexivity. Qed.

Lemma perm_push {A} (H P F : list A) x : Permutation (H ++ P) F -> Permutation (H ++ x :: P) (F ++ [x]).
Proof.
  intros HP. eapply Permutation_trans; [apply Permutation_sym; apply Permutation_middle|].
  eapply Permutation_trans; [|apply Permutation_cons_append]. constructor. exact HP.
Qed.

Lemma filter_snoc {A} (f : A -> bool) l x : filter f (l ++ [x]) = filter f l ++ (if f x then [x] else []).
Proof. rewrite filter_app. reflexivity. Qed.

Lemma removed_not_pdi c : not_removed_by_x9 c = false -> (c =c PDI) = false /\ is_isolate_init c = false.
Proof. destruct c; cbn; intros H; try discriminate H; split; reflexivity. Qed.

Lemma hdl_snoc sg r : sg <> [] -> hdl (sg ++ [r]) = hdl sg.
Proof. destruct sg; [congruence|reflexivity]. Qed.

Lemma last_In {A} (l : list A) d : l <> [] -> In (last l d) l.
Proof.
  intros H. destruct (exists_last H) as [l' [x E]]. subst l. rewrite last_last.
  apply in_or_app. right. left. reflexivity.
Qed.

(* the fold at the run (s,en), reached with done before it and rest after it *)
Section Step.
Variables (done rest : list run) (s en : nat) (stack seqs : list (list run)).
Hypothesis HMR : MR = done ++ (s, en) :: rest.
Hypothesis Hsen : s < en.
Hypothesis Henk : en <= k.
Hypothesis Htile : tile_from en k rest.
Hypothesis Hseps : seps (olast (lives 0 s)) ((s, en) :: rest).
Hypothesis HJ : Jinv done s stack seqs.

Lemma r_in_MR : In (s, en) MR.
Proof. rewrite HMR. apply in_or_app. right. left. reflexivity. Qed.

Lemma stack_ne : stack <> [].
Proof. destruct HJ as [pend [-> _]]. destruct pend; discriminate. Qed.

(* only the first run of the paragraph may start at a removed position *)
Lemma rest_live : Forall (fun r => live oc (fst r) = true) rest.
Proof.
  rewrite HMR in Hstl. destruct done; cbn [app tl] in Hstl; [exact Hstl|].
  apply Forall_app in Hstl as [_ H]. exact (Forall_inv_tail H).
Qed.

Lemma s_live_or_first : live oc s = true \/ s = 0.
Proof.
  rewrite HMR in Hstl, HtileMR. destruct done; cbn [app tl tile_from] in Hstl, HtileMR.
  - right. apply HtileMR.
  - left. apply Forall_app in Hstl as [_ H]. exact (Forall_inv H).
Qed.

Lemma step_dead : liveR (s, en) = [] ->
  bd13_fold oc ((s, en) :: rest) stack seqs = bd13_fold oc rest stack (seqs ++ [[(s, en)]]) /\
  Jinv (done ++ [(s, en)]) en stack (seqs ++ [[(s, en)]]).
Proof.
  intros Hd. change (lives s en = []) in Hd.
  assert (Hnl : forall q, s <= q -> q < en -> live oc q = false).
  { intros q H1 H2. destruct (live oc q) eqn:Lq; [|reflexivity].
    assert (Hin : In q (lives s en)) by (apply in_lives; repeat split; assumption).
    rewrite Hd in Hin. destruct Hin. }
  pose proof (Hnl s (le_n _) Hsen) as Ls. unfold live in Ls. destruct (removed_not_pdi _ Ls) as [E1 E2]. split.
  - rewrite (bd13_step_eq oc k oc_len) by (assumption || exact stack_ne).
    rewrite Hd. cbn [olast rev hd_error cls_or]. rewrite E1, E2. reflexivity.
  - destruct HJ as [pend [Hst [Hwf [HG [Hdn HP]]]]].
    exists pend. split; [exact Hst|]. split; [exact Hwf|]. split; [|split].
    + rewrite HG. unfold open_ends. f_equal. symmetry. apply opens_dead; try lia. exact Hnl.
    + apply Forall_app. split; [exact Hdn|]. constructor; [|constructor]. left.
      cbn [flat_map]. rewrite liveR_eq. cbn [fst snd]. rewrite Hd. reflexivity.
    + rewrite filter_snoc, runs_live_snoc, liveR_eq. cbn [fst snd].
      assert (Eh : hasl [(s, en)] = false) by (unfold hasl; cbn [flat_map]; rewrite liveR_eq; cbn [fst snd]; rewrite Hd; reflexivity).
      rewrite Eh, Hd, !app_nil_r. exact HP.
Qed.

(* the run has live positions, the first is p and the last is e *)
Section Live.
Variables p e : nat.
Hypothesis Hp : hd_error (lives s en) = Some p.
Hypothesis He : olast (lives s en) = Some e.

Lemma same_r : forall q, In q (lives s en) -> lvl q = lvl p.
Proof.
  intros q Hq. rewrite (HA (s, en) q r_in_MR Hq).
  rewrite (HA (s, en) p r_in_MR (hd_error_in _ _ Hp)). reflexivity.
Qed.

Lemma lor_e : lor e = true.
Proof.
  cbn [seps] in Hseps. destruct Hseps as [_ Hs2]. rewrite liveR_eq in Hs2 at 1. cbn [fst snd] in Hs2. rewrite He in Hs2.
  unfold lor. rewrite (lives_after_last oc s en k e He Henk). pose proof rest_live as Hnext.
  destruct rest as [|[s' en'] rest']; cbn [tile_from] in Htile.
  - subst en. rewrite lives_dead by (intros; lia). reflexivity.
  - destruct Htile as [-> [Hlt Ht']]. pose proof (tile_le k rest' en' Ht') as Hen'.
    pose proof (Forall_inv Hnext) as Len. cbn [fst] in Len.
    cbn [seps] in Hs2. destruct Hs2 as [Hc _]. rewrite liveR_eq in Hc. cbn [fst snd] in Hc.
    rewrite (lives_cons oc en en' Hlt Len) in Hc. rewrite (lives_cons oc en k) by (lia || exact Len).
    apply negb_true_iff, Nat.eqb_neq. exact Hc.
Qed.

Lemma prev_p : olast (lives 0 p) = olast (lives 0 s).
Proof. f_equal. apply (lives_before_first oc s en 0 p Hp). lia. Qed.

Lemma pdi_start t X : nth p cls0 BN = PDI -> opens cls0 s = t :: X -> lor t = true.
Proof.
  intros Hc Ho. destruct (run_p s en p Hp) as [A1 [A2 [A3 A4]]].
  pose proof (opens_p s en p Henk Hp) as Eo. rewrite Ho in Eo.
  destruct (opens_hd cls0 p t X ltac:(fold k; lia) Eo) as [Htp Hti]. pose proof (init_live t Hti) as Lt.
  pose proof (lives_last oc 0 p) as HL.
  destruct (olast (lives 0 p)) as [p'|] eqn:Ep'; [|rewrite (HL t ltac:(lia) Htp) in Lt; discriminate].
  rewrite (pdi_lor p t X p') by (assumption || lia). apply negb_true_iff, Nat.eqb_neq.
  cbn [seps] in Hseps. destruct Hseps as [Hc1 _]. rewrite liveR_eq in Hc1. cbn [fst snd] in Hc1.
  rewrite Hp, <- prev_p, Ep' in Hc1. intros E. apply Hc1. symmetry. exact E.
Qed.

Lemma p_eq_s : live oc s = true -> p = s.
Proof.
  intros Ls. destruct (run_p s en p Hp) as [A1 _]. pose proof (first_in_le _ _ _ _ s (run_p s en p Hp) (le_n s) Ls). lia.
Qed.

Lemma r_first : first_of (liveR (s, en)) = p.
Proof. apply hd_error_hd. exact Hp. Qed.
Lemma r_last : last_of (liveR (s, en)) = e.
Proof. apply olast_last. exact He. Qed.
Lemma r_ne : liveR (s, en) <> [].
Proof. rewrite liveR_eq. cbn [fst snd]. intros E. rewrite E in Hp. discriminate. Qed.
Lemma r_inR : In (liveR (s, en)) R.
Proof. apply liveR_in_R; [exact r_in_MR|exact r_ne]. Qed.

Lemma e_of_snoc sg : e_of (sg ++ [(s, en)]) = e.
Proof. unfold e_of. rewrite last_last. exact r_last. Qed.

Lemma runs_live_r : runs_live oc (done ++ [(s, en)]) = runs_live oc done ++ [liveR (s, en)].
Proof.
  rewrite runs_live_snoc. pose proof r_ne as H. destruct (liveR (s, en)); [congruence|reflexivity].
Qed.

(* the run is appended to [sequence] (the top of the stack, or nothing); [pend'] stays pending below it *)
Lemma Jinv_live sequence pend' :
  Forall wfs pend' -> wfs (sequence ++ [(s, en)]) ->
  open_ends en = (if is_init (nth e cls0 BN) then [e] else []) ++ map e_of pend' ->
  Forall done_ok seqs ->
  Permutation (map hdl (filter hasl seqs) ++ hdl (sequence ++ [(s, en)]) :: map hdl pend')
              (filter nc (runs_live oc (done ++ [(s, en)]))) ->
  Jinv (done ++ [(s, en)]) en
       (if is_init (nth e cls0 BN) then (sequence ++ [(s, en)]) :: pend' ++ [[]] else pend' ++ [[]])
       (if is_init (nth e cls0 BN) then seqs else seqs ++ [sequence ++ [(s, en)]]).
Proof.
  intros Hwf Hw HGe Hdn HP. destruct (is_init (nth e cls0 BN)) eqn:Eie.
  - exists ((sequence ++ [(s, en)]) :: pend'). split; [reflexivity|]. split; [constructor; assumption|].
    split; [cbn [map]; rewrite HGe, e_of_snoc; reflexivity|]. split; [exact Hdn|exact HP].
  - exists pend'. split; [reflexivity|]. split; [exact Hwf|]. split; [rewrite HGe; reflexivity|]. split.
    + apply Forall_app. split; [exact Hdn|]. constructor; [|constructor]. right. split; [exact Hw|].
      rewrite e_of_snoc, Eie. discriminate.
    + rewrite filter_snoc, (wfs_hasl _ Hw), map_app, <- app_assoc. exact HP.
Qed.

Lemma fold_if (b : bool) stackA seqsA stackB seqsB :
  (if b then bd13_fold oc rest stackA seqsA else bd13_fold oc rest stackB seqsB) =
  bd13_fold oc rest (if b then stackA else stackB) (if b then seqsA else seqsB).
Proof. destruct b; reflexivity. Qed.

Lemma step_live :
  exists stack' seqs',
    bd13_fold oc ((s, en) :: rest) stack seqs = bd13_fold oc rest stack' seqs' /\
    Jinv (done ++ [(s, en)]) en stack' seqs'.
Proof.
  pose proof HJ as [pend [Hst [Hwf [HG [Hdn HP]]]]].
  rewrite (bd13_step_eq oc k oc_len) by (assumption || exact stack_ne). rewrite He. cbn [cls_or].
  pose proof (init_reported cls0 e) as Eec. fold oc in Eec. rewrite Eec. clear Eec.
  destruct ((nth s oc BN =c PDI) && (1 <? length stack)) eqn:Hcond.
  - (* the run continues the pending sequence on top of the stack: its PDI closes the initiator that sequence
       ends with *)
    apply andb_true_iff in Hcond as [Hc1 Hc2]. unfold oc in Hc1. rewrite pdi_reported in Hc1. apply ceq_eq in Hc1.
    pose proof (p_eq_s (pdi_live s Hc1)) as Eps.
    rewrite Hst in Hc2 |- *. destruct pend as [|top below]; [discriminate|]. cbn [app hd tl map] in *.
    destruct (Forall_inv Hwf) as [Htne [HtF Htc]].
    unfold open_ends in HG. destruct (opens cls0 s) as [|t X] eqn:Eo; [discriminate HG|].
    cbn [filter] in HG. rewrite (pdi_start t X) in HG by (rewrite ?Eps; assumption || reflexivity). injection HG as Et Eb.
    destruct (opens_hd cls0 s t X ltac:(fold k; lia) Eo) as [Hts Hti].
    assert (Hcont : cont (liveR (last top (0, 0))) = Some (liveR (s, en))).
    { apply cont_intro; try (change (last_of (liveR (last top (0, 0)))) with (e_of top); rewrite Et).
      - lia.
      - exact Hti.
      - rewrite r_first, Eps. exact (pop_matching cls0 t s X ltac:(fold k; lia) Hc1 Eo).
      - exact r_inR. }
    assert (HinR : In (liveR (last top (0, 0))) R).
    { rewrite Forall_forall in HtF. apply (HtF (last top (0, 0))), last_In, Htne. }
    rewrite fold_if. eexists _, _. split; [reflexivity|].
    apply (Jinv_live top below); [exact (Forall_inv_tail Hwf)| | |exact Hdn|].
    + apply wfs_snoc; [exact (Forall_inv Hwf)|exact r_inR|exact r_ne|exact Hcont].
    + rewrite (open_ends_run s en p e Hsen Henk Hp He same_r lor_e), Eps, Hc1, Eo. cbn [ceq bclass_beq tl]. rewrite Eb. reflexivity.
    + rewrite runs_live_r, filter_snoc, (nc_false _ _ (liveR (s, en)) HinR Hcont eq_refl), app_nil_r.
      rewrite hdl_snoc by exact Htne. exact HP.
  - (* the run starts a new sequence: no initiator is waiting for a PDI at p *)
    assert (Hno : forall t X, nth p cls0 BN = PDI -> opens cls0 s = t :: X -> False).
    { intros t X Hc Ho. pose proof (pdi_start t X Hc Ho) as Hl.
      destruct s_live_or_first as [Ls|E0]; [|rewrite E0 in Ho; discriminate Ho].
      pose proof (p_eq_s Ls) as Eps. rewrite Eps in Hc.
      unfold oc in Hcond. rewrite pdi_reported, Hc in Hcond. cbn [ceq bclass_beq andb] in Hcond. apply Nat.ltb_ge in Hcond.
      rewrite Hst, app_length in Hcond. cbn [length] in Hcond. destruct pend; [|cbn [length] in Hcond; lia].
      unfold open_ends in HG. rewrite Ho in HG. cbn [filter map] in HG. rewrite Hl in HG. discriminate HG. }
    rewrite fold_if. eexists _, _. split; [reflexivity|].
    rewrite Hst. apply (Jinv_live [] pend); [exact Hwf|exact (wfs_single (s, en) r_inR r_ne)| |exact Hdn|].
    + rewrite (open_ends_run s en p e Hsen Henk Hp He same_r lor_e), HG. f_equal. unfold open_ends.
      destruct (nth p cls0 BN =c PDI) eqn:Ec; [|reflexivity]. apply ceq_eq in Ec.
      destruct (opens cls0 s) as [|t X] eqn:Eo; [reflexivity|]. destruct (Hno t X Ec eq_refl).
    + assert (Hnc : nc (liveR (s, en)) = true).
      { apply nc_true. intros q r' Hq Hc Hf. destruct (cont_inv q r' Hc) as [Ht [Hi [Hm _]]].
        rewrite Hf, r_first in Hm. pose proof (matching_open cls0 (last_of q) Ht Hi) as H. rewrite Hm in H.
        destruct H as [H1 [H2 [H3 H4]]]. rewrite (opens_p s en p Henk Hp) in H4. exact (Hno _ _ H3 H4). }
      rewrite runs_live_r, filter_snoc, Hnc. apply perm_push. exact HP.
Qed.

End Live.

End Step.

Lemma filter_len_pend (pend : list (list run)) : Forall wfs pend ->
  filter (fun sg => negb (length sg =? 0)) (pend ++ [[]]) = pend.
Proof.
  intros H. rewrite filter_app. cbn [filter length Nat.eqb negb]. rewrite app_nil_r.
  apply filter_all. intros sg Hin. rewrite Forall_forall in H. destruct (H sg Hin) as [Hne _].
  destruct sg; [congruence|reflexivity].
Qed.

Lemma bd13_inv : forall rest done pos stack seqs out,
  MR = done ++ rest -> tile_from pos k rest ->
  seps (olast (lives 0 pos)) rest ->
  Jinv done pos stack seqs ->
  bd13_fold oc rest stack seqs = Ok out ->
  Forall done_ok out /\ Permutation (map hdl (filter hasl out)) (filter nc R).
Proof.
  induction rest as [|[s en] rest IH]; intros done pos stack seqs out HMR Ht Hseps HJ Hout.
  - cbn [bd13_fold] in Hout. cbn [tile_from] in Ht. subst pos.
    destruct HJ as [pend [Hs [Hwf [HG [Hdn HP]]]]]. rewrite Hs, (filter_len_pend pend Hwf) in Hout.
    injection Hout as <-. rewrite app_nil_r in HMR. subst done. rewrite HR in HP. split.
    + apply Forall_app. split; [exact Hdn|]. apply Forall_forall. intros sg Hin. right.
      rewrite Forall_forall in Hwf. split; [apply Hwf; exact Hin|]. intros _.
      apply open_end_unmatched. fold k.
      assert (Hi : In (e_of sg) (open_ends k)) by (rewrite <- HG; apply in_map; exact Hin).
      unfold open_ends in Hi. apply filter_In in Hi. apply Hi.
    + rewrite filter_app, map_app.
      rewrite (filter_all hasl pend); [exact HP|].
      intros sg Hin. apply wfs_hasl. rewrite Forall_forall in Hwf. apply Hwf; exact Hin.
  - cbn [tile_from] in Ht. destruct Ht as [Es [Hlt Ht]]. subst pos.
    pose proof (tile_le k rest en Ht) as Hen.
    assert (HMR' : MR = (done ++ [(s, en)]) ++ rest) by (rewrite <- app_assoc; exact HMR).
    assert (Hseps' : seps (olast (lives 0 en)) rest).
    { cbn [seps] in Hseps. destruct Hseps as [_ H2]. rewrite liveR_eq in H2 at 1. cbn [fst snd] in H2.
      rewrite (lives_app oc 0 s en), olast_app by lia. exact H2. }
    destruct (liveR (s, en)) as [|x l] eqn:El.
    + destruct (step_dead done rest s en stack seqs Hlt Hen HJ El) as [Hf HJ'].
      apply (IH (done ++ [(s, en)]) en stack (seqs ++ [[(s, en)]]) out); try assumption.
      rewrite <- Hf. exact Hout.
    + destruct (nonempty_hd_last (liveR (s, en))) as [p [e [Hp He]]]; [rewrite El; reflexivity|].
      destruct (step_live done rest s en stack seqs HMR Hlt Hen Ht Hseps HJ p e Hp He) as [stack' [seqs' [Hf HJ']]].
      apply (IH (done ++ [(s, en)]) en stack' seqs' out); try assumption.
      rewrite <- Hf. exact Hout.
Qed.

Lemma chain_flat : forall sg f, sg <> [] -> is_chain sg -> cont (liveR (last sg (0, 0))) = None ->
  length sg <= S f -> chain f cls0 R (liveR (hd (0, 0) sg)) = flat_map liveR sg.
Proof.
  induction sg as [|a sg IH]; intros f Hne Hc Hl Hf; [congruence|].
  destruct sg as [|b sg].
  - cbn [hd flat_map last] in *. rewrite app_nil_r. destruct f; cbn [chain]; [reflexivity|].
    unfold cont in Hl. rewrite Hl. reflexivity.
  - cbn [length] in Hf. destruct f as [|f]; [lia|]. cbn [is_chain] in Hc. destruct Hc as [H1 H2].
    cbn [hd chain]. unfold cont in H1. rewrite H1.
    change (flat_map liveR (a :: b :: sg)) with (liveR a ++ flat_map liveR (b :: sg)). f_equal.
    apply (IH f); [discriminate|exact H2|exact Hl|cbn [length]; lia].
Qed.

Lemma live_idx_flat sq : live_idx oc sq = flat_map liveR (irs_runs sq).
Proof. unfold live_idx, seq_idx. apply filter_flat_map. Qed.

Lemma last_app_ne {A} (a b : list A) d : b <> [] -> last (a ++ b) d = last b d.
Proof.
  intros H. destruct (exists_last H) as [b' [x E]]. subst b. rewrite app_assoc, !last_last. reflexivity.
Qed.

Lemma flat_map_last (sg : list run) : sg <> [] -> liveR (last sg (0, 0)) <> [] ->
  last_of (flat_map liveR sg) = last_of (liveR (last sg (0, 0))).
Proof.
  intros Hne Hl. destruct (exists_last Hne) as [sg' [r E]]. subst sg. rewrite last_last in *.
  rewrite flat_map_app. cbn [flat_map]. rewrite app_nil_r. unfold last_of. apply last_app_ne. exact Hl.
Qed.

Lemma flat_map_first (sg : list run) : liveR (hd (0, 0) sg) <> [] ->
  first_of (flat_map liveR sg) = first_of (liveR (hd (0, 0) sg)).
Proof.
  destruct sg as [|r t]; cbn [hd flat_map]; [reflexivity|]. intros H.
  destruct (liveR r); [congruence|reflexivity].
Qed.

Lemma done_cont sg : wfs sg ->
  (is_init (nth (e_of sg) cls0 BN) = true -> matching_pdi cls0 (e_of sg) = None) ->
  cont (liveR (last sg (0, 0))) = None.
Proof.
  intros Hw Hm. unfold cont, continuation. change (last_of (liveR (last sg (0, 0)))) with (e_of sg).
  destruct (is_init (snth cls0 (e_of sg) ON)) eqn:Ei; [|reflexivity]. unfold snth in Ei.
  assert (Ht : e_of sg < k).
  { destruct (Nat.lt_ge_cases (e_of sg) k) as [Hl|Hl]; [exact Hl|].
    rewrite nth_overflow in Ei by (fold k; lia). discriminate. }
  rewrite (nth_indep cls0 ON BN) in Ei by (fold k; lia). rewrite (Hm Ei). reflexivity.
Qed.

Lemma seq3_of_done sg : wfs sg ->
  (is_init (nth (e_of sg) cls0 BN) = true -> matching_pdi cls0 (e_of sg) = None) ->
  Forall (run_in k) sg -> length sg <= S (length R) ->
  (flat_map liveR sg, irs_sos (general_seq sg), irs_eos (general_seq sg)) =
  spec3 (chain (length R) cls0 R (hdl sg)).
Proof.
  intros Hw Hm Hin Hlen. pose proof Hw as [Hne [HF Hc]].
  assert (Hh : liveR (hd (0, 0) sg) <> []).
  { destruct sg as [|r t]; [congruence|]. cbn [hd]. apply (Forall_inv HF). }
  assert (Hl : liveR (last sg (0, 0)) <> []).
  { rewrite Forall_forall in HF. apply (HF (last sg (0, 0))). apply last_In. exact Hne. }
  destruct (nonempty_hd_last (liveR (hd (0, 0) sg))) as [f [_ [Hf _]]].
  { destruct (liveR (hd (0, 0) sg)); [congruence|reflexivity]. }
  destruct (nonempty_hd_last (liveR (last sg (0, 0)))) as [_ [l [_ Hll]]].
  { destruct (liveR (last sg (0, 0))); [congruence|reflexivity]. }
  destruct (general_one_spec sg f l Hne Hin Hf Hll) as [Esos Eeos].
  unfold hdl. rewrite (chain_flat sg (length R) Hne Hc (done_cont sg Hw Hm) Hlen). unfold spec3.
  assert (Lf : live oc f = true) by (apply hd_error_in in Hf; apply in_lives in Hf; apply Hf).
  assert (Ll : live oc l = true) by (apply olast_in in Hll; apply in_lives in Hll; apply Hll).
  assert (Ef : first_of (flat_map liveR sg) = f).
  { rewrite (flat_map_first sg Hh). apply hd_error_hd. exact Hf. }
  assert (El : last_of (flat_map liveR sg) = l).
  { rewrite (flat_map_last sg Hne Hl). apply olast_last. exact Hll. }
  assert (Eel : e_of sg = l) by (unfold e_of; apply olast_last; exact Hll).
  rewrite (seq_sos_lives _ f Ef Lf), (seq_eos_lives _ l El Ll), Esos, Eeos. f_equal. f_equal. f_equal.
  pose proof (live_lt oc l Ll) as Hlk. rewrite oc_len in Hlk.
  unfold snth. rewrite (nth_indep cls0 ON BN) by (fold k; lia).
  pose proof (init_reported cls0 l) as Ei. fold oc in Ei. rewrite Ei.
  destruct (is_init (nth l cls0 BN)) eqn:Eil; [|reflexivity].
  rewrite Eel in Hm. rewrite (Hm Eil). reflexivity.
Qed.

Lemma model_of_out : forall out,
  Forall done_ok out -> Forall (fun sg => Forall (run_in k) sg /\ length sg <= S (length R)) out ->
  model_seq3 oc (map general_seq out) =
  map (fun sg => spec3 (chain (length R) cls0 R (hdl sg))) (filter hasl out).
Proof.
  induction out as [|sg out IH]; intros Hd Hb; [reflexivity|].
  cbn [map]. rewrite model_seq3_cons, (IH (Forall_inv_tail Hd) (Forall_inv_tail Hb)).
  cbn [filter]. rewrite live_idx_flat. cbn [SeqModel.general_seq irs_runs]. fold (hasl sg).
  destruct (hasl sg) eqn:Eh; [|reflexivity]. cbn [map app]. f_equal.
  destruct (Forall_inv Hd) as [He|[Hw Hm]].
  - unfold hasl in Eh. rewrite He in Eh. discriminate.
  - destruct (Forall_inv Hb) as [Hin Hlen]. apply seq3_of_done; assumption.
Qed.

Lemma length_MR : length MR <= S (length R).
Proof.
  rewrite <- HR. pose proof (tile_run_in k MR 0 HtileMR) as Hin.
  destruct MR as [|r0 t]; [cbn; lia|]. cbn [tl] in Hstl. cbn [length].
  unfold runs_live. cbn [map filter].
  assert (E : filter StageRel.nonempty (map (fun r => filter (live oc) (run_range r)) t) =
              map (fun r => filter (live oc) (run_range r)) t).
  { apply filter_all. intros x Hx. apply in_map_iff in Hx. destruct Hx as [r [<- Hr]].
    rewrite Forall_forall in Hstl, Hin. pose proof (Hstl r Hr) as Lr.
    destruct (Hin r (or_intror Hr)) as [H1 H2].
    assert (Hi : In (fst r) (filter (live oc) (run_range r))).
    { apply in_lives. split; [lia|]. split; [lia|exact Lr]. }
    destruct (filter (live oc) (run_range r)); [destruct Hi|reflexivity]. }
  rewrite E. destruct (StageRel.nonempty (filter (live oc) (run_range r0))); cbn [length];
    rewrite map_length; lia.
Qed.

Lemma length_in_concat {A} (x : list A) l : In x l -> length x <= length (concat l).
Proof.
  induction l as [|y t IH]; intros H; [destruct H|]. cbn [concat]. rewrite app_length.
  destruct H as [->|H]; [lia|]. apply IH in H. lia.
Qed.

Lemma general_path sqs :
  isolating_run_sequences pl oc lv MR true = Ok sqs ->
  Permutation (model_seq3 oc sqs) (spec_seq3 cls0 xlv pl).
Proof.
  intros H. pose proof H as H'. unfold isolating_run_sequences in H'. cbn [negb] in H'.
  apply bind_ok in H' as [out [Hout _]].
  destruct (bd13_total oc k oc_len MR 0 [[]] [] HtileMR) as [out' [Ho' [Hg [Hn Hp]]]];
    [discriminate|constructor; [apply good_nil|constructor]|constructor|constructor|].
  rewrite Hout in Ho'. injection Ho' as <-. cbn [concat app] in Hp. rewrite Forall_forall in Hg, Hn.
  rewrite (sequences_general_eq pl oc lv k oc_len Hlv MR out Hout) in H.
  2:{ apply Forall_forall. intros sg Hsg. split; [apply Hn, Hsg|apply good_run_in, Hg, Hsg]. }
  injection H as <-.
  pose proof (level_runs_adj xlv (remaining cls0)) as Hadj. fold R in Hadj.
  destruct (bd13_inv MR [] 0 [[]] [] out eq_refl HtileMR) as [Hd HP]; try exact Hout.
  { cbn. apply seps_none. rewrite <- HR in Hadj. exact Hadj. }
  { exists []. split; [reflexivity|]. split; [constructor|]. split; [reflexivity|].
    split; [constructor|]. cbn. apply perm_nil. }
  rewrite (model_of_out out Hd).
  2:{ apply Forall_forall. intros sg Hin. split; [apply good_run_in, Hg, Hin|].
      pose proof (length_in_concat sg out Hin) as H1. rewrite (Permutation_length Hp) in H1.
      pose proof length_MR. lia. }
  unfold spec_seq3. rewrite isolating_nc.
  rewrite <- (map_map hdl (fun r => spec3 (chain (length R) cls0 R r))).
  rewrite <- (map_map (chain (length R) cls0 R) spec3).
  apply Permutation_map. apply Permutation_map. exact HP.
Qed.

End Para.

Lemma noinit_nth oc : forallb (fun c => negb (is_isolate_init c)) oc = true ->
  forall i, is_isolate_init (nth i oc BN) = false.
Proof.
  intros H i. destruct (Nat.lt_ge_cases i (length oc)) as [Hi|Hi].
  - rewrite forallb_forall in H. apply negb_true_iff, H, nth_In, Hi.
  - rewrite nth_overflow by exact Hi. reflexivity.
Qed.

(* without isolate controls the model takes the fast path; there are then no isolate initiators, and the
   fast path returns what the general path returns *)
Theorem cs_sequences_proof : CS_sequences.
Proof.
  intros cls0 pl lv runs has_iso seqs H. unfold cs_sequences_hyps in H. cbv zeta in H.
  destruct H as (_ & Hsp & Hlv & _ & Ht & Hag & Hbd). cbv zeta. intros Hno Hm.
  apply runs_bd7_iff in Hbd as (Hb1 & Hb2 & Hb3).
  apply (general_path cls0 pl lv Hsp Hlv Hag runs Hb1); try assumption; [|apply Forall_forall, Hb3|].
  - intros r q Hr Hq.
    assert (Lq : live (reported_classes cls0) q = true) by (apply in_lives in Hq; apply Hq).
    pose proof (lev_live cls0 pl lv Hlv Hag q Lq) as Hl. unfold CSSeqOpen.lev, CSSeqOpen.xlev in Hl.
    rewrite (Hb2 r q Hr Hq) in Hl. injection Hl as Hl. symmetry. exact Hl.
  - destruct has_iso; [exact Hm|]. rewrite <- Hm.
    apply (sequences_noinit pl _ lv _ (reported_length cls0) Hlv (noinit_nth _ (Hno eq_refl))).
    apply (tile_run_in _ _ 0 Ht).
Qed.

Theorem cs_sequences_alt_proof : CS_sequences_alt.
Proof. intros cls0 pl lv runs has_iso seqs H _. exact (cs_sequences_proof cls0 pl lv runs has_iso seqs H). Qed.

Theorem cs_sequences_fast_proof : CS_sequences_fast.
Proof.
  intros cls0 pl lv runs seqs H oc Hno. exact (cs_sequences_proof cls0 pl lv runs false seqs H (fun _ => Hno)).
Qed.
