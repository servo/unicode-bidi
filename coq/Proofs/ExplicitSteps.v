(* Proofs/ExplicitSteps.v — one step of X1-X8 of the specification (Spec.x_step), by kind of character:
   the new state [xs_of] and the level [xl_of] it assigns for a character that changes nothing, a BN, an
   isolate initiator, a PDI, an embedding or override initiator, a PDF; what [pop_isolate] removes; the shape of
   [x_run]; the reported classes and [x_classes] position by position. *)
From BidiVerif Require Import Base Spec.

Section XStep.
Variable cls0 : list bclass.
Variable pl : nat.

Definition xs_of (s : xstate) (i : nat) (c : bclass) : xstate := fst (fst (x_step cls0 pl s i c)).
Definition xl_of (s : xstate) (i : nat) (c : bclass) : option nat := snd (fst (x_step cls0 pl s i c)).

Definition slev (e : sentry) : nat := fst (fst e).
Definition siso (e : sentry) : bool := snd e.
Definition toplev (st : list sentry) : nat := slev (top_of st pl).

(* the test of x_step for pushing an entry of level nl (X2-X5c) *)
Definition room (nl : nat) (s : xstate) : bool := (nl <=? max_depth_spec) && (x_oi s =? 0) && (x_oe s =? 0).

Lemma room_oi nl s : room nl s = true -> x_oi s = 0.
Proof.
  unfold room. intros H. apply andb_true_iff in H as [H _]. apply andb_true_iff in H as [_ H].
  apply Nat.eqb_eq. exact H.
Qed.

Lemma next_odd_gt l : l < next_odd l.
Proof. unfold next_odd. destruct (Nat.even l); lia. Qed.
Lemma next_even_gt l : l < next_even l.
Proof. unfold next_even. destruct (Nat.even l); lia. Qed.

Definition is_emb (c : bclass) : bool := match c with RLE | LRE | RLO | LRO => true | _ => false end.
Definition is_plain (c : bclass) : bool :=
  match c with RLE | LRE | RLO | LRO | RLI | LRI | FSI | PDI | PDF | B | BN => false | _ => true end.

(* In each proof the class is fixed before [x_step] is unfolded, so that only its branch for that class is
   ever written out. *)
Lemma step_plain s i c : is_plain c = true ->
  xs_of s i c = s /\ xl_of s i c = Some (toplev (x_stack s)).
Proof.
  intros H. unfold xs_of, xl_of, toplev, slev.
  destruct c; try discriminate H; unfold x_step; cbn [ceq bclass_beq];
    destruct (top_of (x_stack s) pl) as [[tl_ to] fl]; split; reflexivity.
Qed.

Lemma step_bn s i : xs_of s i BN = s /\ xl_of s i BN = None.
Proof.
  unfold xs_of, xl_of, x_step. cbn [ceq bclass_beq]. destruct (top_of (x_stack s) pl) as [[tl_ to] fl].
  split; reflexivity.
Qed.

Lemma step_init s i c : is_init c = true ->
  xl_of s i c = Some (toplev (x_stack s)) /\
  exists nl, toplev (x_stack s) < nl /\
    xs_of s i c =
    if room nl s
    then {| x_stack := (nl, ONone, true) :: x_stack s; x_oi := x_oi s; x_oe := x_oe s; x_vi := S (x_vi s) |}
    else {| x_stack := x_stack s; x_oi := S (x_oi s); x_oe := x_oe s; x_vi := x_vi s |}.
Proof.
  intros H. unfold xs_of, xl_of, toplev, slev.
  assert (Hc : c = LRI \/ c = RLI \/ c = FSI) by (destruct c; try discriminate H; auto).
  destruct Hc as [-> | [-> | ->]]; unfold x_step; cbn [ceq bclass_beq].
  3: destruct (fsi_strong cls0 i) as [[]|].
  all: destruct (top_of (x_stack s) pl) as [[tl_ to] fl]; cbn [fst snd]; split; [reflexivity|].
  all: first [exists (next_odd tl_); split; [apply next_odd_gt|reflexivity]
             |exists (next_even tl_); split; [apply next_even_gt|reflexivity]].
Qed.

Lemma step_pdi s i :
  let s' := if 0 <? x_oi s
            then {| x_stack := x_stack s; x_oi := x_oi s - 1; x_oe := x_oe s; x_vi := x_vi s |}
            else if x_vi s =? 0 then s
            else {| x_stack := pop_isolate (x_stack s); x_oi := x_oi s; x_oe := 0; x_vi := x_vi s - 1 |} in
  xs_of s i PDI = s' /\ xl_of s i PDI = Some (toplev (x_stack s')).
Proof.
  cbv zeta. unfold xs_of, xl_of, x_step, toplev, slev. cbn [ceq bclass_beq].
  destruct (top_of (x_stack s) pl) as [[tl_ to] fl].
  match goal with |- context [top_of (x_stack ?S') pl] => destruct (top_of (x_stack S') pl) as [[t2 o2] f2] end.
  cbn [fst snd]. split; reflexivity.
Qed.

(* [r] is what [x_step] returns for an embedding or override initiator *)
Lemma emb_push s (top : sentry) nl o (c : bclass) : slev top < nl ->
  let r := if room nl s
           then ({| x_stack := (nl, o, false) :: x_stack s; x_oi := x_oi s; x_oe := x_oe s; x_vi := x_vi s |}, @None nat, c)
           else ({| x_stack := x_stack s; x_oi := x_oi s;
                    x_oe := if x_oi s =? 0 then S (x_oe s) else x_oe s; x_vi := x_vi s |}, None, c) in
  snd (fst r) = None /\
  ((x_oi s = 0 /\ exists e, siso e = false /\ slev top < slev e /\
     x_stack (fst (fst r)) = e :: x_stack s /\ x_oi (fst (fst r)) = 0 /\ x_vi (fst (fst r)) = x_vi s) \/
   (x_stack (fst (fst r)) = x_stack s /\ x_oi (fst (fst r)) = x_oi s /\ x_vi (fst (fst r)) = x_vi s)).
Proof.
  intros Hnl. cbv zeta.
  destruct (room nl s) eqn:Eb; cbn [fst snd x_stack x_oi x_vi].
  - split; [reflexivity|]. left. pose proof (room_oi nl s Eb) as Eoi.
    split; [exact Eoi|]. exists (nl, o, false). repeat split; assumption.
  - split; [reflexivity|]. right. repeat split.
Qed.

Lemma step_emb s i c : is_emb c = true ->
  xl_of s i c = None /\
  ((x_oi s = 0 /\ exists e, siso e = false /\ toplev (x_stack s) < slev e /\
      x_stack (xs_of s i c) = e :: x_stack s /\ x_oi (xs_of s i c) = 0 /\ x_vi (xs_of s i c) = x_vi s) \/
   (x_stack (xs_of s i c) = x_stack s /\ x_oi (xs_of s i c) = x_oi s /\ x_vi (xs_of s i c) = x_vi s)).
Proof.
  intros H. assert (Hc : c = LRE \/ c = LRO \/ c = RLE \/ c = RLO) by (destruct c; try discriminate H; auto).
  unfold xs_of, xl_of, toplev.
  destruct Hc as [-> | [-> | [-> | ->]]]; unfold x_step; cbn [ceq bclass_beq];
    destruct (top_of (x_stack s) pl) as [[tl_ to] fl]; apply emb_push;
    first [exact (next_even_gt tl_) | exact (next_odd_gt tl_)].
Qed.

Lemma step_pdf s i :
  xl_of s i PDF = None /\ x_oi (xs_of s i PDF) = x_oi s /\ x_vi (xs_of s i PDF) = x_vi s /\
  (x_stack (xs_of s i PDF) = x_stack s \/
   (x_oi s = 0 /\ exists e, siso e = false /\ x_stack s = e :: x_stack (xs_of s i PDF) /\
                           x_stack (xs_of s i PDF) <> [])).
Proof.
  unfold xs_of, xl_of, x_step. cbn [ceq bclass_beq]. destruct (top_of (x_stack s) pl) as [[tl_ to] fl].
  cbn [fst snd]. split; [reflexivity|].
  destruct (0 <? x_oi s) eqn:E1; [repeat split; left; reflexivity|].
  destruct (0 <? x_oe s) eqn:E2; [repeat split; left; reflexivity|].
  apply Nat.ltb_ge in E1.
  destruct (x_stack s) as [|[[l o] [|]] [|b below]] eqn:Est; cbn [x_stack x_oi x_vi];
    try (repeat split; left; try rewrite Est; reflexivity).
  repeat split. right. split; [lia|]. exists (l, o, false). repeat split. discriminate.
Qed.

Lemma x_run_cons s i c r :
  x_run cls0 pl s i (c :: r) =
  (xl_of s i c :: fst (x_run cls0 pl (xs_of s i c) (S i) r),
   snd (x_step cls0 pl s i c) :: snd (x_run cls0 pl (xs_of s i c) (S i) r)).
Proof.
  unfold xs_of, xl_of. cbn [x_run]. destruct (x_step cls0 pl s i c) as [[s' lv] k]. cbn [fst snd].
  destruct (x_run cls0 pl s' (S i) r). reflexivity.
Qed.

Lemma x_run_length l : forall s i,
  length (fst (x_run cls0 pl s i l)) = length l /\ length (snd (x_run cls0 pl s i l)) = length l.
Proof.
  induction l as [|c r IH]; intros s i; [split; reflexivity|].
  rewrite x_run_cons. cbn [fst snd length]. destruct (IH (xs_of s i c) (S i)) as [-> ->]. split; reflexivity.
Qed.
End XStep.

Fixpoint count_iso (st : list sentry) : nat :=
  match st with
  | [] => 0
  | e :: r => (if siso e then 1 else 0) + count_iso r
  end.

Lemma count_iso_emb e st : siso e = false -> count_iso (e :: st) = count_iso st.
Proof. intros He. cbn [count_iso]. rewrite He. reflexivity. Qed.

Lemma pop_isolate_count (ce r : list sentry) : 0 < count_iso ce ->
  pop_isolate (ce ++ r) = pop_isolate ce ++ r /\ count_iso (pop_isolate ce) = count_iso ce - 1 /\
  (forall P, Forall P ce -> Forall P (pop_isolate ce)).
Proof.
  induction ce as [|[[l o] b] ce IH]; intros H; [cbn in H; lia|].
  cbn [app pop_isolate count_iso siso snd] in *.
  destruct b.
  - split; [reflexivity|]. split; [lia|]. intros P HP. inversion HP; assumption.
  - destruct (IH ltac:(lia)) as (A & B & C). split; [exact A|]. split; [exact B|].
    intros P HP. inversion HP; subst. apply C. assumption.
Qed.

Lemma pop_isolate_noiso (ce : list sentry) (e : sentry) r : count_iso ce = 0 -> siso e = true -> pop_isolate (ce ++ e :: r) = r.
Proof.
  induction ce as [|[[l o] b] ce IH]; intros H He.
  - destruct e as [[l o] b]. cbn in He. subst b. reflexivity.
  - cbn [count_iso siso snd] in H. destruct b; [lia|]. cbn [app pop_isolate]. apply IH; [lia|exact He].
Qed.

(* the reported classes: an FSI that X5c resolves reads LRI or RLI *)
Definition rep (cls0 : list bclass) (i : nat) (c : bclass) : bclass :=
  if c =c FSI then match fsi_strong cls0 i with Some L => LRI | Some _ => RLI | None => FSI end else c.

Lemma reported_map cls0 : forall l j,
  map (fun ic : nat * bclass => let '(i, c) := ic in
         if c =c FSI then match fsi_strong cls0 i with Some L => LRI | Some _ => RLI | None => FSI end
         else c) (combine (seq j (length l)) l) = map (fun ic => rep cls0 (fst ic) (snd ic)) (combine (seq j (length l)) l).
Proof. intros. apply map_ext. intros [i c]. reflexivity. Qed.

Lemma reported_length cls0 : length (reported_classes cls0) = length cls0.
Proof. unfold reported_classes. rewrite map_length, combine_length, seq_length. apply Nat.min_id. Qed.

(* any default but FSI will do: [rep] leaves it alone *)
Lemma nth_reported cls0 i d : (d =c FSI) = false ->
  nth i (reported_classes cls0) d = rep cls0 i (nth i cls0 d).
Proof.
  intros Hd. destruct (Nat.lt_ge_cases i (length cls0)) as [H|H].
  - unfold reported_classes. rewrite (reported_map cls0 cls0 0).
    rewrite (nth_indep _ d (rep cls0 (fst (0, d)) (snd (0, d)))) by (rewrite map_length, combine_length, seq_length, Nat.min_id; exact H).
    rewrite (map_nth (fun ic : nat * bclass => rep cls0 (fst ic) (snd ic))), combine_nth by apply seq_length.
    rewrite seq_nth by exact H. reflexivity.
  - rewrite !nth_overflow by (rewrite ?reported_length; exact H). unfold rep. rewrite Hd. reflexivity.
Qed.

Lemma x_classes_nth cls0 xcls i : length xcls = length cls0 ->
  nth i (x_classes cls0 xcls) ON =
  match nth i xcls ON with FSI => nth i (reported_classes cls0) BN | k => k end.
Proof.
  intros HL. unfold x_classes.
  set (phi := fun p : bclass * bclass => match fst p with FSI => snd p | k => k end).
  change ON with (phi (ON, BN)) at 1. rewrite map_nth.
  rewrite combine_nth by (rewrite reported_length; exact HL). unfold phi. cbn [fst snd]. reflexivity.
Qed.

Lemma resolve_paragraph_fst cls brk d : fst (resolve_paragraph cls brk d) = para_level cls d.
Proof. unfold resolve_paragraph. destruct (explicit_levels cls (para_level cls d)). reflexivity. Qed.
