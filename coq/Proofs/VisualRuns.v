(* Proofs/VisualRuns.v — C05: visual_runs_for_line (run-level L2) against the element-level
   reference Spec.l2, together with the structural checks of Judge.v (cover, uniform+maximal).
   The runs are read as blocks of elements (index, level); a pass over the run list is a pass of
   Spec.rev_runs_ge over the flattened blocks ([bstep_flat], [rrs_spec]), so the loop computes
   l2_down on the line's elements ([loop_spec]), which is Spec.l2 whatever the range of passes
   (ReorderSpec.l2_down_normal). *)
From BidiVerif Require Import Base ModelText ModelResolve ModelLine Spec Judge Stmts.
From BidiVerif.Proofs Require Import ListLib.
From BidiVerif.Proofs Require Import LevelOps ReorderSpec.
From Coq Require Import Permutation.

Local Notation elt := (nat * nat)%type.

Lemma l2_down_Forall (P : elt -> Prop) K lo : forall xs, Forall P xs -> Forall P (l2_down K lo xs).
Proof. apply l2_down_keeps. Qed.

(* lo' - 1 is even; the subtraction truncates only for l < lo' - 1, and such l are even, like 0 *)
Lemma parity_below lo' l : Nat.odd lo' = true -> (Nat.odd l = true -> lo' <= l) ->
  Nat.odd (l - (lo' - 1)) = Nat.odd l.
Proof.
  intros O H. apply Nat.odd_spec in O as [q ->]. destruct (le_lt_dec (2 * q + 1) l) as [A|A].
  - replace l with (l - (2 * q + 1 - 1) + 2 * q) at 2 by lia. symmetry. apply Nat.odd_add_mul_2.
  - replace (l - (2 * q + 1 - 1)) with 0 by lia. destruct (Nat.odd l); [specialize (H eq_refl); lia | reflexivity].
Qed.

(* blocks: a list of elements cut into non-empty pieces of one level each *)
Definition block := (nat * list elt)%type.
Definition flatb (bs : list block) : list elt := flat_map (fun b : block => snd b) bs.
Definition okblock (b : block) : Prop := snd b <> [] /\ Forall (fun x : elt => snd x = fst b) (snd b).

Fixpoint bstep (k : nat) (bs acc : list block) : list block :=
  match bs with
  | [] => acc
  | b :: rest => if k <=? fst b then bstep k rest ((fst b, rev (snd b)) :: acc)
                 else acc ++ b :: bstep k rest []
  end.

Lemma flatb_cons b bs : flatb (b :: bs) = snd b ++ flatb bs.
Proof. reflexivity. Qed.
Lemma flatb_app bs cs : flatb (bs ++ cs) = flatb bs ++ flatb cs.
Proof. apply flat_map_app. Qed.

Lemma bstep_flat k bs : Forall okblock bs -> forall acc,
  rev_runs_ge k (flatb bs) (flatb acc) = flatb (bstep k bs acc).
Proof.
  induction 1 as [|b rest [Hne Hb] _ IH]; intros acc; cbn [bstep].
  - reflexivity.
  - rewrite flatb_cons. destruct (Nat.leb_spec k (fst b)) as [A|A].
    + rewrite rrg_app_hi.
      * rewrite <- IH. rewrite flatb_cons. reflexivity.
      * eapply Forall_impl; [|exact Hb]. cbn beta. intros x Hx. lia.
    + rewrite rrg_app_lo.
      * rewrite flatb_app, flatb_cons. rewrite <- (IH []). reflexivity.
      * exact Hne.
      * eapply Forall_impl; [|exact Hb]. cbn beta. intros x Hx. lia.
Qed.

Section Model.
Variable levels : list nat.

Definition lev (i : nat) : nat := nth i levels 0.
Definition rlev (r : run) : nat := lev (fst r).
Definition elems (r : run) : list elt := map (fun i => (i, lev i)) (range (fst r) (snd r)).
(* the units of run r as they stand when the next pass is k: written backwards iff the number of
   passes already done that included r (those with k < k' <= level r) is odd *)
Definition blk (k : nat) (r : run) : block :=
  (rlev r, if Nat.odd (rlev r - k) then rev (elems r) else elems r).
Definition rgood (r : run) : Prop :=
  fst r < snd r /\ snd r <= length levels /\ forall j, fst r <= j < snd r -> lev j = rlev r.

Lemma get_lv site i : i < length levels -> get site levels i = Ok (lev i).
Proof. intros H. unfold get, lev. rewrite (nth_error_nth' levels 0 H). reflexivity. Qed.

Lemma nth_error_lv i : i < length levels -> nth_error levels i = Some (lev i).
Proof. intros H. unfold lev. apply nth_error_nth'. exact H. Qed.

Lemma blk_fst k r : fst (blk k r) = rlev r.
Proof. reflexivity. Qed.

Lemma blk_lo k r : rlev r < k -> blk (k - 1) r = blk k r.
Proof.
  intros H. unfold blk.
  replace (rlev r - (k - 1)) with 0 by lia. replace (rlev r - k) with 0 by lia. reflexivity.
Qed.

Lemma blk_hi k r : 1 <= k -> k <= rlev r -> blk (k - 1) r = (rlev r, rev (snd (blk k r))).
Proof.
  intros H1 H2. unfold blk. cbn [snd].
  replace (rlev r - (k - 1)) with (S (rlev r - k)) by lia.
  rewrite Nat.odd_succ, <- Nat.negb_odd.
  destruct (Nat.odd (rlev r - k)); cbn [negb]; [rewrite rev_involutive|]; reflexivity.
Qed.

Lemma blk_top K r : rlev r <= K -> blk K r = (rlev r, elems r).
Proof. intros H. unfold blk. replace (rlev r - K) with 0 by lia. reflexivity. Qed.

Lemma elems_ok r : rgood r -> elems r <> [] /\ Forall (fun x : elt => snd x = rlev r) (elems r).
Proof.
  intros (H1 & H2 & H3). unfold elems, range. split.
  - replace (snd r - fst r) with (S (snd r - fst r - 1)) by lia. cbn [seq map]. discriminate.
  - apply Forall_map. apply Forall_forall. intros i Hi. apply in_seq in Hi. cbn [snd].
    apply H3. lia.
Qed.

Lemma blk_ok k r : rgood r -> okblock (blk k r).
Proof.
  intros H. destruct (elems_ok r H) as [Hne Hf]. unfold okblock, blk. cbn [fst snd].
  destruct (Nat.odd (rlev r - k)).
  - split.
    + intros E. apply (f_equal (@rev elt)) in E. rewrite rev_involutive in E. cbn [rev] in E. contradiction.
    + apply Forall_rev. exact Hf.
  - split; assumption.
Qed.

Lemma blks_ok k rs : Forall rgood rs -> Forall okblock (map (blk k) rs).
Proof.
  intros H. apply Forall_map. eapply Forall_impl; [|exact H]. intros r Hr. apply blk_ok. exact Hr.
Qed.

Lemma rrs_spec k : 1 <= k -> forall runs, Forall rgood runs -> forall acc,
  exists runs', reverse_run_seqs levels k runs acc = Ok runs' /\
    Permutation runs' (acc ++ runs) /\
    map (blk (k - 1)) runs' = bstep k (map (blk k) runs) (map (blk (k - 1)) acc).
Proof.
  intros Hk. induction 1 as [|r rest Hr _ IH]; intros acc; cbn [reverse_run_seqs].
  - exists acc. rewrite app_nil_r. split; [reflexivity|]. split; [apply Permutation_refl | reflexivity].
  - assert (Hlt : fst r < length levels) by (destruct Hr as (? & ? & _); lia).
    rewrite (get_lv 963 _ Hlt). cbn [bind]. fold (rlev r).
    cbn [map bstep]. rewrite blk_fst.
    destruct (Nat.ltb_spec (rlev r) k) as [A|A].
    + destruct (IH []) as (rest' & E & P & M). rewrite E. cbn [bind].
      exists (acc ++ r :: rest'). split; [reflexivity|]. split.
      * apply Permutation_app_head. apply perm_skip. exact P.
      * destruct (Nat.leb_spec k (rlev r)) as [B|B]; [lia|].
        rewrite map_app. cbn [map]. rewrite M. rewrite (blk_lo k r A). reflexivity.
    + destruct (IH (r :: acc)) as (runs' & E & P & M). exists runs'. split; [exact E|]. split.
      * eapply Permutation_trans; [exact P|]. cbn [app]. apply Permutation_middle.
      * destruct (Nat.leb_spec k (rlev r)) as [B|B]; [|lia].
        rewrite M. cbn [map]. rewrite (blk_hi k r Hk A). reflexivity.
Qed.

Lemma loop_spec mn' : 1 <= mn' -> forall fuel k runs, k < fuel -> mn' <= k + 1 -> Forall rgood runs ->
  exists runs', runs_l2_loop fuel levels runs k mn' = Ok runs' /\ Permutation runs' runs /\
    flatb (map (blk (mn' - 1)) runs') = l2_down k mn' (flatb (map (blk k) runs)).
Proof.
  intros Hmn. induction fuel as [|f IH]; intros k runs Hf Hk Hg; [lia|].
  cbn [runs_l2_loop]. destruct (Nat.ltb_spec k mn') as [A|A].
  - exists runs. split; [reflexivity|]. split; [apply Permutation_refl|].
    rewrite l2_down_lt by exact A. replace (mn' - 1) with k by lia. reflexivity.
  - destruct k as [|k0]; [lia|].
    destruct (rrs_spec (S k0) ltac:(lia) runs Hg []) as (runs1 & E & P & M).
    rewrite E. cbn [bind]. rewrite lower_spec.
    destruct (Nat.leb_spec 1 (S k0)) as [B|B]; [|lia].
    replace (S k0 - 1) with k0 in * by lia.
    cbn [app] in P.
    assert (Hg1 : Forall rgood runs1).
    { eapply Permutation_Forall; [apply Permutation_sym; exact P | exact Hg]. }
    destruct (IH k0 runs1 ltac:(lia) ltac:(lia) Hg1) as (runs' & E' & P' & M').
    exists runs'. split; [exact E'|]. split; [eapply Permutation_trans; eassumption|].
    rewrite M'. rewrite l2_down_step by lia. rewrite M.
    cbn [map]. rewrite <- (bstep_flat (S k0) _ (blks_ok (S k0) runs Hg) []). reflexivity.
Qed.

Fixpoint tiles (p : nat) (rs : list run) (b : nat) : Prop :=
  match rs with
  | [] => p = b
  | r :: t => fst r = p /\ fst r < snd r /\ tiles (snd r) t b
  end.

Lemma tiles_app rs : forall p q rs' b, tiles p rs q -> tiles q rs' b -> tiles p (rs ++ rs') b.
Proof.
  induction rs as [|r t IH]; intros p q rs' b H1 H2; cbn [app tiles] in *.
  - subst. exact H2.
  - destruct H1 as (A & B & C). repeat split; try assumption. eapply IH; eassumption.
Qed.

Lemma tiles_le rs : forall p b, tiles p rs b -> p <= b.
Proof.
  induction rs as [|r t IH]; intros p b; cbn [tiles]; [lia|].
  intros (A & B & C). apply IH in C. lia.
Qed.

Lemma tiles_lb rs : forall p b, tiles p rs b -> Forall (fun r : run => p <= fst r) rs.
Proof.
  induction rs as [|r t IH]; intros p b; cbn [tiles]; [constructor|].
  intros (A & B & C). constructor; [lia|].
  eapply Forall_impl; [|apply (IH _ _ C)]. cbn beta. intros q Hq. lia.
Qed.

Lemma tiles_NoDup rs : forall p b, tiles p rs b -> NoDup (map fst rs).
Proof.
  induction rs as [|r t IH]; intros p b; cbn [tiles map]; [constructor|].
  intros (A & B & C). constructor; [|apply (IH _ _ C)].
  intros Hin. apply in_map_iff in Hin as (q & Eq & Hq).
  pose proof (tiles_lb _ _ _ C) as F. rewrite Forall_forall in F. specialize (F q Hq). lia.
Qed.

Fixpoint ins (r : run) (l : list run) : list run :=
  match l with
  | [] => [r]
  | q :: t => if fst r <? fst q then r :: l else q :: ins r t
  end.
Definition insf (acc : list run) (r : run) : list run := ins r acc.
Fixpoint go (b pos : nat) (l : list run) : bool :=
  match l with
  | [] => pos =? b
  | r :: t => (fst r =? pos) && (fst r <? snd r) && go b (snd r) t
  end.

Lemma ins_eq r l :
  (fix ins0 (l : list run) : list run :=
     match l with
     | [] => [r]
     | q :: t => if fst r <? fst q then r :: l else q :: ins0 t
     end) l = ins r l.
Proof.
  induction l as [|q t IH]; [reflexivity|].
  cbn [ins]. destruct (fst r <? fst q); [reflexivity|]. f_equal. exact IH.
Qed.

Lemma go_eq b l : forall pos,
  (fix go0 (pos : nat) (l : list run) : bool :=
     match l with
     | [] => pos =? b
     | r :: t => (fst r =? pos) && (fst r <? snd r) && go0 (snd r) t
     end) pos l = go b pos l.
Proof.
  induction l as [|r t IH]; intros pos; [reflexivity|].
  cbn [go]. rewrite <- IH. reflexivity.
Qed.

Lemma fold_left_ext_run {A B} (f g : A -> B -> A) (H : forall a x, f a x = g a x) l :
  forall a, fold_left f l a = fold_left g l a.
Proof.
  induction l as [|x t IH]; intros a; cbn [fold_left]; [reflexivity|]. rewrite H. apply IH.
Qed.

Lemma runs_cover_eq a b runs : runs_cover a b runs = go b a (fold_left insf runs []).
Proof.
  unfold runs_cover. rewrite go_eq. f_equal.
  apply fold_left_ext_run. intros acc r. apply ins_eq.
Qed.

Lemma ins_comm r1 r2 : fst r1 <> fst r2 -> forall l, ins r1 (ins r2 l) = ins r2 (ins r1 l).
Proof.
  intros Hne. induction l as [|q t IH]; cbn [ins].
  - destruct (Nat.ltb_spec (fst r1) (fst r2)), (Nat.ltb_spec (fst r2) (fst r1)); try reflexivity; lia.
  - destruct (Nat.ltb_spec (fst r1) (fst q)) as [A|A], (Nat.ltb_spec (fst r2) (fst q)) as [B|B]; cbn [ins].
    + destruct (Nat.ltb_spec (fst r1) (fst r2)) as [C|C], (Nat.ltb_spec (fst r2) (fst r1)) as [D|D]; try lia.
      * destruct (Nat.ltb_spec (fst r2) (fst q)); [reflexivity | lia].
      * destruct (Nat.ltb_spec (fst r1) (fst q)); [reflexivity | lia].
    + destruct (Nat.ltb_spec (fst r1) (fst q)); [|lia].
      destruct (Nat.ltb_spec (fst r2) (fst r1)); [lia|]. cbn [ins].
      destruct (Nat.ltb_spec (fst r2) (fst q)); [lia | reflexivity].
    + destruct (Nat.ltb_spec (fst r2) (fst q)); [|lia].
      destruct (Nat.ltb_spec (fst r1) (fst r2)); [lia|]. cbn [ins].
      destruct (Nat.ltb_spec (fst r1) (fst q)); [lia | reflexivity].
    + destruct (Nat.ltb_spec (fst r1) (fst q)); [lia|].
      destruct (Nat.ltb_spec (fst r2) (fst q)); [lia|]. rewrite IH. reflexivity.
Qed.

Lemma fold_ins_perm l l' : Permutation l l' -> NoDup (map fst l) ->
  forall acc, fold_left insf l acc = fold_left insf l' acc.
Proof.
  induction 1 as [|x l l' P IH|x y l|l l' l'' P1 IH1 P2 IH2]; intros ND acc; cbn [fold_left].
  - reflexivity.
  - cbn [map] in ND. inversion ND; subst. apply IH. assumption.
  - unfold insf at 2 3 5 6. rewrite ins_comm; [reflexivity|].
    cbn [map] in ND. inversion ND as [|? ? N1 N2]; subst. intros E. apply N1. left. exact E.
  - rewrite IH1 by exact ND. apply IH2.
    eapply Permutation_NoDup; [|exact ND]. apply Permutation_map. exact P1.
Qed.

Lemma ins_last r l : Forall (fun q : run => fst q <= fst r) l -> ins r l = l ++ [r].
Proof.
  induction 1 as [|q t Hq _ IH]; cbn [ins app]; [reflexivity|].
  destruct (Nat.ltb_spec (fst r) (fst q)); [lia|]. rewrite IH. reflexivity.
Qed.

Lemma fold_ins_tiles rs : forall p b acc, tiles p rs b -> Forall (fun q : run => fst q <= p) acc ->
  fold_left insf rs acc = acc ++ rs.
Proof.
  induction rs as [|r t IH]; intros p b acc H F; cbn [fold_left].
  - rewrite app_nil_r. reflexivity.
  - cbn [tiles] in H. destruct H as (A & B & C). unfold insf at 2.
    rewrite ins_last by (rewrite A; exact F).
    rewrite (IH (snd r) b) ; [rewrite <- app_assoc; reflexivity | exact C |].
    apply Forall_app. split.
    + eapply Forall_impl; [|exact F]. cbn beta. intros q Hq. lia.
    + constructor; [lia | constructor].
Qed.

Lemma tiles_go rs : forall p b, tiles p rs b -> go b p rs = true.
Proof.
  induction rs as [|r t IH]; intros p b; cbn [tiles go].
  - intros ->. apply Nat.eqb_refl.
  - intros (A & B & C). subst p. rewrite Nat.eqb_refl. apply Nat.ltb_lt in B. rewrite B.
    rewrite (IH _ _ C). reflexivity.
Qed.

Lemma cover_of_perm a b rs rs' : tiles a rs b -> Permutation rs' rs -> runs_cover a b rs' = true.
Proof.
  intros C P. rewrite runs_cover_eq.
  rewrite <- (fold_ins_perm rs rs' (Permutation_sym P) (tiles_NoDup _ _ _ C) []).
  rewrite (fold_ins_tiles rs a b [] C (Forall_nil _)). cbn [app]. apply tiles_go. exact C.
Qed.

(* maximal uniform runs inside the line [a,b) *)
Definition rmax (a b : nat) (r : run) : Prop :=
  fst r < snd r /\ a <= fst r /\ snd r <= b /\
  (forall j, fst r <= j < snd r -> lev j = rlev r) /\
  (fst r = a \/ lev (fst r - 1) <> rlev r) /\
  (snd r = b \/ lev (snd r) <> rlev r).

Lemma rmax_good a b r : b <= length levels -> rmax a b r -> rgood r.
Proof. intros Hb (A & B & C & D & _). repeat split; try assumption; lia. Qed.

Lemma rmax_judge a b r : b <= length levels -> rmax a b r -> run_uniform_maximal a b levels r = true.
Proof.
  intros Hb (A & B & C & D & E & F). unfold run_uniform_maximal.
  rewrite (nth_error_lv (fst r)) by lia. fold (rlev r).
  apply andb_true_iff; split; [apply andb_true_iff; split|].
  - apply forallb_forall. intros i Hi. unfold range in Hi. apply in_seq in Hi.
    rewrite (nth_error_lv i) by lia. cbn [opt_nat_eqb]. apply Nat.eqb_eq. apply D. lia.
  - destruct E as [E|E]; [rewrite E, Nat.eqb_refl; reflexivity|].
    rewrite (nth_error_lv (fst r - 1)) by lia. cbn [opt_nat_eqb].
    apply Nat.eqb_neq in E. rewrite E. apply orb_true_r.
  - destruct F as [F|F]; [rewrite F, Nat.eqb_refl; reflexivity|].
    destruct (Nat.eq_dec (snd r) b) as [G|G]; [rewrite G, Nat.eqb_refl; reflexivity|].
    rewrite (nth_error_lv (snd r)) by lia. cbn [opt_nat_eqb].
    apply Nat.eqb_neq in F. rewrite F. apply orb_true_r.
Qed.

Lemma lv_le126 i : Forall (fun l => l <= 126) levels -> lev i <= 126.
Proof.
  intros H. unfold lev. destruct (nth_in_or_default i levels 0) as [I|E].
  - rewrite Forall_forall in H. apply H. exact I.
  - rewrite E. lia.
Qed.

Lemma rmax_mk a b s e rl : s < e -> a <= s -> e <= b ->
  (forall j, s <= j < e -> lev j = rl) -> (s = a \/ lev (s - 1) <> rl) -> (e = b \/ lev e <> rl) ->
  rmax a b (s, e).
Proof.
  intros H1 H2 H3 H4 H5 H6.
  assert (E : rlev (s, e) = rl) by (unfold rlev; cbn [fst]; apply H4; lia).
  unfold rmax. rewrite E. cbn [fst snd].
  split; [exact H1|]. split; [exact H2|]. split; [exact H3|]. split; [exact H4|]. split; assumption.
Qed.

Lemma find_runs_spec a b : b <= length levels -> Forall (fun l => l <= 126) levels ->
  forall n i start rl mn mx runs,
    i + n = b -> a <= start -> start < i ->
    (forall j, start <= j < i -> lev j = rl) ->
    (start = a \/ lev (start - 1) <> rl) ->
    tiles a runs start -> Forall (rmax a b) runs -> Forall (fun r => mn <= rlev r <= mx) runs ->
    mn <= rl <= mx -> mx <= 126 ->
    exists runs' start' mn1 mx1,
      find_runs levels (seq i n) start rl mn mx runs = Ok (runs', start', mn1, mx1) /\
      tiles a (runs' ++ [(start', b)]) b /\ Forall (rmax a b) (runs' ++ [(start', b)]) /\
      Forall (fun r => mn1 <= rlev r <= mx1) (runs' ++ [(start', b)]) /\ mn1 <= mx1 <= 126.
Proof.
  intros Hb H126. induction n as [|n IH]; intros i start rl mn mx runs Hi Ha Hs Hu Hl Hc Hm Hbd Hrl Hmx.
  - cbn [seq find_runs]. exists runs, start, mn, mx. split; [reflexivity|].
    assert (Erl : rlev (start, b) = rl) by (unfold rlev; cbn [fst]; apply Hu; lia).
    split; [|split; [|split]].
    + eapply tiles_app; [exact Hc|]. cbn [tiles fst snd]. lia.
    + apply Forall_app. split; [exact Hm|]. constructor; [|constructor].
      apply (rmax_mk a b start b rl); try lia; try assumption.
      intros j Hj. apply Hu. lia.
    + apply Forall_app. split; [exact Hbd|]. constructor; [|constructor]. rewrite Erl. exact Hrl.
    + lia.
  - cbn [seq find_runs]. rewrite (nth_error_lv i) by lia.
    assert (Erl : lev start = rl) by (apply Hu; lia).
    destruct (Nat.eqb_spec (lev i) rl) as [E|E]; cbn [negb].
    + apply IH; try assumption; try lia.
      intros j Hj. destruct (Nat.eq_dec j i) as [->|N]; [exact E | apply Hu; lia].
    + pose proof (lv_le126 i H126) as L126.
      apply IH; try lia.
      * intros j Hj. replace j with i by lia. reflexivity.
      * right. rewrite (Hu (i - 1)) by lia. congruence.
      * eapply tiles_app; [exact Hc|]. cbn [tiles fst snd]. lia.
      * apply Forall_app. split; [exact Hm|]. constructor; [|constructor].
        apply (rmax_mk a b start i rl); try lia; try assumption.
      * apply Forall_app. split.
        -- eapply Forall_impl; [|exact Hbd]. cbn beta. intros r Hr. lia.
        -- constructor; [|constructor]. unfold rlev. cbn [fst]. rewrite Erl. lia.
Qed.

Lemma range_split p q b : p <= q -> q <= b -> range p q ++ range q b = range p b.
Proof.
  intros H1 H2. unfold range. replace (b - p) with ((q - p) + (b - q)) by lia.
  rewrite seq_app. replace (p + (q - p)) with q by lia. reflexivity.
Qed.

Lemma tiles_elems rs : forall p b, tiles p rs b ->
  flat_map elems rs = map (fun i => (i, lev i)) (range p b).
Proof.
  induction rs as [|r t IH]; intros p b; cbn [tiles flat_map].
  - intros ->. unfold range. rewrite Nat.sub_diag. reflexivity.
  - intros (A & B & C). rewrite (IH _ _ C). unfold elems. rewrite <- map_app.
    rewrite range_split; [subst p; reflexivity | lia | apply tiles_le in C; exact C].
Qed.

Lemma tiles_covers rs : forall p b k, tiles p rs b -> p <= k < b ->
  exists r, In r rs /\ fst r <= k < snd r.
Proof.
  induction rs as [|r t IH]; intros p b k; cbn [tiles]; [lia|].
  intros (A & B & C) Hk. destruct (Nat.lt_ge_cases k (snd r)) as [L|L].
  - exists r. split; [left; reflexivity | lia].
  - destruct (IH _ _ k C ltac:(lia)) as (q & Hq & Hk'). exists q. split; [right; exact Hq | exact Hk'].
Qed.

Lemma blks_top K rs : Forall (fun r => rlev r <= K) rs -> flatb (map (blk K) rs) = flat_map elems rs.
Proof.
  induction 1 as [|r t Hr _ IH]; cbn [map flat_map]; [reflexivity|].
  rewrite flatb_cons, (blk_top K r Hr). cbn [snd]. rewrite IH. reflexivity.
Qed.

Lemma elems_bounds mn mx rs : Forall rgood rs -> Forall (fun r => mn <= rlev r <= mx) rs ->
  Forall (fun x : elt => mn <= snd x <= mx) (flat_map elems rs).
Proof.
  induction 1 as [|r t Hr _ IH]; intros Hb; cbn [flat_map]; [constructor|].
  inversion Hb as [|? ? B1 B2]; subst. apply Forall_app. split; [|apply IH; exact B2].
  destruct (elems_ok r Hr) as [_ F]. eapply Forall_impl; [|exact F].
  cbn beta. intros e He. rewrite He. exact B1.
Qed.

Lemma elems_fst r : map fst (elems r) = range (fst r) (snd r).
Proof. unfold elems. rewrite map_map. apply map_id. Qed.

Lemma vis_order a b K rs : Forall rgood rs ->
  Forall (fun r => Nat.odd (rlev r - K) = Nat.odd (rlev r)) rs ->
  map fst (flatb (map (blk K) rs)) = runs_visual_order a b levels rs.
Proof.
  unfold runs_visual_order.
  induction 1 as [|r t Hr _ IH]; intros Hp; cbn [map flat_map]; [reflexivity|].
  inversion Hp as [|? ? P1 P2]; subst.
  rewrite flatb_cons, map_app, (IH P2). f_equal.
  rewrite (nth_error_lv (fst r)) by (destruct Hr as (? & ? & _); lia). fold (rlev r).
  unfold blk. cbn [snd]. rewrite P1. destruct (Nat.odd (rlev r)).
  - rewrite map_rev, elems_fst. reflexivity.
  - apply elems_fst.
Qed.

Definition shift (a : nat) (x : elt) : elt := (a + fst x, snd x).

Lemma line_elems a n : forall s, a + s + n <= length levels ->
  map (fun i => (i, lev i)) (seq (a + s) n)
  = map (shift a) (combine (seq s n) (firstn n (skipn (a + s) levels))).
Proof.
  induction n as [|n IH]; intros s H; [reflexivity|].
  rewrite (skipn_nth_error levels (a + s) (lev (a + s))) by (apply nth_error_lv; lia).
  cbn [seq map firstn combine]. unfold shift at 1. cbn [fst snd]. f_equal.
  rewrite <- Nat.add_succ_r. apply IH. lia.
Qed.

(* what remains once the loop is known to compute [l2_down mx lo'] on the elements of the line: the range of
   passes is within the bounds of l2_down_normal *)
Lemma line_order a b mn mx lo' K R0 runs' :
  a <= b -> b <= length levels -> tiles a R0 b -> Forall rgood R0 ->
  Forall (fun r => mn <= rlev r <= mx) R0 -> Permutation runs' R0 ->
  Nat.odd lo' = true -> (forall l, mn <= l -> Nat.odd l = true -> lo' <= l) ->
  (forall l, mn <= l <= mx -> Nat.odd (l - K) = Nat.odd l) ->
  flatb (map (blk K) runs') = l2_down mx lo' (flatb (map (blk mx) R0)) ->
  runs_visual_order a b levels runs' = map (fun i => a + i) (l2 (firstn (b - a) (skipn a levels))).
Proof.
  intros Hab Hb C G Bd P Ho Hlo Hpar F.
  rewrite <- (vis_order a b K runs').
  2:{ eapply Permutation_Forall; [apply Permutation_sym; exact P | exact G]. }
  2:{ eapply Permutation_Forall; [apply Permutation_sym; exact P|].
      eapply Forall_impl; [|exact Bd]. cbn beta. intros r Hr. apply Hpar, Hr. }
  set (L := firstn (b - a) (skipn a levels)).
  assert (HL : length L = b - a) by (unfold L; rewrite firstn_length, skipn_length; lia).
  assert (E : flat_map elems R0 = map (shift a) (combine (seq 0 (length L)) L)).
  { rewrite (tiles_elems R0 a b C), HL. unfold range, L.
    pose proof (line_elems a (b - a) 0) as Q. rewrite Nat.add_0_r in Q. apply Q. lia. }
  assert (Bl : Forall (fun l => mn <= l <= mx) L).
  { pose proof (elems_bounds mn mx R0 G Bd) as B. rewrite E in B. apply Forall_map in B.
    rewrite <- (combine_seq_snd L). apply Forall_map. exact B. }
  rewrite F, blks_top, E by (eapply Forall_impl; [|exact Bd]; cbn beta; intros r Hr; lia).
  rewrite <- (l2_down_map (shift a) (fun x => eq_refl)), map_map.
  rewrite <- (l2_down_normal mx lo' L), map_map; [reflexivity | | exact Ho |].
  - eapply Forall_impl; [|exact Bl]. cbn beta. intros l Hl. lia.
  - eapply Forall_impl; [|exact Bl]. cbn beta. intros l Hl. apply Hlo. lia.
Qed.

Lemma core_spec a b : a < b -> b <= length levels -> Forall (fun l => l <= 126) levels ->
  exists runs R0, visual_runs_core false levels (a, b) = Ok runs /\
    Permutation runs R0 /\ tiles a R0 b /\ Forall (rmax a b) R0 /\
    runs_visual_order a b levels runs =
      map (fun i => a + i) (Spec.l2 (firstn (b - a) (skipn a levels))).
Proof.
  intros Hab Hb H126.
  unfold visual_runs_core. rewrite (get_lv 934 a) by lia. cbn [bind].
  pose proof (lv_le126 a H126) as La.
  assert (Q1 : a + 1 + (b - (a + 1)) = b) by lia.
  assert (Q2 : forall j, a <= j < a + 1 -> lev j = lev a) by (intros j Hj; replace j with a by lia; reflexivity).
  assert (Q3 : a = a \/ lev (a - 1) <> lev a) by (left; reflexivity).
  destruct (find_runs_spec a b Hb H126 (b - (a + 1)) (a + 1) a (lev a) (lev a) (lev a) []
              Q1 (le_n a) ltac:(lia) Q2 Q3 eq_refl (Forall_nil _) (Forall_nil _) ltac:(lia) La)
    as (runs0 & st & mn & mx & E & C & M & Bd & Hmn & Hmx).
  unfold range. rewrite E. cbn [bind].
  set (R0 := runs0 ++ [(st, b)]) in *.
  assert (Hgood : Forall rgood R0).
  { eapply Forall_impl; [|exact M]. intros r Hr. eapply rmax_good; eassumption. }
  destruct (level_lowest_ge_rtl mn) as [mn'|] eqn:EL.
  - apply lowest_ge_rtl_odd in EL as (L1 & L2 & L3 & L4).
    assert (L0 : 1 <= mn') by (destruct mn'; [discriminate | lia]).
    destruct (loop_spec mn' ltac:(lia) 130 mx R0 ltac:(lia) ltac:(lia) Hgood) as (runs' & E' & P' & F').
    exists runs', R0. repeat split; try assumption.
    apply (line_order a b mn mx mn' (mn' - 1) R0 runs'); try assumption; try lia.
    intros l Hl. apply parity_below; [exact L3|]. apply L4. lia.
  - (* the whole line is at level 126 *)
    apply lowest_ge_rtl_fails_iff in EL; [|lia].
    exists R0, R0. repeat split; try assumption; [apply Permutation_refl|].
    apply (line_order a b mn mx 127 mx R0 R0); try assumption; try lia.
    + apply Permutation_refl.
    + reflexivity.
    + intros l Hl Ol. destruct (Nat.eq_dec l 126) as [->|N]; [discriminate | lia].
    + intros l Hl. replace (l - mx) with 0 by lia. replace l with 126 by lia. reflexivity.
    + symmetry. apply l2_down_lt. lia.
Qed.

End Model.

Theorem C05_proved : C05_statement.
Proof.
  intros levels a b Hab Hb H126.
  destruct (core_spec levels a b Hab Hb H126) as (runs & R0 & E & P & C & M & H3).
  exists runs. split; [|split; [|split; [|split; [exact H3|]]]].
  - unfold visual_runs_for_line. rewrite E. reflexivity.
  - exact (cover_of_perm a b R0 runs C P).
  - apply forallb_forall. intros r Hr. apply rmax_judge; [exact Hb|].
    rewrite Forall_forall in M. apply M. eapply Permutation_in; eassumption.
  - unfold deprecated_visual_runs. cbn [fst snd].
    destruct (Nat.leb_spec a (length levels)); [|lia].
    destruct (Nat.leb_spec b (length levels)); [|lia]. cbn [andb negb]. exact E.
Qed.
