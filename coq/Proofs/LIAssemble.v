(* Proofs/LIAssemble.v — length independence of one paragraph and of the two constructors, from the
   statements for the stages (Stmts3.v).  resolve_levels and assign_levels_to_removed_chars work
   character by character, so they commute with [expand] outright (LI_levels).  The stage statements
   ask for vectors of the paragraph's length and for runs inside the paragraph; that every stage keeps
   these at U32 is proved here by walking through the writes of the model: LI_para is stated for any
   paragraph level, so the invariants of the explicit stage (levels 0 and 1 only) are not available. *)
From BidiVerif Require Import Base ModelText ModelResolve Judge Stmts2 Stmts3.
From BidiVerif.Proofs Require Import ListLib Units SeqIter.
From BidiVerif.Proofs Require Import TextView ExplicitInv Pipeline SeqModel NeutralLoops LINeutral.

Lemma la_expand_nil_l {A} (v : list A) : expand [] v = [].
Proof. apply expand_nil_l. Qed.
Lemma la_firstn_skipn_comm {A} (l : list A) a m : firstn m (skipn a l) = skipn a (firstn (a + m) l).
Proof. apply firstn_skipn_comm. Qed.
Lemma la_upd_lt {A} s (l : list A) i x l' : upd s l i x = Ok l' -> i < length l.
Proof. intros H. apply (upd_ok_inv _ _ _ _ _ H). Qed.

Lemma la_expand_trunc_l {A} lens (v : list A) : expand lens v = expand (firstn (length v) lens) v.
Proof.
  rewrite <- (firstn_all v) at 3. rewrite <- firstn_expand_gen.
  symmetry. apply firstn_all2. rewrite expand_length_gen. lia.
Qed.
Lemma la_expand_trunc_r {A} lens : forall (v : list A), expand lens v = expand lens (firstn (length lens) v).
Proof.
  induction lens as [|l lens IH]; intros [|c v]; try reflexivity.
  cbn [length firstn]. rewrite !expand_cons, <- IH. reflexivity.
Qed.

Lemma resolve_levels_block c l l' n : forall P Q R,
  rl1 c l = Ok l' -> resolve_levels P Q = Ok R ->
  resolve_levels (repeat c n ++ P) (repeat l n ++ Q) = Ok (repeat l' n ++ R).
Proof.
  induction n as [|n IH]; intros P Q R H1 H2; [exact H2|].
  cbn [repeat app]. rewrite resolve_levels_cons, H1. cbn [bind].
  rewrite (IH P Q R H1 H2). reflexivity.
Qed.

Lemma resolve_levels_expand lens : forall pc lv out',
  resolve_levels pc lv = Ok out' ->
  resolve_levels (expand lens pc) (expand lens lv) = Ok (expand lens out').
Proof.
  induction lens as [|n lens IH]; intros pc lv out' H; [reflexivity|].
  destruct pc as [|c pcs], lv as [|l ls]; try (cbn [resolve_levels] in H; discriminate).
  - cbn [resolve_levels] in H. injection H as <-. reflexivity.
  - rewrite resolve_levels_cons in H.
    apply bind_ok in H. destruct H as (l' & H1 & H).
    apply bind_ok in H. destruct H as (rest & H2 & H). injection H as <-.
    rewrite !expand_cons. apply resolve_levels_block; [exact H1|]. apply IH. exact H2.
Qed.

Lemma resolve_levels_length : forall pc lv out',
  resolve_levels pc lv = Ok out' -> length out' = length lv /\ length pc = length lv.
Proof.
  induction pc as [|c pcs IH]; intros [|l ls] out' H; try (cbn [resolve_levels] in H; discriminate).
  - cbn [resolve_levels] in H. injection H as <-. split; reflexivity.
  - rewrite resolve_levels_cons in H.
    apply bind_ok in H. destruct H as (l' & H1 & H).
    apply bind_ok in H. destruct H as (rest & H2 & H). injection H as <-.
    apply IH in H2. cbn [length]. lia.
Qed.

Lemma assign_removed_block c l n : forall prev P Q R,
  let l' := if removed_by_x9 c then prev else l in
  0 < n ->
  assign_removed_from l' P Q = Ok R ->
  assign_removed_from prev (repeat c n ++ P) (repeat l n ++ Q) = Ok (repeat l' n ++ R).
Proof.
  induction n as [|n IH]; intros prev P Q R l' Hn H; [lia|].
  cbn [repeat app]. rewrite assign_removed_cons. fold l'.
  destruct n as [|n].
  - cbn [repeat app]. rewrite H. reflexivity.
  - assert (E : (if removed_by_x9 c then l' else l) = l').
    { unfold l'. destruct (removed_by_x9 c); reflexivity. }
    rewrite (IH l' P Q R); [rewrite E; reflexivity | lia | rewrite E; exact H].
Qed.

Lemma assign_removed_expand lens : Forall (fun n => 0 < n) lens ->
  forall prev oc lv out',
  length oc = length lens -> length lv = length lens ->
  assign_removed_from prev oc lv = Ok out' ->
  assign_removed_from prev (expand lens oc) (expand lens lv) = Ok (expand lens out').
Proof.
  induction 1 as [|n lens Hn Hpos IH]; intros prev oc lv out' Ho Hl H.
  - destruct oc, lv; cbn [length] in *; try discriminate.
    cbn [assign_removed_from] in H. injection H as <-. reflexivity.
  - destruct oc as [|c cs], lv as [|l ls]; cbn [length] in *; try discriminate.
    rewrite assign_removed_cons in H.
    apply bind_ok in H. destruct H as (rest & H2 & H). injection H as <-.
    rewrite !expand_cons. apply assign_removed_block; [exact Hn|].
    apply IH; [lia | lia | exact H2].
Qed.

Lemma assign_removed_length : forall lv prev oc out',
  assign_removed_from prev oc lv = Ok out' -> length out' = length lv.
Proof.
  induction lv as [|l ls IH]; intros prev oc out' H.
  - destruct oc; cbn [assign_removed_from] in H; injection H as <-; reflexivity.
  - destruct oc as [|c cs]; [cbn [assign_removed_from] in H; discriminate|].
    rewrite assign_removed_cons in H.
    apply bind_ok in H. destruct H as (rest & H2 & H). injection H as <-.
    cbn [length]. f_equal. apply (IH _ _ _ H2).
Qed.

Theorem li_levels_proof : LI_levels.
Proof.
  intros e text Hv. split.
  - intros pc lv out' _ _ H. apply resolve_levels_expand. exact H.
  - intros pl oc lv out' Ho Hl H. unfold assign_levels_to_removed_chars in *.
    apply assign_removed_expand; [apply view_lens_pos; exact Hv | | | exact H];
      rewrite map_length; assumption.
Qed.

Ltac la_dest x := first [ is_var x; destruct x | destruct x eqn:? ].

(* one layer of a successful monadic computation: a bind is split, a write becomes its length equation,
   a test is decided *)
Ltac la_step :=
  match goal with
  | H : bind _ _ = Ok _ |- _ => apply bind_ok in H; destruct H as (? & ? & H)
  | H : Ok _ = Ok _ |- _ => injection H; clear H; intros; subst
  | H : Panic _ = Ok _ |- _ => discriminate H
  | H : upd _ _ _ _ = Ok _ |- _ => apply upd_length in H
  | H : set_range _ _ _ _ _ = Ok _ |- _ => apply set_range_length in H
  | H : set_all _ _ _ _ = Ok _ |- _ => apply set_all_length in H
  | H : (if ?b then _ else _) = Ok _ |- _ => la_dest b
  | H : (match ?x with _ => _ end) = Ok _ |- _ => la_dest x
  end.

Lemma explicit_compute_shape_U32 cps pl oc n lv' pc' runs' :
  n = length oc -> explicit_compute U32 cps pl oc (repeat pl n) oc = Ok (lv', pc', runs') ->
  length oc = length cps /\ length lv' = n /\ length pc' = n /\ Forall (run_in n) runs'.
Proof.
  intros -> H.
  assert (Hoc : length oc = length cps).
  { unfold explicit_compute in H. cbn [t_len] in H.
    destruct (Nat.eqb_spec (length cps) (length oc)); [lia | discriminate]. }
  destruct (explicit_chars cps pl oc Hoc) as (lv & pc & runs & E & Hl & Hp & Ht & H0 & _).
  rewrite Hoc, E in H. injection H as <- <- <-. rewrite Hoc.
  split; [reflexivity|]. split; [exact Hl|]. split; [exact Hp|].
  destruct (Nat.eq_dec (length cps) 0) as [Z|Z]; [rewrite (H0 Z); constructor|].
  apply (tile_from_run_in runs 0), Ht. lia.
Qed.

Lemma map_res_Forall {A B} (f : A -> res B) (P : B -> Prop) : forall l ys,
  (forall x y, In x l -> f x = Ok y -> P y) -> map_res f l = Ok ys -> Forall P ys.
Proof.
  induction l as [|x t IH]; intros ys Hf H; cbn [map_res] in H.
  - injection H as <-. constructor.
  - apply bind_ok in H. destruct H as (y & Hy & H).
    apply bind_ok in H. destruct H as (ys' & Hys & H). injection H as <-.
    constructor; [apply (Hf x y); [left; reflexivity | exact Hy]|].
    apply IH; [|exact Hys]. intros x0 y0 Hin. apply Hf. right. exact Hin.
Qed.

Lemma irs_fast_one_runs pl oc lv r sq : irs_fast_one pl oc lv r = Ok sq -> irs_runs sq = [r].
Proof.
  unfold irs_fast_one. destruct r as [s en]. intros H.
  repeat (apply bind_ok in H; destruct H as (? & _ & H)).
  injection H as <-. reflexivity.
Qed.

Lemma irs_general_one_runs pl oc lv s sq : irs_general_one pl oc lv s = Ok sq -> irs_runs sq = s.
Proof.
  unfold irs_general_one. destruct s as [|r0 rest]; [discriminate|]. intros H.
  repeat (apply bind_ok in H; destruct H as (? & _ & H)).
  injection H as <-. reflexivity.
Qed.

Lemma isolating_run_sequences_runs (Q : run -> Prop) pl oc lv runs iso seqs :
  Forall Q runs ->
  isolating_run_sequences pl oc lv runs iso = Ok seqs ->
  Forall (fun sq => Forall Q (irs_runs sq)) seqs.
Proof.
  intros HQ. unfold isolating_run_sequences. destruct (negb iso).
  - apply map_res_Forall. intros r sq Hin H. apply irs_fast_one_runs in H. rewrite H.
    constructor; [|constructor]. rewrite Forall_forall in HQ. apply HQ. exact Hin.
  - intros H. apply bind_ok in H. destruct H as (ss & Hb & H).
    apply (bd13_fold_Forall oc Q) in Hb; [|exact HQ|repeat constructor|constructor].
    revert H. apply map_res_Forall. intros s sq Hin H. apply irs_general_one_runs in H. rewrite H.
    rewrite Forall_forall in Hb. apply Hb. exact Hin.
Qed.

Ltac la_stepW :=
  match goal with
  | H : set_while_bn _ _ _ _ = Ok _ |- _ => apply set_while_bn_length in H
  | H : n0_nsm _ _ _ _ _ = Ok _ |- _ => apply n0_nsm_length in H
  | H : (let _ := _ in _) = Ok _ |- _ => cbv zeta in H
  | _ => la_step
  end.
Ltac la_fin := repeat la_stepW; cbn [fst snd] in *; first [ lia | congruence ].

Lemma weak_step_length e text sq st ri st' :
  weak_step e text sq st ri = Ok st' -> length (w_pc st') = length (w_pc st).
Proof.
  unfold weak_step. destruct ri as [run_index i]. intros H.
  apply bind_ok in H. destruct H as (c0 & _ & H).
  destruct (c0 =c BN). { injection H as <-. reflexivity. }
  apply bind_ok in H. destruct H as ([pc1 w2c] & H1 & H). cbv beta iota in H.
  assert (L1 : length pc1 = length (w_pc st)) by (clear - H1; la_fin).
  apply bind_ok in H. destruct H as (c1 & _ & H).
  apply bind_ok in H. destruct H as (pc2 & H2 & H).
  assert (L2 : length pc2 = length pc1) by (clear - H2; la_fin).
  apply bind_ok in H. destruct H as (c456 & _ & H).
  apply bind_ok in H. destruct H as ([pc3 et] & H3 & H). cbv beta iota in H.
  assert (L3 : length pc3 = length pc2) by (clear - H3; la_fin).
  apply bind_ok in H. destruct H as (prev5 & _ & H).
  apply bind_ok in H. destruct H as ([pc4 et4] & H4 & H). cbv beta iota in H.
  assert (L4 : length pc4 = length pc3) by (clear - H4; la_fin).
  injection H as <-. cbn [w_pc]. lia.
Qed.

Lemma weak_fold_length e text sq l : forall st st',
  weak_fold e text sq st l = Ok st' -> length (w_pc st') = length (w_pc st).
Proof.
  induction l as [|ri rest IH]; intros st st' H; cbn [weak_fold] in H.
  - injection H as <-. reflexivity.
  - apply bind_ok in H. destruct H as (st1 & H1 & H).
    apply IH in H. apply weak_step_length in H1. lia.
Qed.

Lemma w7_fold_length idxs : forall pc b pc', w7_fold pc b idxs = Ok pc' -> length pc' = length pc.
Proof.
  induction idxs as [|i rest IH]; intros pc b pc' H; cbn [w7_fold] in H.
  - injection H as <-. reflexivity.
  - apply bind_ok in H. destruct H as (c & _ & H).
    destruct c; try (apply IH in H; exact H).
    destruct b; [|apply IH in H; exact H].
    apply bind_ok in H. destruct H as (pc1 & H1 & H). apply IH in H. apply upd_length in H1. lia.
Qed.

Lemma resolve_weak_length e text sq pc out :
  resolve_weak e text sq pc = Ok out -> length out = length pc.
Proof.
  unfold resolve_weak. intros H.
  apply bind_ok in H. destruct H as (st & Hf & H). apply weak_fold_length in Hf. cbn [w_pc] in Hf.
  apply bind_ok in H. destruct H as (pc1 & H1 & H). apply set_all_length in H1.
  apply w7_fold_length in H. lia.
Qed.

Lemma n0_pair_length e lg backwards text sq oc ecls not_e pc pair pc' :
  n0_pair e lg backwards text sq oc ecls not_e pc pair = Ok pc' -> length pc' = length pc.
Proof. unfold n0_pair. intros H. la_fin. Qed.

Lemma n0_pairs_length e lg backwards text sq oc ecls not_e pairs : forall pc pc',
  n0_pairs e lg backwards text sq oc ecls not_e pc pairs = Ok pc' -> length pc' = length pc.
Proof.
  induction pairs as [|p rest IH]; intros pc pc' H; cbn [n0_pairs] in H.
  - injection H as <-. reflexivity.
  - apply bind_ok in H. destruct H as (pc1 & H1 & H).
    apply IH in H. apply n0_pair_length in H1. lia.
Qed.

Lemma resolve_neutral_gen_length e ds legacy text sq lv oc pc out :
  resolve_neutral_gen e ds legacy text sq lv oc pc = Ok out -> length out = length pc.
Proof.
  unfold resolve_neutral_gen. destruct (irs_runs sq) as [|r0 rest]; [discriminate|]. intros H.
  apply bind_ok in H. destruct H as (l0 & _ & H).
  apply bind_ok in H. destruct H as (pairs & _ & H).
  apply bind_ok in H. destruct H as (pc1 & H1 & H). apply n0_pairs_length in H1.
  apply n12_loop_length in H. lia.
Qed.

Lemma resolve_sequences_li e text ds :
  li_weak_statement e text -> li_neutral_statement e text ->
  let chars := view_of e text in
  let cps := map fst chars in
  let lens := map snd chars in
  let k := length chars in
  forall seqs lv oc pc out',
    length pc = k -> length oc = k -> length lv = k -> Forall (seq_in k) seqs ->
    resolve_sequences U32 ds false cps lv oc pc seqs = Ok out' ->
    resolve_sequences e ds false text (expand lens lv) (expand lens oc) (expand lens pc)
                      (map (useq lens) seqs) = Ok (expand lens out') /\ length out' = k.
Proof.
  intros HW HN chars cps lens k. subst chars cps lens k.
  induction seqs as [|sq rest IH]; intros lv oc pc out' Hpc Hoc Hlv Hs H; cbn [resolve_sequences map] in *.
  - injection H as <-. split; [reflexivity | exact Hpc].
  - inversion Hs as [|? ? Hs1 Hs2]; subst.
    apply bind_ok in H as (pc1 & H1 & H). apply bind_ok in H as (pc2 & H2 & H).
    assert (L1 : length pc1 = length (view_of e text)) by (apply resolve_weak_length in H1; lia).
    assert (L2 : length pc2 = length (view_of e text)) by (apply resolve_neutral_gen_length in H2; lia).
    rewrite (HW sq pc pc1 Hpc Hs1 H1). cbn [bind].
    unfold li_neutral_statement, resolve_neutral in HN.
    rewrite (HN ds sq lv oc pc1 pc2 L1 Hoc Hlv Hs1 H2). cbn [bind].
    apply IH; assumption.
Qed.

Lemma li_para_from_stages :
  LI_explicit -> LI_sequences -> LI_weak -> LI_neutral -> LI_levels -> LI_para.
Proof.
  intros HE HS HW HN HL e text Hv ds pl pure iso oc out' Hoc H.
  destruct (HL e text Hv) as [HL1 HL2].
  set (chars := view_of e text) in *. set (lens := map snd chars) in *. set (cps := map fst chars) in *.
  assert (En : length (expand lens oc) = total lens)
    by (apply expand_length; unfold lens; rewrite map_length; exact Hoc).
  unfold compute_bidi_info_for_para in *.
  destruct ((pl =? 0) && pure) eqn:Ef.
  - rewrite para_fast in H by exact Ef. rewrite para_fast by exact Ef. injection H as <-.
    rewrite En, Hoc, <- (map_length snd chars). fold lens. rewrite expand_repeat. reflexivity.
  - apply (para_slow_inv _ _ _ _ _ _ _ _ _ Ef) in H as (lv & pc & runs & seqs & pc' & lv' & Hex & Hsq & Hrs & Hrl & H).
    rewrite Hoc in Hex.
    pose proof (explicit_compute_shape_U32 _ _ _ _ _ _ _ (eq_sym Hoc) Hex) as (_ & Llv & Lpc & Hruns).
    assert (Hseqs : Forall (seq_in (length chars)) seqs)
      by exact (isolating_run_sequences_runs _ _ _ _ _ _ _ Hruns Hsq).
    destruct (resolve_sequences_li e text ds (HW e text Hv) (HN e text Hv) seqs lv oc pc pc'
                Lpc Hoc Llv Hseqs Hrs) as [Hrs' Lpc'].
    apply resolve_levels_length in Hrl as Llv'.
    pose proof (HE e text Hv pl oc lv pc runs Hoc Hex) as Hex'. fold chars lens in Hex'. rewrite <- En in Hex'.
    rewrite (para_slow e ds false pl pure iso text _ _ _ _ _ _ _ Ef Hex'
               (HS e text Hv pl oc lv runs iso seqs Hoc Llv Hruns Hsq) Hrs' (HL1 pc' lv lv' Lpc' Llv Hrl)).
    apply HL2; [exact Hoc | lia | exact H].
Qed.

Lemma para_length_U32 ds pl pure iso cps oc out :
  compute_bidi_info_for_para_gen U32 ds false pl pure iso cps oc = Ok out ->
  length out = length oc /\ ((pl =? 0) && pure = true \/ length oc = length cps).
Proof.
  destruct ((pl =? 0) && pure) eqn:Ef; intros H.
  - rewrite (para_fast _ _ _ _ _ _ _ _ Ef) in H. injection H as <-. rewrite repeat_length. auto.
  - apply (para_slow_inv _ _ _ _ _ _ _ _ _ Ef) in H as (lv & pc & runs & seqs & pc' & lv' & Hex & _ & _ & Hrl & H).
    apply (explicit_compute_shape_U32 _ _ _ _ _ _ _ eq_refl) in Hex as (Hoc & Llv & _ & _).
    apply resolve_levels_length in Hrl. apply assign_removed_length in H. split; [lia | right; exact Hoc].
Qed.

(* LI_para without its length hypothesis: on the fast path nothing looks at the lengths, off it
   explicit::compute asserts them *)
Lemma li_para_nolen : LI_para -> forall e text, valid_text e text ->
  forall ds pl pure iso oc out',
    compute_bidi_info_for_para U32 ds pl pure iso (map fst (view_of e text)) oc = Ok out' ->
    compute_bidi_info_for_para e ds pl pure iso text (expand (map snd (view_of e text)) oc)
      = Ok (expand (map snd (view_of e text)) out').
Proof.
  intros HP e text Hv ds pl pure iso oc out' H.
  destruct (para_length_U32 _ _ _ _ _ _ _ H) as [_ [Hfast | Hlen]].
  - unfold compute_bidi_info_for_para in *. rewrite para_fast in H by exact Hfast.
    rewrite para_fast by exact Hfast. injection H as <-.
    rewrite expand_length_gen, expand_repeat_gen. reflexivity.
  - apply (HP e text Hv); [|exact H]. rewrite map_length in Hlen. exact Hlen.
Qed.

Lemma li_para_bidi_info_from : LI_initial -> LI_para -> LI_para_bidi_info.
Proof.
  intros HI HP e text Hv ds d p' Hfsi H.
  apply para_bidi_info_new_inv in H as (ii' & Hii & Hlv & ->).
  exact (para_bidi_info_new_intro e ds false text d _ _ (HI e text Hv ds d false ii' Hfsi Hii)
           (li_para_nolen HP e text Hv ds _ _ _ _ _ Hlv)).
Qed.

Lemma expand_app_at {A} lens (acc pl : list A) :
  expand lens (acc ++ pl) = expand lens acc ++ expand (firstn (length pl) (skipn (length acc) lens)) pl.
Proof.
  rewrite <- (firstn_skipn (ustart lens (length acc)) (expand lens (acc ++ pl))).
  rewrite firstn_expand_gen, skipn_expand_gen, firstn_length_app, skipn_length_app.
  rewrite <- la_expand_trunc_l. f_equal. apply la_expand_trunc_l.
Qed.

Lemma bidi_paras_li : LI_para -> forall e text, valid_text e text ->
  forall ds classes paras flags acc out',
    bidi_paras U32 ds false (map fst (view_of e text)) classes paras flags acc = Ok out' ->
    bidi_paras e ds false text (expand (map snd (view_of e text)) classes)
               (map (upara (map snd (view_of e text))) paras) flags
               (expand (map snd (view_of e text)) acc)
      = Ok (expand (map snd (view_of e text)) out').
Proof.
  intros HP e text Hv ds classes. set (chars := view_of e text). set (lens := map snd chars).
  induction paras as [|p ps IH]; intros flags acc out' H.
  - injection H as <-. reflexivity.
  - destruct flags as [|f fs]; [injection H as <-; reflexivity|].
    apply bidi_paras_cons_inv in H as (ptext & poc & pl & Ea & Hpt & Hpo & Hpl & H).
    apply slice_ok_inv in Hpt as (Hab & Hbk & ->). rewrite map_length in Hbk.
    pose proof (slice_length _ _ _ _ _ Hpo) as (Lpoc & _ & Hbc). apply slice_ok_inv in Hpo as (_ & _ & Epo).
    destruct (subrange_view_proved 509 e text (p_start p) (p_end p) Hv Hab Hbk) as (sub & Hsub & Hview & Hvs).
    fold chars in Hview.
    assert (Elens : firstn (p_end p - p_start p) (skipn (p_start p) lens) = map snd (view_of e sub))
      by (rewrite Hview, <- firstn_map, <- skipn_map; reflexivity).
    rewrite skipn_map, firstn_map, <- Hview in Hpl.
    pose proof (para_length_U32 _ _ _ _ _ _ _ Hpl) as (Lpl & _).
    cbn [map]. rewrite (bidi_paras_step e ds false text _ (upara lens p) _ f fs _ sub
                          (expand (map snd (view_of e sub)) poc) (expand (map snd (view_of e sub)) pl)).
    + replace (expand lens acc ++ expand (map snd (view_of e sub)) pl) with (expand lens (acc ++ pl));
        [apply IH; exact H|].
      rewrite expand_app_at, Lpl, Lpoc, Ea, Elens. reflexivity.
    + rewrite expand_length_gen, Ea. reflexivity.
    + exact Hsub.
    + cbn [upara p_start p_end]. rewrite slice_expand_gen, <- Epo, Elens by assumption. reflexivity.
    + exact (li_para_nolen HP e sub Hvs ds _ _ _ _ _ Hpl).
Qed.

Lemma li_bidi_info_from : LI_initial -> LI_para -> LI_bidi_info.
Proof.
  intros HI HP e text Hv ds d b' Hfsi H.
  apply bidi_info_new_inv in H as (ii' & Hii & Hlv & ->).
  pose proof (bidi_paras_li HP e text Hv ds _ _ _ [] _ Hlv) as HQ. rewrite expand_nil_r in HQ.
  exact (bidi_info_new_intro e ds false text d _ _ (HI e text Hv ds d true ii' Hfsi Hii) HQ).
Qed.
