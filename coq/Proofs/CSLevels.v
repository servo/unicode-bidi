(* Proofs/CSLevels.v — CS_levels: resolve_levels is pointwise Spec.implicit_level (I1/I2) when all
   levels are <= 125, and assign_levels_to_removed_chars is Spec.fill_removed of the masked list. *)
From BidiVerif Require Import Base ModelText ModelResolve Spec StageRel Stmts6.
From BidiVerif.Proofs Require Import LevelOps.

Lemma csl_even_rtl l : Nat.even l = negb (is_rtl l).
Proof. rewrite <- is_ltr_even. apply ltr_rtl_exclusive. Qed.

Lemma csl_step l c : l <= 125 ->
  match is_rtl l, c with
  | false, AN | false, EN =>
    match level_raise l 2 with Some x => Ok x | None => Panic 587 end
  | false, R | true, L | true, EN | true, AN =>
    match level_raise l 1 with Some x => Ok x | None => Panic 589 end
  | _, _ => Ok l
  end = Ok (implicit_level l c).
Proof.
  intros Hl. unfold implicit_level. rewrite csl_even_rtl.
  destruct (is_rtl l) eqn:E; cbn [negb].
  - destruct c; try reflexivity; rewrite raise_spec;
      (destruct (Nat.leb_spec (l + 1) 126) as [_|X]; [reflexivity|lia]).
  - assert (H124 : l <= 124).
    { unfold is_rtl in E. apply Nat.eqb_neq in E.
      destruct (Nat.eq_dec l 125) as [->|]; [exfalso; apply E; reflexivity|lia]. }
    destruct c; try reflexivity; rewrite raise_spec;
      match goal with
      | |- context [?a <=? ?b] => destruct (Nat.leb_spec a b) as [_|X]; [reflexivity|lia]
      end.
Qed.

Lemma csl_resolve_levels : forall pc lv,
  length pc = length lv -> Forall (fun l => l <= 125) lv ->
  resolve_levels pc lv = Ok (map2_implicit lv pc).
Proof.
  induction pc as [|c pcs IH]; intros [|l ls] Hlen HF; cbn [length] in Hlen; try discriminate.
  - reflexivity.
  - inversion HF as [|? ? Hl HF']; subst.
    cbn [resolve_levels map2_implicit].
    rewrite (csl_step l c Hl). cbn [bind].
    rewrite (IH ls ltac:(lia) HF'). reflexivity.
Qed.

Lemma csl_assign : forall oc lv prev, length oc = length lv ->
  assign_removed_from prev oc lv =
  Ok (fill_removed prev (map (fun p => if removed_by_x9 (fst p) then None else Some (snd p))
                             (combine oc lv))).
Proof.
  induction oc as [|c cs IH]; intros [|l ls] prev Hlen; cbn [length] in Hlen; try discriminate.
  - reflexivity.
  - cbn [assign_removed_from combine map fst snd].
    rewrite (IH ls _ ltac:(lia)). cbn [bind].
    destruct (removed_by_x9 c); reflexivity.
Qed.

Lemma cs_levels_proof : CS_levels.
Proof.
  split.
  - exact csl_resolve_levels.
  - intros pl oc lv Hlen. unfold assign_levels_to_removed_chars. apply csl_assign. exact Hlen.
Qed.
