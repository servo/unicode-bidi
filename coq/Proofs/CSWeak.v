(* Proofs/CSWeak.v — the fused W1-W7 pass of implicit::resolve_weak (with retained BNs) computes, on
   the live characters of an isolating run sequence, the seven passes W1..W7 of the specification,
   and leaves the removed positions transparent (CS_weak, Stmts6.v; the live positions must hold a
   working class that X9 does not remove).
   Specification side: the passes w1..w6 fused into one left-to-right function [F] with look-ahead
   ([G] = W1-W4 with one class of look-ahead, [W56] = W5+W6 with the look-ahead [ahead_en]); [F_spec].
   Model side: at each position of a well-formed sequence the two iterators return the remaining
   positions and the visited ones, reversed ([zip_ok]); the step made there is [wstep] of LIWeak.v,
   and [step_rel] describes it in the vocabulary of [F].  The fold carries the invariant [Inv]
   forwards and, since W5 looks ahead, the conclusion [Concl] backwards from the final array.  The W7
   pass reads that array and is [w7] of the specification on the live positions ([w7_main]). *)
From BidiVerif Require Import Base ModelText ModelResolve Spec StageRel Stmts3 Stmts4 Stmts6.
(* ListLib after LIWeak, so that [lset] and [lset_all] are ListLib's here (LIWeak.v ends with its own) *)
From BidiVerif.Proofs Require Import LIWeak.
From BidiVerif.Proofs Require Import ListLib Units SeqIter.

(* W4 on one class: [nx] is the next class (after W2 on the fly) *)
Definition w4c (p4 c3 nx : bclass) : bclass :=
  match p4, c3, nx with
  | EN, ES, EN | EN, CS, EN => EN
  | AN, CS, AN => AN
  | _, _, _ => c3
  end.

Definition nxc (eos : bclass) (al : bool) (r : list bclass) : bclass :=
  let n := match r with [] => eos | d :: _ => d end in
  if (n =c EN) && al then AN else n.

(* W1-W4 fused; state = (class after W1 of the previous character, last strong is AL,
   class after W3 of the previous character) *)
Fixpoint G (eos p1 : bclass) (al : bool) (p4 : bclass) (t : list bclass) : list bclass :=
  match t with
  | [] => []
  | c :: r =>
    let c1 := w1c c p1 in
    let c3 := w23c c1 al in
    let al' := alc c1 al in
    w4c p4 c3 (nxc eos al' r) :: G eos c1 al' c3 r
  end.

Fixpoint ahead_en (u : list bclass) : bool :=
  match u with
  | ET :: r => ahead_en r
  | EN :: _ => true
  | _ => false
  end.

Definition w56c (p5 c4 : bclass) (ah : bool) : bclass :=
  match c4 with
  | ET => if (p5 =c EN) || ah then EN else ON
  | ES | CS => ON
  | k => k
  end.

Definition p5c (p5 c4 : bclass) : bclass :=
  match c4 with
  | ES | CS => ON
  | ET => if p5 =c EN then EN else ET
  | k => k
  end.

Fixpoint W56 (p5 : bclass) (u : list bclass) : list bclass :=
  match u with
  | [] => []
  | c4 :: r => w56c p5 c4 (ahead_en r) :: W56 (p5c p5 c4) r
  end.

Definition F (eos p1 : bclass) (al : bool) (p4 p5 : bclass) (t : list bclass) : list bclass :=
  W56 p5 (G eos p1 al p4 t).

Lemma w4c_other p4 c3 nx : c3 <> ES -> c3 <> CS -> w4c p4 c3 nx = c3.
Proof. intros H1 H2. unfold w4c. destruct p4; try reflexivity; destruct c3; try reflexivity; try contradiction. Qed.

(* [w4c] asks of the next class only whether it is EN and whether it is AN *)
Lemma w4c_tests p4 c3 nx :
  w4c p4 c3 nx = if (p4 =c EN) && ((c3 =c ES) || (c3 =c CS)) && (nx =c EN) then EN
                 else if (p4 =c AN) && (c3 =c CS) && (nx =c AN) then AN else c3.
Proof. destruct p4; try reflexivity; destruct c3; try reflexivity; destruct nx; reflexivity. Qed.

Lemma w4c_cong p4 c3 a b :
  (a =c EN) = (b =c EN) -> (a =c AN) = (b =c AN) -> w4c p4 c3 a = w4c p4 c3 b.
Proof. intros H1 H2. rewrite !w4c_tests, H1, H2. reflexivity. Qed.

Lemma w4c_ET p4 c3 nx : w4c p4 c3 nx = ET -> c3 = ET.
Proof. unfold w4c. destruct p4; try (intros ->; reflexivity); destruct c3; try (intros H; exact H); destruct nx; intros H; try discriminate; exact H. Qed.

Lemma w4c_range p4 c3 nx : w4c p4 c3 nx = c3 \/ (c3 = ES \/ c3 = CS) /\ (w4c p4 c3 nx = EN \/ w4c p4 c3 nx = AN).
Proof.
  unfold w4c. destruct p4; auto; destruct c3; auto; destruct nx; auto.
Qed.

Lemma w4c_nbn p4 c3 nx : c3 <> BN -> w4c p4 c3 nx <> BN.
Proof.
  intros H. destruct (w4c_range p4 c3 nx) as [E | [_ [E | E]]]; rewrite E; [exact H | discriminate | discriminate].
Qed.

Lemma newc_w4c p4 c3 nx p5 ah : c3 = ES \/ c3 = CS ->
  newc_of p4 c3 nx = w56c p5 (w4c p4 c3 nx) ah /\ newc_of p4 c3 nx = p5c p5 (w4c p4 c3 nx).
Proof.
  intros [-> | ->]; unfold newc_of, w4c; (destruct p4; try (split; reflexivity));
    destruct nx; split; reflexivity.
Qed.

Lemma nxc_opt eos al t :
  nxc eos al t = if (opt_or (hd_error t) eos =c EN) && al then AN else opt_or (hd_error t) eos.
Proof. destruct t; reflexivity. Qed.

Lemma w56c_nbn p5 c4 ah : c4 <> BN -> w56c p5 c4 ah <> BN.
Proof. intros H. unfold w56c. destruct c4; try discriminate; try contradiction. destruct ((p5 =c EN) || ah); discriminate. Qed.

Lemma w56c_ah p5 c4 ah : c4 <> ET \/ (p5 =c EN) = true -> w56c p5 c4 false = w56c p5 c4 ah.
Proof.
  intros [H | H]; unfold w56c; destruct c4; try reflexivity; [contradiction | rewrite H; reflexivity].
Qed.

Lemma ahead_cons c4 X : c4 <> ET -> ahead_en (c4 :: X) = (c4 =c EN).
Proof. intros H. destruct c4; try reflexivity. contradiction. Qed.

Lemma w4_head (p4 c3 : bclass) (X : list bclass) :
  w4 (Some p4) (c3 :: X) = w4c p4 c3 (hd L X) :: w4 (Some c3) X.
Proof.
  cbn [w4]. f_equal. unfold w4c.
  destruct p4; try reflexivity; destruct c3; try reflexivity;
    destruct X as [|x X]; try reflexivity; destruct x; reflexivity.
Qed.

Lemma w123_one c p1 strong al : (strong =c AL) = al ->
  (let c1 := if c =c NSM then if is_iso_ctl p1 then ON else p1 else c in
   let c2 := if (c1 =c EN) && (strong =c AL) then AN else c1 in
   if c2 =c AL then R else c2) = w23c (w1c c p1) al /\
  ((let c1 := if c =c NSM then if is_iso_ctl p1 then ON else p1 else c in
    if is_strong c1 then c1 else strong) =c AL) = alc (w1c c p1) al.
Proof.
  intros Hs. cbv zeta. unfold w1c. rewrite f_iso_spec.
  set (c1 := if c =c NSM then if is_iso_ctl p1 then ON else p1 else c). clearbody c1.
  rewrite Hs. split; [destruct c1; destruct al; reflexivity|].
  rewrite <- Hs. destruct c1; reflexivity.
Qed.

(* behind a separator, W4 of the specification reads the next class after W1-W3; the model reads the raw
   class, or eos, and applies W2 on the fly: the two agree on what [w4c] asks *)
Lemma look_ahead eos c1 al' strong' r :
  eos <> EN -> eos <> AN -> c1 = ES \/ c1 = CS -> (strong' =c AL) = al' ->
  let nx := nxc eos al' r in let nx' := hd L (w3 (w2 strong' (w1 c1 r))) in
  (nx =c EN) = (nx' =c EN) /\ (nx =c AN) = (nx' =c AN).
Proof.
  intros He1 He2 Hc Hs. destruct r as [|d r']; cbn [w1 w2 w3 map hd]; unfold nxc.
  - apply ceq_neq in He1, He2. rewrite He1. cbn [andb]. rewrite He1, He2. split; reflexivity.
  - destruct (w123_one d c1 strong' al' Hs) as [E3 _]. cbv zeta in E3. rewrite E3.
    destruct Hc as [-> | ->]; destruct d; destruct al'; split; reflexivity.
Qed.

Lemma G_spec eos : eos <> EN -> eos <> AN ->
  forall t p1 al strong p4, (strong =c AL) = al ->
  G eos p1 al p4 t = w4 (Some p4) (w3 (w2 strong (w1 p1 t))).
Proof.
  intros He1 He2. induction t as [|c r IH]; intros p1 al strong p4 Hs; [reflexivity|].
  cbn [G w1 w2 w3 map].
  destruct (w123_one c p1 strong al Hs) as [E3 Ea]. cbv zeta in E3, Ea.
  rewrite E3.
  set (c1 := w1c c p1) in *. set (c3 := w23c c1 al) in *.
  fold (w3 (w2 (if is_strong (if c =c NSM then if is_iso_ctl p1 then ON else p1 else c)
                then (if c =c NSM then if is_iso_ctl p1 then ON else p1 else c) else strong)
               (w1 (if c =c NSM then if is_iso_ctl p1 then ON else p1 else c) r))).
  assert (E1 : (if c =c NSM then if is_iso_ctl p1 then ON else p1 else c) = c1).
  { unfold c1, w1c. rewrite f_iso_spec. reflexivity. }
  rewrite E1 in *.
  rewrite w4_head.
  rewrite <- (IH c1 (alc c1 al) (if is_strong c1 then c1 else strong) c3 Ea).
  f_equal.
  assert (Hsep : c3 = ES \/ c3 = CS ->
                 w4c p4 c3 (nxc eos (alc c1 al) r)
                 = w4c p4 c3 (hd L (w3 (w2 (if is_strong c1 then c1 else strong) (w1 c1 r))))).
  { intros H. apply w4c_cong; apply (look_ahead eos c1 (alc c1 al) _ r He1 He2); try exact Ea;
      rewrite <- (w23c_sep c1 al H); exact H. }
  destruct (bclass_eq_dec c3 ES) as [Hes|Hes]; [auto|].
  destruct (bclass_eq_dec c3 CS) as [Hcs|Hcs]; [auto|].
  rewrite !w4c_other by assumption. reflexivity.
Qed.

Lemma w4_none p t : p <> EN -> p <> AN -> w4 None t = w4 (Some p) t.
Proof. intros H1 H2. destruct t as [|c r]; [reflexivity|]. cbn [w4]. f_equal. destruct p; try reflexivity; contradiction. Qed.

Fixpoint w5_bwd (t : list bclass) : list bclass :=
  match t with
  | [] => []
  | c :: r => let r' := w5_bwd r in (if (c =c ET) && (hd ON r' =c EN) then EN else c) :: r'
  end.

Lemma last_cons {A} (l : list A) : forall a d, last (a :: l) d = last l a.
Proof.
  induction l as [|b l IH]; intros a d; [reflexivity|].
  change (last (a :: b :: l) d) with (last (b :: l) d). rewrite !IH. reflexivity.
Qed.

Lemma last_hd_rev {A} (l : list A) d : last l d = hd d (rev l).
Proof.
  destruct l as [|x l'] using rev_ind; [reflexivity|].
  rewrite last_last, rev_unit. reflexivity.
Qed.

Lemma w5_fwd_snoc l : forall p c,
  w5_fwd p (l ++ [c]) = w5_fwd p l ++ [if (c =c ET) && (last (w5_fwd p l) p =c EN) then EN else c].
Proof.
  induction l as [|a l IH]; intros p c; [reflexivity|].
  cbn [app w5_fwd]. rewrite IH. rewrite last_cons. reflexivity.
Qed.

Lemma w5_rev t : rev (w5_fwd ON (rev t)) = w5_bwd t.
Proof.
  induction t as [|c r IH]; [reflexivity|].
  cbn [rev w5_bwd]. rewrite w5_fwd_snoc, rev_unit, IH.
  rewrite last_hd_rev, IH. reflexivity.
Qed.

Lemma w5_hd_ahead_en : forall r p, (p =c EN) = false ->
  (hd ON (w5_bwd (w5_fwd p r)) =c EN) = ahead_en r.
Proof.
  induction r as [|d r IH]; intros p Hp; [reflexivity|].
  cbn [w5_fwd]. rewrite Hp, Bool.andb_false_r. cbn [w5_bwd hd].
  destruct d; try reflexivity.
  cbn [ceq bclass_beq andb ahead_en]. rewrite <- (IH ET eq_refl).
  destruct (hd ON (w5_bwd (w5_fwd ET r)) =c EN); reflexivity.
Qed.

Lemma W56_gen : forall u p p', (p =c EN) = (p' =c EN) ->
  W56 p u = w6 (w5_bwd (w5_fwd p' u)).
Proof.
  unfold w6. induction u as [|c r IH]; intros p p' Hp; [reflexivity|].
  cbn [W56 w5_fwd w5_bwd map].
  destruct (bclass_eq_dec c ET) as [->|Hc].
  - cbn [ceq bclass_beq andb]. cbn [w56c p5c]. rewrite Hp.
    destruct (p' =c EN) eqn:E.
    + cbn [ceq bclass_beq andb orb]. f_equal. apply IH. reflexivity.
    + cbn [ceq bclass_beq andb orb]. rewrite (w5_hd_ahead_en r ET eq_refl).
      f_equal; [destruct (ahead_en r); reflexivity|]. apply IH. reflexivity.
  - assert (E : (c =c ET) = false) by (apply ceq_neq; exact Hc).
    rewrite E. cbn [andb]. rewrite E. cbn [andb]. f_equal.
    + destruct c; try reflexivity; contradiction.
    + apply IH. destruct c; try reflexivity; contradiction.
Qed.

Lemma F_spec sos eos t : (sos = L \/ sos = R) -> (eos = L \/ eos = R) ->
  F eos sos false sos sos t = w6 (w5 (w4 None (w3 (w2 sos (w1 sos t))))).
Proof.
  intros Hs He. unfold F.
  rewrite (G_spec eos) with (strong := sos);
    [| destruct He as [-> | ->]; discriminate | destruct He as [-> | ->]; discriminate
     | destruct Hs as [-> | ->]; reflexivity].
  rewrite (w4_none sos) by (destruct Hs as [-> | ->]; discriminate).
  unfold w5. rewrite w5_rev. apply W56_gen. destruct Hs as [-> | ->]; reflexivity.
Qed.

Lemma F_cons eos p1 al p4 p5 c r :
  F eos p1 al p4 p5 (c :: r) =
  let c1 := w1c c p1 in let c3 := w23c c1 al in let al' := alc c1 al in
  let c4 := w4c p4 c3 (nxc eos al' r) in
  w56c p5 c4 (ahead_en (G eos c1 al' c3 r)) :: F eos c1 al' c3 (p5c p5 c4) r.
Proof. reflexivity. Qed.

(* previous classes that take part in no rule: [F] does not tell them apart ([F_dead]) *)
Definition dcls (c : bclass) : Prop := c = ES \/ c = CS \/ c = ON.

Lemma F_dead eos : forall t p1 p1' al p4 p4' p5 p5',
  dcls p1 -> dcls p1' -> dcls p4 -> dcls p4' -> dcls p5 -> dcls p5' ->
  F eos p1 al p4 p5 t = F eos p1' al p4' p5' t.
Proof.
  induction t as [|c r IH]; intros p1 p1' al p4 p4' p5 p5' H1 H1' H4 H4' H5 H5'; [reflexivity|].
  rewrite !F_cons. cbv zeta.
  destruct (bclass_eq_dec c NSM) as [->|Hc].
  - assert (E1 : forall p, dcls p -> w1c NSM p = p /\ w23c p al = p /\ alc p al = al).
    { intros p [-> | [-> | ->]]; repeat split; reflexivity. }
    destruct (E1 p1 H1) as (-> & -> & ->). destruct (E1 p1' H1') as (-> & -> & ->).
    assert (E4 : forall q p nx, dcls q -> dcls p -> w4c q p nx = p).
    { intros q p nx [-> | [-> | ->]] [-> | [-> | ->]]; reflexivity. }
    rewrite !E4 by assumption.
    assert (E5 : forall q p ah, dcls q -> dcls p -> w56c q p ah = ON /\ dcls (p5c q p)).
    { intros q p ah [-> | [-> | ->]] [-> | [-> | ->]]; split; cbn; unfold dcls; auto. }
    destruct (E5 p5 p1 (ahead_en (G eos p1 al p1 r)) H5 H1) as [-> D].
    destruct (E5 p5' p1' (ahead_en (G eos p1' al p1' r)) H5' H1') as [-> D'].
    f_equal. apply IH; assumption.
  - assert (E1 : forall p, w1c c p = c).
    { intros p. unfold w1c. apply ceq_neq in Hc. rewrite Hc. reflexivity. }
    rewrite !E1.
    assert (E4 : forall nx, w4c p4 (w23c c al) nx = w4c p4' (w23c c al) nx).
    { intros nx. destruct H4 as [-> | [-> | ->]]; destruct H4' as [-> | [-> | ->]]; reflexivity. }
    rewrite E4.
    assert (E5 : forall c4 ah, w56c p5 c4 ah = w56c p5' c4 ah /\ p5c p5 c4 = p5c p5' c4).
    { intros c4 ah. destruct H5 as [-> | [-> | ->]]; destruct H5' as [-> | [-> | ->]];
        split; destruct c4; reflexivity. }
    destruct (E5 (w4c p4' (w23c c al) (nxc eos (alc c al) r))
                 (ahead_en (G eos c (alc c al) (w23c c al) r))) as [-> ->].
    reflexivity.
Qed.

Lemma F_no_AL eos : forall t p1 al p4 p5, Forall (fun c => c <> AL) (F eos p1 al p4 p5 t).
Proof.
  induction t as [|c r IH]; intros p1 al p4 p5; [constructor|].
  rewrite F_cons. cbv zeta. constructor; [|apply IH].
  set (c3 := w23c (w1c c p1) al).
  pose proof (w23c_not_AL (w1c c p1) al) as H3. fold c3 in H3.
  generalize (nxc eos (alc (w1c c p1) al) r). intros nx.
  generalize (ahead_en (G eos (w1c c p1) (alc (w1c c p1) al) c3 r)). intros ah.
  destruct (w4c_range p4 c3 nx) as [E | [_ [E | E]]]; rewrite E; try discriminate.
  unfold w56c. destruct c3; try discriminate; try contradiction.
  destruct ((p5 =c EN) || ah); discriminate.
Qed.

Lemma F_ahead_hd eos p1 al p4 p5 t :
  ahead_en (G eos p1 al p4 t) = true -> hd ON (F eos p1 al p4 p5 t) = EN.
Proof.
  destruct t as [|c r]; [discriminate|].
  rewrite F_cons. cbn [G ahead_en hd]. cbv zeta.
  generalize (w4c p4 (w23c (w1c c p1) al) (nxc eos (alc (w1c c p1) al) r)). intros c4.
  destruct c4; try discriminate.
  - reflexivity.
  - intros ->. cbn [w56c]. rewrite Bool.orb_true_r. reflexivity.
Qed.

Lemma range_empty a b : b <= a -> range a b = [].
Proof. intros H. unfold range. replace (b - a) with 0 by lia. reflexivity. Qed.

Definition good_unit (runs : list run) (n : nat) (bw : list nat) (ki : nat * nat) (fw : list nat) : Prop :=
  snd ki < n /\
  iter_forwards_from runs (snd ki + 1) (fst ki) = Ok fw /\
  iter_backwards_from runs (snd ki) (fst ki) = Ok bw.

Inductive zip_ok (runs : list run) (n : nat) : list nat -> list (nat * nat) -> Prop :=
| zip_nil bw : zip_ok runs n bw []
| zip_cons bw ki rest :
    good_unit runs n bw ki (map snd rest) -> zip_ok runs n (snd ki :: bw) rest ->
    zip_ok runs n bw (ki :: rest).

Lemma indexed_units_snd : forall runs k, map snd (indexed_units k runs) = flat_map run_range runs.
Proof.
  induction runs as [|r rest IH]; intros k; [reflexivity|].
  cbn [indexed_units flat_map]. rewrite map_app, IH, map_map. cbn [snd]. rewrite map_id. reflexivity.
Qed.

Lemma zip_run (runs : list run) n (pre : list run) s en (rest : list run) k bw0 :
  runs = pre ++ (s, en) :: rest -> k = length pre -> en <= n ->
  bw0 = rev (flat_map run_range pre) ->
  forall tail, map snd tail = flat_map run_range rest ->
  zip_ok runs n (rev (range s en) ++ bw0) tail ->
  forall d a, d = en - a -> s <= a -> a <= en ->
  zip_ok runs n (rev (range s a) ++ bw0) (map (fun i => (k, i)) (range a en) ++ tail).
Proof.
  intros Hruns Hk Hen Hbw tail Htail Hz.
  assert (Hn : nth_error runs k = Some (s, en)) by (rewrite Hruns, Hk; apply nth_error_mid).
  assert (Hs : skipn (S k) runs = rest).
  { rewrite Hruns, Hk. change (pre ++ (s, en) :: rest) with (pre ++ [(s, en)] ++ rest).
    rewrite app_assoc, <- (last_length pre (s, en)). apply skipn_length_app. }
  assert (Hf : firstn k runs = pre) by (rewrite Hruns, Hk; apply firstn_length_app).
  induction d as [|d IH]; intros a Hd Hsa Hae.
  - assert (a = en) by lia. subst a. rewrite (range_empty en en) by lia. exact Hz.
  - rewrite (range_cons a en) by lia. cbn [map app].
    constructor.
    + unfold good_unit. cbn [fst snd]. split; [lia|]. split.
      * rewrite (iter_forwards_nth _ _ _ _ Hn), Hs. cbn [snd].
        rewrite map_app, map_map. cbn [snd]. rewrite map_id, Htail.
        replace (a + 1) with (S a) by lia. reflexivity.
      * rewrite (iter_backwards_nth _ _ _ _ Hn), Hf, <- rev_flat_map, <- Hbw. reflexivity.
    + cbn [snd].
      replace (a :: rev (range s a) ++ bw0) with (rev (range s (S a)) ++ bw0).
      * apply IH; lia.
      * rewrite range_snoc by lia. rewrite rev_unit. reflexivity.
Qed.

Lemma zip_runs (runs : list run) n : Forall (run_in n) runs ->
  forall (rest pre : list run) k, runs = pre ++ rest -> k = length pre ->
  zip_ok runs n (rev (flat_map run_range pre)) (indexed_units k rest).
Proof.
  intros Hin. induction rest as [|[s en] rest IH]; intros pre k Hruns Hk.
  - cbn [indexed_units]. constructor.
  - cbn [indexed_units run_range fst snd].
    assert (Hr : run_in n (s, en)).
    { rewrite Forall_forall in Hin. apply Hin. rewrite Hruns. apply in_or_app. right. left. reflexivity. }
    destruct Hr as [Hlt Hle]. cbn [fst snd] in Hlt, Hle.
    pose proof (zip_run runs n pre s en rest k (rev (flat_map run_range pre)) Hruns Hk Hle eq_refl
                  (indexed_units (S k) rest) (indexed_units_snd rest (S k))) as Z.
    assert (Hz : zip_ok runs n (rev (range s en) ++ rev (flat_map run_range pre)) (indexed_units (S k) rest)).
    { rewrite <- rev_app_distr.
      replace (flat_map run_range pre ++ range s en) with (flat_map run_range (pre ++ [(s, en)])).
      - apply IH; [rewrite <- app_assoc; exact Hruns | rewrite app_length; cbn [length]; lia].
      - rewrite flat_map_app. cbn [flat_map run_range fst snd]. rewrite app_nil_r. reflexivity. }
    specialize (Z Hz (en - s) s eq_refl (le_n s) ltac:(lia)).
    rewrite (range_empty s s) in Z by lia. exact Z.
Qed.

Lemma NoDup_app_intro {A} (l1 l2 : list A) :
  NoDup l1 -> NoDup l2 -> (forall x, In x l1 -> ~ In x l2) -> NoDup (l1 ++ l2).
Proof.
  induction l1 as [|a l1 IH]; intros H1 H2 Hd; [exact H2|].
  inversion H1 as [|? ? Hni H1']; subst. cbn [app]. constructor.
  - intros Hin. apply in_app_or in Hin as [Hin|Hin]; [contradiction|].
    apply (Hd a); [left; reflexivity | exact Hin].
  - apply IH; [exact H1' | exact H2|]. intros x Hx. apply Hd. right. exact Hx.
Qed.

Lemma asc_nodup : forall runs prev, runs_ascending prev runs ->
  NoDup (flat_map run_range runs) /\ forall j, In j (flat_map run_range runs) -> prev <= j.
Proof.
  induction runs as [|[s en] rest IH]; intros prev H.
  - split; [constructor | intros j []].
  - cbn [runs_ascending] in H. destruct H as (Hp & Hlt & Hr).
    destruct (IH en Hr) as [Hnd Hge]. cbn [flat_map run_range fst snd]. split.
    + apply NoDup_app_intro; [apply seq_NoDup | exact Hnd|].
      intros x Hx Hx'. apply in_range in Hx. cbn [fst snd] in Hx. apply Hge in Hx'. lia.
    + intros j Hj. apply in_app_or in Hj as [Hj|Hj]; [apply in_range in Hj; cbn [fst snd] in Hj; lia|].
      apply Hge in Hj. lia.
Qed.

Lemma NoDup_app_inv {A} (l1 l2 : list A) :
  NoDup (l1 ++ l2) -> NoDup l1 /\ NoDup l2 /\ (forall x, In x l1 -> ~ In x l2).
Proof.
  intros H. split; [exact (NoDup_app_l _ _ H)|]. split; [exact (NoDup_app_r _ _ H)|].
  induction l1 as [|a l1 IH]; intros x Hx; [destruct Hx|].
  cbn [app] in H. inversion H as [|? ? Hn Hd]; subst.
  destruct Hx as [<-|Hx]; [intros Hin; apply Hn, in_or_app; right; exact Hin | exact (IH Hd x Hx)].
Qed.

Lemma nodup_zip {A} (bw : list A) i r :
  NoDup (rev bw ++ i :: r) ->
  ~ In i bw /\ ~ In i r /\ NoDup bw /\ NoDup r /\ (forall j, In j r -> ~ In j bw).
Proof.
  intros H. destruct (NoDup_app_inv _ _ H) as (H1 & H2 & H3).
  inversion H2 as [|? ? Hn Hd]; subst.
  split; [intros Hin; apply (H3 i); [apply in_rev in Hin; exact Hin | left; reflexivity]|].
  split; [exact Hn|].
  split; [apply NoDup_rev in H1; rewrite rev_involutive in H1; exact H1|].
  split; [exact Hd|].
  intros j Hj Hb. apply (H3 j); [apply in_rev in Hb; exact Hb | right; exact Hj].
Qed.

(* "unchanged, or BN turned to ON" composes *)
Lemma kept_or_on_trans (a b c : bclass) :
  (c = b \/ (b = BN /\ c = ON)) -> (b = a \/ (a = BN /\ b = ON)) -> c = a \/ (a = BN /\ c = ON).
Proof.
  intros [-> | [-> ->]] [-> | [-> E]]; auto; try discriminate.
Qed.

(* the two look-ahead writes of W6: backwards over [bw], then forwards over [fw] *)
Section Swb2.
Variables (pcA : list bclass) (bw fw : list nat).
Hypothesis Hb : forall j, In j bw -> j < length pcA.
Hypothesis Hf : forall j, In j fw -> j < length pcA.
Let pb := swb pcA bw ON.
Let pf := swb pb fw ON.

Lemma swb2_frame j : nth j pf BN = nth j pcA BN \/ (nth j pcA BN = BN /\ nth j pf BN = ON).
Proof.
  apply (kept_or_on_trans _ (nth j pb BN)); apply swb_frame; [|exact Hb].
  intros a Ha. unfold pb. rewrite swb_length. apply Hf, Ha.
Qed.

Lemma swb2_split : NoDup fw -> (forall j, In j fw -> ~ In j bw) ->
  exists z rest, fw = z ++ rest /\
    (forall j, In j z -> nth j pcA BN = BN /\ nth j pf BN = ON) /\
    (forall j, In j rest -> nth j pf BN = nth j pcA BN).
Proof.
  intros Hnd Hdis. exists (bnpre pb fw), (bnsuf pb fw).
  assert (Hin : forall j, In j (bnpre pb fw) \/ In j (bnsuf pb fw) -> In j fw).
  { intros j H. rewrite (bnpre_suf pb fw). apply in_or_app, H. }
  assert (Epb : forall j, In j fw -> nth j pb BN = nth j pcA BN).
  { intros j Hj. apply nth_eq_of_nth_error, swb_notin, Hdis, Hj. }
  unfold pf. rewrite swb_lset_all by exact Hnd.
  split; [apply bnpre_suf|]. split.
  - intros j H. split; [rewrite <- Epb by auto; apply (bnpre_bn _ _ _ H)|].
    apply nth_lset_all_in; [exact H | unfold pb; rewrite swb_length; auto].
  - intros j H. rewrite <- Epb by auto. apply nth_lset_all_notin.
    rewrite (bnpre_suf pb fw) in Hnd. intros H'. exact (proj2 (proj2 (NoDup_app_inv _ _ Hnd)) j H' H).
Qed.

End Swb2.


Section Fold.
Variable cps : list N.
Variable sq : irs.
Variable lv : nat -> bool.
Let n := length cps.
Let eos := irs_eos sq.

(* position j is as on input: a live position holds a class that X9 keeps, a removed one holds BN *)
Definition raw (pc : list bclass) (j : nat) : Prop :=
  (lv j = true -> not_removed_by_x9 (nth j pc BN) = true) /\ (lv j = false -> nth j pc BN = BN).

(* the classes at the live positions of l *)
Definition lcls (pc : list bclass) (l : list nat) : list bclass := at_ BN pc (filter lv l).

Definition dead (st : w_state) : Prop := dcls (w_prev1 st) /\ dcls (w_prev4 st) /\ dcls (w_prev5 st).

(* the positions still to visit: first removed ones that a write ahead has already turned to ON ([z]), then
   positions as on input; if [z] is not empty the three previous classes are [dcls] and no ET is pending *)
Definition zstruct (todo : list nat) (st : w_state) : Prop :=
  exists z rest, todo = z ++ rest /\
    (forall j, In j z -> lv j = false /\ nth j (w_pc st) BN = ON) /\
    (forall j, In j rest -> raw (w_pc st) j) /\
    (z <> [] -> dead st /\ w_et st = []).

Record Inv (bw todo : list nat) (st : w_state) : Prop := {
  i_len : length (w_pc st) = n;
  i_nd : NoDup (rev bw ++ todo);
  i_bnd : forall j, In j (rev bw ++ todo) -> j < n;
  i_et : incl (w_et st) bw;
  i_bn : incl (w_bn st) bw;
  i_bnv : forall j, In j (w_bn st) -> nth j (w_pc st) BN = BN;
  i_dis : forall j, In j (w_bn st) -> ~ In j (w_et st);
  i_pend : w_et st <> [] -> w_prev4 st = ET /\ w_prev5 st = ET;
  i_p1 : w_prev1 st <> BN;
  i_z : zstruct todo st
}.

Lemma raw_ext pc pc' j : nth j pc' BN = nth j pc BN -> raw pc j -> raw pc' j.
Proof. intros E [H1 H2]. split; rewrite E; assumption. Qed.

Lemma raw_bn pc j : raw pc j -> nth j pc BN = BN -> lv j = false.
Proof.
  intros [H1 _] E. destruct (lv j) eqn:L; [|reflexivity].
  specialize (H1 eq_refl). rewrite E in H1. discriminate.
Qed.

Lemma raw_live pc j : raw pc j -> nth j pc BN <> BN -> lv j = true.
Proof.
  intros [_ H2] E. destruct (lv j) eqn:L; [reflexivity|]. elim E. apply H2. reflexivity.
Qed.

Lemma lcls_ext pc pc' l : (forall j, In j l -> lv j = true -> nth j pc' BN = nth j pc BN) ->
  lcls pc' l = lcls pc l.
Proof.
  intros H. unfold lcls, at_. apply map_ext_in. intros j Hj. apply filter_In in Hj as [Hj Hl].
  apply H; assumption.
Qed.

Lemma lcls_cons_live pc i r : lv i = true -> lcls pc (i :: r) = nth i pc BN :: lcls pc r.
Proof. intros H. unfold lcls. cbn [filter]. rewrite H. reflexivity. Qed.

Lemma lcls_cons_dead pc i r : lv i = false -> lcls pc (i :: r) = lcls pc r.
Proof. intros H. unfold lcls. cbn [filter]. rewrite H. reflexivity. Qed.

Lemma pfind_raw pc : forall l, (forall j, In j l -> raw pc j) ->
  pfind not_removed_by_x9 pc l = hd_error (lcls pc l).
Proof.
  induction l as [|j r IH]; intros H; [reflexivity|].
  cbn [pfind]. assert (Hr : forall j', In j' r -> raw pc j') by (intros j' Hj'; apply H; right; exact Hj').
  destruct (H j (or_introl eq_refl)) as [H1 H2].
  destruct (lv j) eqn:L.
  - rewrite lcls_cons_live by exact L. rewrite (H1 eq_refl). reflexivity.
  - rewrite lcls_cons_dead by exact L. rewrite (H2 eq_refl). cbn [not_removed_by_x9 removed_by_x9 negb].
    apply IH. exact Hr.
Qed.

(* [c4] is the specification's class after W4 *)
Definition step_rel (bw : list nat) (i : nat) (r : list nat) (st st' : w_state) : Prop :=
  let pc := w_pc st in let pc' := w_pc st' in
  let c0 := nth i pc BN in
  let c1 := w1c c0 (w_prev1 st) in
  let c3 := w23c c1 (w_al st) in
  let al' := alc c1 (w_al st) in
  let p5 := w_prev5 st in
  let c4 := w4c (w_prev4 st) c3 (nxc eos al' (lcls pc r)) in
  w_prev1 st' = c1 /\ w_al st' = al' /\ w_prev4 st' = c3 /\ w_prev5 st' = p5c p5 c4 /\
  length pc' = n /\ w_bn st' = [] /\
  (forall j, j <> i -> ~ In j (w_et st) ->
     nth j pc' BN = nth j pc BN \/ (nth j pc BN = BN /\ nth j pc' BN = ON)) /\
  ((c4 = ET /\ (p5 =c EN) = false /\ w_et st' = w_et st ++ w_bn st ++ [i]) \/
   ((c4 <> ET \/ (p5 =c EN) = true) /\ w_et st' = [] /\ nth i pc' BN = w56c p5 c4 false /\
    forall j, In j (w_et st) -> nth j pc' BN = if c4 =c EN then EN else ON)) /\
  zstruct r st'.

Lemma zstruct_keep i r st st' :
  zstruct (i :: r) st ->
  (forall j, In j r -> nth j (w_pc st') BN = nth j (w_pc st) BN) ->
  (nth i (w_pc st) BN = ON -> dead st' /\ w_et st' = []) ->
  zstruct r st'.
Proof.
  intros (z & rest & Hs & Hz & Hr & Hd) Hv Hon.
  destruct z as [|i' zt].
  - cbn [app] in Hs. subst rest. exists [], r. split; [reflexivity|]. split; [intros j []|].
    split; [|intros H; elim H; reflexivity].
    intros j Hj. apply (raw_ext (w_pc st)); [apply Hv; exact Hj | apply Hr; right; exact Hj].
  - cbn [app] in Hs. injection Hs as <- ->. exists zt, rest. split; [reflexivity|].
    split; [|split].
    + intros j Hj. destruct (Hz j (or_intror Hj)) as [H1 H2]. split; [exact H1|].
      rewrite Hv by (apply in_or_app; left; exact Hj). exact H2.
    + intros j Hj. apply (raw_ext (w_pc st)); [apply Hv; apply in_or_app; right; exact Hj | apply Hr; exact Hj].
    + intros _. apply Hon. apply (Hz i). left. reflexivity.
Qed.

Lemma zstruct_head_live i r st :
  zstruct (i :: r) st -> nth i (w_pc st) BN <> ON ->
  forall j, In j (i :: r) -> raw (w_pc st) j.
Proof.
  intros (z & rest & Hs & Hz & Hr & _) Hne.
  destruct z as [|i' zt].
  - cbn [app] in Hs. subst rest. exact Hr.
  - cbn [app] in Hs. injection Hs as <- ->. elim Hne. apply (Hz i). left. reflexivity.
Qed.


Section StepFacts.
Variables (bw : list nat) (k i : nat) (r : list nat) (st : w_state).
Hypothesis HI : Inv bw (i :: r) st.
Hypothesis Hg : good_unit (irs_runs sq) n bw (k, i) r.
Hypothesis Hc0 : nth i (w_pc st) BN <> BN.

Let pc := w_pc st.
Let c0 := nth i pc BN.
Let c1 := w1c c0 (w_prev1 st).
Let c3 := w23c c1 (w_al st).
Let al' := alc c1 (w_al st).
Let p5 := w_prev5 st.
Let c4 := w4c (w_prev4 st) c3 (nxc eos al' (lcls pc r)).
Let pc1 := lset pc i c3.

Lemma sf_bound j : In j (rev bw ++ i :: r) -> j < length pc.
Proof. intros H. unfold pc. rewrite (i_len _ _ _ HI). apply (i_bnd _ _ _ HI), H. Qed.

Lemma sf_i : i < length pc.
Proof. apply sf_bound, in_or_app. right. left. reflexivity. Qed.

Lemma sf_nd : ~ In i bw /\ ~ In i r /\ NoDup bw /\ NoDup r /\ (forall j, In j r -> ~ In j bw).
Proof. apply nodup_zip. exact (i_nd _ _ _ HI). Qed.

Lemma sf_bw j : In j bw -> j < length pc.
Proof. intros H. apply sf_bound, in_or_app. left. rewrite <- in_rev. exact H. Qed.

Lemma sf_r j : In j r -> j < length pc.
Proof. intros H. apply sf_bound, in_or_app. right. right. exact H. Qed.

Lemma sf_et j : In j (w_et st) -> j < length pc.
Proof. intros H. apply sf_bw, (i_et _ _ _ HI), H. Qed.

Lemma sf_i_et : ~ In i (w_et st).
Proof. intros H. apply (i_et _ _ _ HI) in H. destruct sf_nd as (H1 & _). contradiction. Qed.

Lemma sf_r_et j : In j r -> ~ In j (w_et st) /\ j <> i.
Proof.
  intros Hj. destruct sf_nd as (_ & H2 & _ & _ & H5). split.
  - intros H. apply (i_et _ _ _ HI) in H. exact (H5 j Hj H).
  - intros ->. contradiction.
Qed.

Lemma sf_on : c0 = ON -> c1 = ON /\ c3 = ON /\ al' = w_al st.
Proof. intros H. unfold al', c3, c1. rewrite H. repeat split; reflexivity. Qed.

Lemma step_eval : weak_step U32 cps sq st (k, i) = Ok (wstep eos r bw st i).
Proof.
  destruct Hg as (Hin & Hfw & Hbw). cbn [fst snd] in Hin, Hfw, Hbw.
  destruct (t_char_at_U32 cps i Hin) as (c & Hc).
  exact (weak_step_eval U32 cps sq st k i c 1 r bw sf_i Hc0 sf_et Hc Hfw Hbw sf_r sf_bw).
Qed.

(* a step after which no ET is pending: the new array is [pcX] with the old pending ETs flushed *)
Lemma rel_flushed v pcX st' :
  length pcX = length pc -> nth i pcX BN = v -> v = p5c p5 c4 -> v = w56c p5 c4 false ->
  c4 <> ET \/ (p5 =c EN) = true ->
  (forall j, j <> i -> nth j pcX BN = nth j pc BN \/ (nth j pc BN = BN /\ nth j pcX BN = ON)) ->
  st' = mk_st c3 v c1 al' [] [] (lset_all pcX (w_et st) (if c4 =c EN then EN else ON)) ->
  zstruct r st' -> step_rel bw i r st st'.
Proof.
  intros HL Hv E5 E6 Hp Hfr -> Hz. unfold step_rel. cbv zeta.
  cbn [mk_st w_prev1 w_prev4 w_prev5 w_al w_et w_bn w_pc]. fold pc c0 c1 c3 al' p5 c4.
  split; [reflexivity|]. split; [reflexivity|]. split; [reflexivity|]. split; [exact E5|].
  split; [rewrite lset_all_length, HL; exact (i_len _ _ _ HI)|]. split; [reflexivity|].
  split; [intros j Hj Hn; rewrite nth_lset_all_notin by exact Hn; apply Hfr, Hj|].
  split; [|exact Hz].
  right. split; [exact Hp|]. split; [reflexivity|]. split.
  - rewrite nth_lset_all_notin by exact sf_i_et. rewrite Hv. exact E6.
  - intros j Hj. apply nth_lset_all_in; [exact Hj | rewrite HL; apply sf_et, Hj].
Qed.

(* the same when only position i was written *)
Lemma rel_flushed_keep v pcX st' :
  length pcX = length pc -> nth i pcX BN = v -> v = p5c p5 c4 -> v = w56c p5 c4 false ->
  c4 <> ET \/ (p5 =c EN) = true ->
  (forall j, j <> i -> nth j pcX BN = nth j pc BN) -> (c0 = ON -> v = ON) ->
  st' = mk_st c3 v c1 al' [] [] (lset_all pcX (w_et st) (if c4 =c EN then EN else ON)) ->
  step_rel bw i r st st'.
Proof.
  intros HL Hv E5 E6 Hp Hfr Hon E. apply (rel_flushed v pcX); try assumption.
  - intros j Hj. left. apply Hfr, Hj.
  - apply (zstruct_keep i r st); [exact (i_z _ _ _ HI) | |]; rewrite E; cbn [mk_st w_pc w_et].
    + intros j Hj. destruct (sf_r_et j Hj). rewrite nth_lset_all_notin by assumption. apply Hfr. assumption.
    + fold pc c0. intros H. destruct (sf_on H) as (H1 & H3 & _). split; [|reflexivity].
      unfold dead, dcls. cbn [mk_st w_prev1 w_prev4 w_prev5]. rewrite H1, H3, (Hon H). auto.
Qed.

Lemma wstep_rel_sep : c3 = ES \/ c3 = CS -> step_rel bw i r st (wstep eos r bw st i).
Proof.
  intros E. pose proof sf_i as Hi.
  destruct sf_nd as (Hibw & Hir & Hndb & Hndr & Hdisj).
  assert (Hon : c0 <> ON).
  { intros H. destruct (sf_on H) as (_ & H3 & _). rewrite H3 in E. destruct E; discriminate. }
  pose proof (zstruct_head_live i r st (i_z _ _ _ HI) Hon) as Hraw.
  assert (Enx : wnext eos al' pc1 r = nxc eos al' (lcls pc r)).
  { unfold wnext. rewrite (pfind_ext _ pc) by (intros j Hj; apply nth_lset_neq; intros ->; contradiction).
    rewrite pfind_raw by (intros j Hj; apply Hraw; right; exact Hj). symmetry. apply nxc_opt. }
  set (newc := newc_of (w_prev4 st) c3 (nxc eos al' (lcls pc r))).
  destruct (newc_w4c (w_prev4 st) c3 (nxc eos al' (lcls pc r)) p5 false E) as [Nw Np].
  fold newc c4 in Nw, Np.
  set (pc2 := lset pc1 i newc).
  set (pc3 := wsep eos (w_prev4 st) al' c3 r bw pc1 i).
  assert (P3 : pc3 = if newc =c ON then swb (swb pc2 bw ON) r ON else pc2).
  { unfold pc3, wsep. rewrite Enx. reflexivity. }
  assert (V3 : nth i pc3 BN = newc).
  { unfold pc3. rewrite wsep_at by (unfold pc1; rewrite ?lset_length; assumption). rewrite Enx. reflexivity. }
  assert (L2 : length pc2 = length pc) by (unfold pc2, pc1; rewrite !lset_length; reflexivity).
  assert (V2 : forall j, j <> i -> nth j pc2 BN = nth j pc BN).
  { intros j Hj. unfold pc2, pc1. rewrite !nth_lset_neq by exact Hj. reflexivity. }
  assert (Hb2 : forall j, In j bw -> j < length pc2) by (intros j Hj; rewrite L2; apply sf_bw, Hj).
  assert (Hf2 : forall j, In j r -> j < length pc2) by (intros j Hj; rewrite L2; apply sf_r, Hj).
  apply (rel_flushed newc pc3).
  - rewrite P3. destruct (newc =c ON); rewrite ?swb_length; exact L2.
  - exact V3.
  - exact Np.
  - exact Nw.
  - left. intros H. unfold c4 in H. apply w4c_ET in H. rewrite H in E. destruct E; discriminate.
  - intros j Hj. rewrite <- (V2 j Hj), P3.
    destruct (newc =c ON); [apply swb2_frame; assumption | left; reflexivity].
  - rewrite (wstep_sep _ _ _ _ _ Hi E Hir Hibw). cbv zeta. fold pc c0 c1 c3 al' pc1 pc3. rewrite V3.
    destruct (w_et st) as [|j et] eqn:Eet; [reflexivity|].
    destruct (i_pend _ _ _ HI) as [P4 _]; [rewrite Eet; discriminate|].
    replace (c4 =c EN) with false; [reflexivity|]. symmetry. apply ceq_neq.
    unfold c4. rewrite P4. destruct E as [-> | ->]; discriminate.
  - rewrite (wstep_sep _ _ _ _ _ Hi E Hir Hibw). cbv zeta. fold pc c0 c1 c3 al' pc1 pc3. rewrite V3.
    assert (Hk : forall j, In j r -> nth j (lset_all pc3 (w_et st) ON) BN = nth j pc3 BN).
    { intros j Hj. apply nth_lset_all_notin, (sf_r_et j Hj). }
    destruct (newc =c ON) eqn:EON.
    + apply ceq_eq in EON.
      destruct (swb2_split pc2 bw r Hf2 Hndr Hdisj) as (z & rest & Sp & Sz & Sr).
      assert (Hzr : forall j, In j z \/ In j rest -> In j r) by (intros j H; rewrite Sp; apply in_or_app, H).
      exists z, rest. cbn [mk_st w_pc w_et w_prev1 w_prev4 w_prev5].
      split; [exact Sp|]. split; [|split].
      * intros j Hj. destruct (Sz j Hj) as [Z1 Z2]. destruct (sf_r_et j (Hzr j (or_introl Hj))) as [_ Hji].
        rewrite (V2 j Hji) in Z1. split.
        -- apply (raw_bn pc); [apply Hraw; right; auto | exact Z1].
        -- rewrite Hk, P3 by auto. exact Z2.
      * intros j Hj. destruct (sf_r_et j (Hzr j (or_intror Hj))) as [_ Hji].
        apply (raw_ext pc); [|apply Hraw; right; auto].
        rewrite Hk, P3, (Sr j Hj) by auto. apply V2, Hji.
      * intros _. split; [|reflexivity]. unfold dead, dcls. cbn [mk_st w_prev1 w_prev4 w_prev5].
        rewrite <- (w23c_sep c1 (w_al st) E). fold c3. rewrite EON. destruct E as [-> | ->]; auto.
    + apply (zstruct_keep i r st); [exact (i_z _ _ _ HI) | |]; cbn [mk_st w_pc].
      * intros j Hj. rewrite Hk, P3 by exact Hj. apply V2, (sf_r_et j Hj).
      * fold pc c0. intros H. contradiction.
Qed.

Lemma wstep_rel : step_rel bw i r st (wstep eos r bw st i).
Proof.
  pose proof sf_i as Hi.
  assert (V1 : nth i pc1 BN = c3) by (apply nth_lset_eq, Hi).
  assert (F1 : forall j, j <> i -> nth j pc1 BN = nth j pc BN) by (intros j Hj; apply nth_lset_neq, Hj).
  assert (Hon : forall x, c3 <> ON -> c0 = ON -> x = ON).
  { intros x H3 H. destruct (sf_on H) as (_ & H3' & _). contradiction. }
  destruct (classify456 c3) as [E|[E|[E|(N1 & N2 & N3 & N4)]]].
  - assert (E4 : c4 = EN) by (unfold c4; rewrite E; apply w4c_other; discriminate).
    apply (rel_flushed_keep EN pc1); [apply lset_length | rewrite V1; exact E | | | | exact F1 | |];
      rewrite ?E4; try reflexivity; [left; discriminate | apply Hon; rewrite E; discriminate |].
    rewrite (wstep_EN _ _ _ _ _ Hi E), E. reflexivity.
  - apply wstep_rel_sep, E.
  - assert (E4 : c4 = ET) by (unfold c4; rewrite E; apply w4c_other; discriminate).
    destruct (bclass_eq_dec p5 EN) as [E5|E5].
    + apply (rel_flushed_keep EN (lset pc1 i EN));
        [unfold pc1; rewrite !lset_length; reflexivity | apply nth_lset_eq; unfold pc1; rewrite lset_length; exact Hi | | | |
         intros j Hj; rewrite nth_lset_neq by exact Hj; apply F1, Hj | apply Hon; rewrite E; discriminate |];
        rewrite ?E4, ?E5; try reflexivity; [right; reflexivity|].
      rewrite (wstep_ET_en _ _ _ _ _ Hi E E5), E. reflexivity.
    + rewrite (wstep_ET_join _ _ _ _ _ Hi E E5).
      assert (N5 : (p5 =c EN) = false) by (apply ceq_neq, E5).
      unfold step_rel. cbv zeta. cbn [mk_st w_prev1 w_prev4 w_prev5 w_al w_et w_bn w_pc].
      fold pc c0 c1 c3 al' p5 c4 pc1. rewrite E4.
      split; [reflexivity|]. split; [reflexivity|]. split; [symmetry; exact E|].
      split; [cbn [p5c]; rewrite N5; reflexivity|].
      split; [unfold pc1; rewrite lset_length; exact (i_len _ _ _ HI)|]. split; [reflexivity|].
      split; [intros j Hj _; left; apply F1, Hj|].
      split; [left; split; [reflexivity|]; split; [exact N5 | reflexivity]|].
      apply (zstruct_keep i r st); [exact (i_z _ _ _ HI) | |]; cbn [mk_st w_pc].
      * intros j Hj. destruct (sf_r_et j Hj). apply F1. assumption.
      * fold pc c0. intros H. destruct (sf_on H) as (_ & H3 & _). rewrite H3 in E. discriminate.
  - assert (E4 : c4 = c3) by (unfold c4; apply w4c_other; assumption).
    apply (rel_flushed_keep c3 pc1); [apply lset_length | exact V1 | | | | exact F1 | |]; rewrite ?E4.
    + destruct c3; try reflexivity; contradiction.
    + destruct c3; try reflexivity; contradiction.
    + left. exact N4.
    + intros H. apply (sf_on H).
    + rewrite (proj2 (ceq_neq _ _) N1). apply (wstep_other _ _ _ _ _ Hi N1 N2 N3 N4).
Qed.
End StepFacts.


(* [F] from the scalars of a state; what a pending ET (W5: EN ahead; else W6) becomes *)
Definition sF (st : w_state) : list bclass -> list bclass :=
  F eos (w_prev1 st) (w_al st) (w_prev4 st) (w_prev5 st).
Definition pendv (st : w_state) (t : list bclass) : bclass :=
  if ahead_en (G eos (w_prev1 st) (w_al st) (w_prev4 st) t) then EN else ON.

(* every removed position of l holds BN or ON, or EN when the next live class is EN *)
Fixpoint tr_pre (out : list bclass) (l : list nat) : Prop :=
  match l with
  | [] => True
  | j :: r =>
    (lv j = true \/ nth j out BN = BN \/ nth j out BN = ON \/
     (nth j out BN = EN /\ hd ON (lcls out r) = EN)) /\ tr_pre out r
  end.

(* the final vector [out] seen from the state [st] reached before [todo]: the live positions of [todo] hold what
   [F] computes from [st]; the pending ETs hold [pendv]; a visited position that is not pending keeps its class,
   or is a BN turned to ON *)
Record Concl (bw todo : list nat) (st : w_state) (out : list bclass) : Prop := {
  c_live : lcls out todo = sF st (lcls (w_pc st) todo);
  c_pend : forall j, In j (w_et st) -> nth j out BN = pendv st (lcls (w_pc st) todo);
  c_done : forall j, In j bw -> ~ In j (w_et st) -> ~ In j (w_bn st) ->
           nth j out BN = nth j (w_pc st) BN \/ (nth j (w_pc st) BN = BN /\ nth j out BN = ON);
  c_tr : tr_pre out todo;
  c_bn : forall j, In j (w_bn st) ->
         nth j out BN = BN \/ nth j out BN = ON \/
         (nth j out BN = EN /\ hd ON (sF st (lcls (w_pc st) todo)) = EN);
  c_len : length out = n
}.

Lemma zstruct_live_nbn todo st j :
  zstruct todo st -> In j todo -> lv j = true -> nth j (w_pc st) BN <> BN.
Proof.
  intros (z & rest & -> & Hz & Hr & _) Hj Hl. apply in_app_or in Hj as [Hj|Hj].
  - destruct (Hz j Hj) as [H _]. congruence.
  - destruct (Hr j Hj) as [H _]. specialize (H Hl). intros E. rewrite E in H. discriminate.
Qed.

Lemma zstruct_dead_head i r st :
  zstruct (i :: r) st -> nth i (w_pc st) BN <> BN -> lv i = false ->
  nth i (w_pc st) BN = ON /\ dead st /\ w_et st = [].
Proof.
  intros (z & rest & Hs & Hz & Hr & Hd) Hne Hl.
  destruct z as [|i' zt].
  - cbn [app] in Hs. subst rest. destruct (Hr i (or_introl eq_refl)) as [_ H]. elim Hne. apply H. exact Hl.
  - cbn [app] in Hs. injection Hs as <- ->. split; [apply (Hz i); left; reflexivity|].
    apply Hd. discriminate.
Qed.

Lemma base_concl bw st : Inv bw [] st -> Concl bw [] st (lset_all (w_pc st) (w_et st) ON).
Proof.
  intros HI.
  assert (Hb : forall j, In j (w_et st) -> j < length (w_pc st)).
  { intros j Hj. rewrite (i_len _ _ _ HI). apply (i_bnd _ _ _ HI). apply in_or_app. left.
    rewrite <- in_rev. apply (i_et _ _ _ HI). exact Hj. }
  constructor.
  - reflexivity.
  - intros j Hj. rewrite nth_lset_all_in by (auto). reflexivity.
  - intros j _ Hn _. left. apply nth_lset_all_notin. exact Hn.
  - exact I.
  - intros j Hj. left. rewrite nth_lset_all_notin by (apply (i_dis _ _ _ HI); exact Hj).
    apply (i_bnv _ _ _ HI). exact Hj.
  - rewrite lset_all_length. exact (i_len _ _ _ HI).
Qed.

Definition skip_st (st : w_state) (i : nat) : w_state :=
  {| w_prev4 := w_prev4 st; w_prev5 := w_prev5 st; w_prev1 := w_prev1 st; w_al := w_al st;
     w_et := w_et st; w_bn := w_bn st ++ [i]; w_pc := w_pc st |}.

Lemma rev_cons_app (bw : list nat) i r : rev (i :: bw) ++ r = rev bw ++ i :: r.
Proof. cbn [rev]. rewrite <- app_assoc. reflexivity. Qed.

Lemma inv_skip bw i r st :
  Inv bw (i :: r) st -> nth i (w_pc st) BN = BN -> Inv (i :: bw) r (skip_st st i).
Proof.
  intros HI E. destruct (nodup_zip _ _ _ (i_nd _ _ _ HI)) as (Hibw & _).
  constructor; cbn [skip_st w_pc w_et w_bn w_prev1 w_prev4 w_prev5].
  - exact (i_len _ _ _ HI).
  - rewrite rev_cons_app. exact (i_nd _ _ _ HI).
  - rewrite rev_cons_app. exact (i_bnd _ _ _ HI).
  - apply incl_tl. exact (i_et _ _ _ HI).
  - intros j Hj. apply in_app_or in Hj as [Hj|[<-|[]]]; [right; apply (i_bn _ _ _ HI); exact Hj | left; reflexivity].
  - intros j Hj. apply in_app_or in Hj as [Hj|[<-|[]]]; [apply (i_bnv _ _ _ HI); exact Hj | exact E].
  - intros j Hj. apply in_app_or in Hj as [Hj|[<-|[]]]; [apply (i_dis _ _ _ HI); exact Hj|].
    intros H. apply Hibw. apply (i_et _ _ _ HI). exact H.
  - exact (i_pend _ _ _ HI).
  - exact (i_p1 _ _ _ HI).
  - apply (zstruct_keep i r st); [exact (i_z _ _ _ HI) | reflexivity|].
    intros H. rewrite E in H. discriminate.
Qed.

Lemma concl_skip bw i r st out :
  Inv bw (i :: r) st -> nth i (w_pc st) BN = BN ->
  Concl (i :: bw) r (skip_st st i) out -> Concl bw (i :: r) st out.
Proof.
  intros HI E C. destruct (nodup_zip _ _ _ (i_nd _ _ _ HI)) as (Hibw & _).
  assert (Hl : lv i = false).
  { apply (raw_bn (w_pc st)); [|exact E].
    apply (zstruct_head_live i r st (i_z _ _ _ HI)); [rewrite E; discriminate | left; reflexivity]. }
  pose proof (c_live _ _ _ _ C) as CL. cbn [skip_st w_pc] in CL.
  constructor.
  - rewrite !lcls_cons_dead by exact Hl. exact CL.
  - intros j Hj. rewrite lcls_cons_dead by exact Hl. apply (c_pend _ _ _ _ C). exact Hj.
  - intros j Hj He Hb. apply (c_done _ _ _ _ C); [right; exact Hj | exact He|].
    cbn [skip_st w_bn]. intros H. apply in_app_or in H as [H|[<-|[]]]; contradiction.
  - cbn [tr_pre]. split; [|exact (c_tr _ _ _ _ C)].
    right. rewrite CL.
    apply (c_bn _ _ _ _ C). cbn [skip_st w_bn]. apply in_or_app. right. left. reflexivity.
  - intros j Hj. rewrite lcls_cons_dead by exact Hl.
    apply (c_bn _ _ _ _ C). cbn [skip_st w_bn]. apply in_or_app. left. exact Hj.
  - exact (c_len _ _ _ _ C).
Qed.

Lemma inv_step bw i r st st' :
  Inv bw (i :: r) st -> nth i (w_pc st) BN <> BN -> step_rel bw i r st st' -> Inv (i :: bw) r st'.
Proof.
  intros HI Hc0 SR. unfold step_rel in SR. cbv zeta in SR.
  destruct SR as (S1 & Sal & S4 & S5 & Sl & Sbn & Sfr & Sd & Sz).
  constructor.
  - exact Sl.
  - rewrite rev_cons_app. exact (i_nd _ _ _ HI).
  - rewrite rev_cons_app. exact (i_bnd _ _ _ HI).
  - destruct Sd as [(_ & _ & ->) | (_ & -> & _)]; [|intros j []].
    intros j Hj. apply in_app_or in Hj as [Hj|Hj]; [right; apply (i_et _ _ _ HI); exact Hj|].
    apply in_app_or in Hj as [Hj|[<-|[]]]; [right; apply (i_bn _ _ _ HI); exact Hj | left; reflexivity].
  - rewrite Sbn. intros j [].
  - rewrite Sbn. intros j [].
  - rewrite Sbn. intros j [].
  - destruct Sd as [(D1 & D2 & _) | (_ & -> & _)]; [|intros H; elim H; reflexivity].
    intros _. rewrite S4, S5. split; [apply w4c_ET in D1; exact D1|].
    rewrite D1. cbn [p5c]. rewrite D2. reflexivity.
  - rewrite S1. apply w1c_nbn; [exact Hc0 | exact (i_p1 _ _ _ HI)].
  - exact Sz.
Qed.

Lemma concl_step bw i r st st' out :
  Inv bw (i :: r) st -> nth i (w_pc st) BN <> BN -> step_rel bw i r st st' ->
  Concl (i :: bw) r st' out -> Concl bw (i :: r) st out.
Proof.
  intros HI Hc0 SR C. unfold step_rel in SR. cbv zeta in SR.
  set (pc := w_pc st) in *. set (pc' := w_pc st') in *.
  set (c0 := nth i pc BN) in *. set (c1 := w1c c0 (w_prev1 st)) in *.
  set (c3 := w23c c1 (w_al st)) in *. set (al' := alc c1 (w_al st)) in *.
  set (p5 := w_prev5 st) in *.
  set (c4 := w4c (w_prev4 st) c3 (nxc eos al' (lcls pc r))) in *.
  destruct SR as (S1 & Sal & S4 & S5 & Sl & Sbn & Sfr & Sd & Sz).
  destruct (nodup_zip _ _ _ (i_nd _ _ _ HI)) as (Hibw & Hir & Hndb & Hndr & Hdisj).
  assert (Het_bw : forall j, In j (w_et st) -> In j bw /\ j <> i).
  { intros j Hj. apply (i_et _ _ _ HI) in Hj. split; [exact Hj | intros ->; contradiction]. }
  assert (Hbn_bw : forall j, In j (w_bn st) -> In j bw /\ j <> i /\ ~ In j (w_et st) /\ nth j pc BN = BN).
  { intros j Hj. pose proof (i_bn _ _ _ HI j Hj) as Hb. split; [exact Hb|].
    split; [intros ->; contradiction|]. split; [apply (i_dis _ _ _ HI), Hj | apply (i_bnv _ _ _ HI), Hj]. }
  assert (L : lcls pc' r = lcls pc r).
  { apply lcls_ext. intros j Hj Hlv.
    assert (Hji : j <> i) by (intros ->; contradiction).
    assert (Hje : ~ In j (w_et st)) by (intros H; apply Het_bw in H as [H _]; exact (Hdisj j Hj H)).
    destruct (Sfr j Hji Hje) as [E | [E _]]; [exact E|].
    elim (zstruct_live_nbn (i :: r) st j (i_z _ _ _ HI) (or_intror Hj) Hlv). exact E. }
  set (t := lcls pc r) in *. set (ah := ahead_en (G eos c1 al' c3 t)).
  assert (CL : lcls out r = F eos c1 al' c3 (p5c p5 c4) t).
  { rewrite (c_live _ _ _ _ C). fold pc'. rewrite L. unfold sF. rewrite S1, Sal, S4, S5. reflexivity. }
  assert (PV' : pendv st' (lcls pc' r) = if ah then EN else ON).
  { rewrite L. unfold pendv. rewrite S1, Sal, S4. reflexivity. }
  assert (Hc4 : c4 <> BN).
  { apply w4c_nbn, w23c_nbn, w1c_nbn; [exact Hc0 | exact (i_p1 _ _ _ HI)]. }
  (* an index that st' no longer tracks has its final value, up to a later BN -> ON *)
  assert (OLD : forall j, In j (i :: bw) -> ~ In j (w_et st') ->
                nth j out BN = nth j pc' BN \/ (nth j pc' BN = BN /\ nth j out BN = ON)).
  { intros j Hj He. apply (c_done _ _ _ _ C j Hj He). rewrite Sbn. intros []. }
  assert (DONE : forall j, In j bw -> ~ In j (w_et st) -> ~ In j (w_bn st) ->
                 nth j out BN = nth j pc BN \/ (nth j pc BN = BN /\ nth j out BN = ON)).
  { intros j Hj He Hb.
    assert (Hji : j <> i) by (intros ->; contradiction).
    apply (kept_or_on_trans _ (nth j pc' BN)); [|apply Sfr; assumption].
    apply OLD; [right; exact Hj|].
    destruct Sd as [(_ & _ & ->) | (_ & -> & _)]; [|intros []].
    rewrite !in_app_iff. cbn [In]. intros [H|[H|[H|[]]]]; [contradiction | contradiction | congruence]. }
  (* the head of what the specification computes from here on *)
  assert (SFh : lv i = true -> sF st (lcls pc (i :: r)) = w56c p5 c4 ah :: lcls out r).
  { intros Hlv. rewrite lcls_cons_live by exact Hlv. unfold sF. rewrite F_cons, CL. reflexivity. }
  destruct Sd as [(D1 & D2 & D3) | (D1 & D2 & D3 & D4)].
  - (* i joins the pending ETs: its value and theirs is decided later, by [ah] *)
    assert (PE : forall j, In j (w_et st ++ w_bn st ++ [i]) -> nth j out BN = if ah then EN else ON).
    { intros j Hj. rewrite <- PV'. apply (c_pend _ _ _ _ C). rewrite D3. exact Hj. }
    assert (Hlv : lv i = true).
    { destruct (lv i) eqn:Hlv; [reflexivity|].
      destruct (zstruct_dead_head i r st (i_z _ _ _ HI) Hc0 Hlv) as (Hon & _).
      fold pc c0 in Hon. apply w4c_ET in D1. unfold c3, c1 in D1. rewrite Hon in D1. discriminate. }
    assert (W : w56c p5 c4 ah = if ah then EN else ON) by (rewrite D1; cbn [w56c]; rewrite D2; reflexivity).
    constructor.
    + fold pc. rewrite (SFh Hlv), W, <- (PE i) by (rewrite !in_app_iff; cbn [In]; auto).
      apply lcls_cons_live, Hlv.
    + intros j Hj. rewrite PE by (apply in_or_app; left; exact Hj).
      fold pc. rewrite lcls_cons_live by exact Hlv. unfold pendv. cbn [G]. fold c0 c1 c3 al' t c4. rewrite D1. reflexivity.
    + exact DONE.
    + split; [left; exact Hlv | exact (c_tr _ _ _ _ C)].
    + intros j Hj. rewrite PE by (rewrite !in_app_iff; auto). fold pc. rewrite (SFh Hlv), W. cbn [hd].
      destruct ah; auto.
    + exact (c_len _ _ _ _ C).
  - (* nothing is pending after the step *)
    rewrite D2 in OLD.
    assert (HERE : forall a, nth i out BN = w56c p5 c4 a).
    { intros a. destruct (OLD i (or_introl eq_refl)) as [E | [E _]]; [intros []| |]; rewrite D3 in E.
      - rewrite E. apply w56c_ah, D1.
      - elim (w56c_nbn p5 c4 false Hc4 E). }
    assert (BNF : forall j, In j (w_bn st) -> nth j out BN = BN \/ nth j out BN = ON).
    { intros j Hj. destruct (Hbn_bw j Hj) as (Hb & Hji & Hje & Hv).
      destruct (OLD j (or_intror Hb)) as [E | [_ E]]; [intros [] | | right; exact E].
      rewrite E. destruct (Sfr j Hji Hje) as [E' | [_ E']]; rewrite E'; auto. }
    destruct (lv i) eqn:Hlv.
    + constructor.
      * fold pc. rewrite (SFh eq_refl), <- (HERE ah). apply lcls_cons_live, Hlv.
      * intros j Hj. destruct (Het_bw j Hj) as [Hjb Hji].
        fold pc. rewrite lcls_cons_live by exact Hlv. unfold pendv. cbn [G]. fold c0 c1 c3 al' t c4.
        assert (C4 : c4 <> ET).
        { destruct D1 as [D1 | D1]; [exact D1|].
          destruct (i_pend _ _ _ HI) as [_ P5]; [intros H; rewrite H in Hj; destruct Hj|].
          fold p5 in P5. rewrite P5 in D1. discriminate. }
        rewrite ahead_cons by exact C4.
        destruct (OLD j (or_intror Hjb)) as [E | [E _]]; [intros [] | |]; rewrite (D4 j Hj) in E;
          [exact E | destruct (c4 =c EN); discriminate].
      * exact DONE.
      * split; [left; exact Hlv | exact (c_tr _ _ _ _ C)].
      * intros j Hj. destruct (BNF j Hj); auto.
      * exact (c_len _ _ _ _ C).
    + (* a removed position that a look-ahead write turned into ON *)
      destruct (zstruct_dead_head i r st (i_z _ _ _ HI) Hc0 Hlv) as (Hon & (Hd1 & Hd4 & Hd5) & Het0).
      fold pc c0 in Hon.
      assert (E1 : c1 = ON) by (unfold c1; rewrite Hon; reflexivity).
      assert (E3 : c3 = ON) by (unfold c3; rewrite E1; reflexivity).
      assert (E4 : c4 = ON) by (unfold c4; rewrite E3; apply w4c_other; discriminate).
      constructor.
      * fold pc. rewrite !lcls_cons_dead by exact Hlv. fold t. rewrite CL, E1, E3, E4.
        unfold sF, al'. rewrite E1. apply F_dead; unfold dcls; auto.
      * rewrite Het0. intros j [].
      * exact DONE.
      * split; [|exact (c_tr _ _ _ _ C)]. right. right. left. rewrite (HERE false), E4. reflexivity.
      * intros j Hj. destruct (BNF j Hj); auto.
      * exact (c_len _ _ _ _ C).
Qed.

Lemma fold_main : forall l bw st st_end,
  zip_ok (irs_runs sq) n bw l -> Inv bw (map snd l) st ->
  weak_fold U32 cps sq st l = Ok st_end ->
  Concl bw (map snd l) st (lset_all (w_pc st_end) (w_et st_end) ON).
Proof.
  induction l as [|[k i] l IH]; intros bw st st_end Z HI Hf.
  - cbn [weak_fold] in Hf. injection Hf as <-. apply base_concl. exact HI.
  - cbn [weak_fold] in Hf. apply bind_ok in Hf as (st' & Hs & Hf).
    inversion Z as [|? ? ? Hg Z']; subst. cbn [snd] in Z'. cbn [map snd] in *.
    destruct (bclass_eq_dec (nth i (w_pc st) BN) BN) as [E0|N0].
    + assert (Hi : i < length (w_pc st)).
      { destruct Hg as (H & _). cbn [snd] in H. rewrite (i_len _ _ _ HI). exact H. }
      rewrite (weak_step_bn U32 cps sq st k i) in Hs
        by (rewrite <- E0; apply nth_error_nth'; exact Hi).
      injection Hs as <-. fold (skip_st st i) in *.
      apply concl_skip; [exact HI | exact E0|].
      apply IH; [exact Z' | apply inv_skip; assumption | exact Hf].
    + rewrite (step_eval bw k i (map snd l) st HI Hg N0) in Hs. injection Hs as <-.
      pose proof (wstep_rel bw i (map snd l) st HI) as SR.
      apply (concl_step bw i (map snd l) st _ _ HI N0 SR).
      apply IH; [exact Z' | apply (inv_step bw i (map snd l) st _ HI N0 SR) | exact Hf].
Qed.

End Fold.

Lemma tr_pre_ext lv v v' : forall l, (forall j, In j l -> nth j v' BN = nth j v BN) ->
  tr_pre lv v l -> tr_pre lv v' l.
Proof.
  induction l as [|i r IH]; intros He H; [exact I|].
  cbn [tr_pre] in *. destruct H as [H1 H2].
  assert (Hr : forall j, In j r -> nth j v' BN = nth j v BN) by (intros j Hj; apply He; right; exact Hj).
  split; [|apply IH; assumption].
  rewrite (He i (or_introl eq_refl)).
  rewrite (lcls_ext lv v v' r) by (intros j Hj _; apply Hr; exact Hj). exact H1.
Qed.

Lemma find_lcls lv out : forall r x t, lcls lv out r = x :: t ->
  exists j', find lv r = Some j' /\ nth j' out BN = x.
Proof.
  induction r as [|j r IH]; intros x t H; [discriminate|].
  cbn [find]. destruct (lv j) eqn:E.
  - rewrite lcls_cons_live in H by exact E. injection H as <- _. eauto.
  - rewrite lcls_cons_dead in H by exact E. eapply IH. exact H.
Qed.

Lemma w7_step v b i r out c :
  nth_error v i = Some c -> w7_fold v b (i :: r) = Ok out ->
  (c = EN /\ b = true /\ w7_fold (lset v i L) true r = Ok out) \/
  (~ (c = EN /\ b = true) /\ w7_fold v (w7b c b) r = Ok out).
Proof.
  intros Hg H. cbn [w7_fold] in H. rewrite (get_some _ _ _ _ Hg) in H. cbn [bind] in H.
  destruct c; try (right; split; [intros [? _]; discriminate | exact H]).
  destruct b.
  - left. apply bind_ok in H as (v' & Hu & H). apply upd_ok_inv in Hu as [_ ->]. auto.
  - right. split; [intros [_ ?]; discriminate | exact H].
Qed.

Lemma w7b_spec c b strong : c <> AL -> b = (strong =c L) ->
  w7b c b = ((match c with L | R => c | _ => strong end) =c L).
Proof. intros Hc ->. destruct c; try reflexivity. contradiction. Qed.

Lemma w7_main oc : forall l v b strong out,
  NoDup l -> b = (strong =c L) ->
  Forall (fun c => c <> AL) (lcls (live oc) v l) ->
  tr_pre (live oc) v l ->
  w7_fold v b l = Ok out ->
  lcls (live oc) out l = w7 strong (lcls (live oc) v l) /\
  transparent_from oc out l = true /\
  (forall j, ~ In j l -> nth j out BN = nth j v BN).
Proof.
  induction l as [|i r IH]; intros v b strong out Hnd Hb Hal Htr H.
  - cbn [w7_fold] in H. injection H as <-. repeat split.
  - apply NoDup_cons_iff in Hnd as [Hir Hnd'].
    assert (Hg : exists c, nth_error v i = Some c).
    { cbn [w7_fold] in H. apply bind_ok in H as (c & Hg & _). apply get_ok in Hg. eauto. }
    destruct Hg as (c & Hg).
    pose proof (nth_error_nth v i BN Hg) as Hc.
    pose proof (nth_error_lt _ _ _ Hg) as Hi.
    cbn [tr_pre] in Htr. destruct Htr as [Htr1 Htr2].
    assert (EXT : forall j, In j r -> nth j (lset v i L) BN = nth j v BN).
    { intros j Hj. apply nth_lset_neq. intros ->. contradiction. }
    assert (LC : lcls (live oc) (lset v i L) r = lcls (live oc) v r).
    { apply lcls_ext. intros j Hj _. apply EXT. exact Hj. }
    destruct (live oc i) eqn:Hlv.
    + rewrite lcls_cons_live in Hal by exact Hlv. rewrite Hc in Hal.
      pose proof (Forall_inv Hal) as Hc_al. pose proof (Forall_inv_tail Hal) as Hal'. cbv beta in Hc_al.
      rewrite !lcls_cons_live by exact Hlv. rewrite Hc. cbn [w7 transparent_from]. rewrite Hlv.
      destruct (w7_step v b i r out c Hg H) as [(-> & -> & H') | (Hn & H')].
      * destruct (IH (lset v i L) true strong out Hnd' Hb) as (I1 & I2 & I3);
          [rewrite LC; exact Hal' | apply (tr_pre_ext (live oc) v); assumption | exact H' |].
        rewrite LC in I1. rewrite <- Hb. cbn [ceq bclass_beq andb].
        rewrite (I3 i Hir), nth_lset_eq by exact Hi. rewrite I1.
        split; [reflexivity|]. split; [exact I2|].
        intros j Hj. rewrite I3 by (intros Hr; apply Hj; right; exact Hr).
        apply nth_lset_neq. intros ->. apply Hj. left. reflexivity.
      * destruct (IH v (w7b c b) (match c with L | R => c | _ => strong end) out Hnd'
                    (w7b_spec c b strong Hc_al Hb) Hal' Htr2 H') as (I1 & I2 & I3).
        rewrite (I3 i Hir), Hc, I1.
        assert (E : (if (c =c EN) && (strong =c L) then L else c) = c).
        { destruct (c =c EN) eqn:Ec; [|reflexivity]. apply ceq_eq in Ec.
          destruct (strong =c L) eqn:Es; [|reflexivity].
          elim Hn. split; [exact Ec | rewrite Hb; reflexivity]. }
        rewrite E. split; [reflexivity|]. split; [exact I2|].
        intros j Hj. apply I3. intros Hr. apply Hj. right. exact Hr.
    + rewrite lcls_cons_dead in Hal by exact Hlv.
      rewrite !lcls_cons_dead by exact Hlv. cbn [transparent_from]. rewrite Hlv.
      destruct Htr1 as [Ht | Ht]; [discriminate|]. rewrite Hc in Ht.
      destruct (w7_step v b i r out c Hg H) as [(-> & -> & H') | (Hn & H')].
      * destruct Ht as [Ht | [Ht | [_ Ht]]]; try discriminate.
        destruct (IH (lset v i L) true strong out Hnd' Hb) as (I1 & I2 & I3);
          [rewrite LC; exact Hal | apply (tr_pre_ext (live oc) v); assumption | exact H' |].
        rewrite LC in I1. split; [exact I1|]. split.
        -- rewrite I2, Bool.andb_true_r. rewrite (I3 i Hir), nth_lset_eq by exact Hi.
           cbn [ceq bclass_beq orb].
           destruct (lcls (live oc) v r) as [|x t] eqn:El; [discriminate|]. cbn [hd] in Ht. subst x.
           cbn [w7] in I1. rewrite <- Hb in I1. cbn [ceq bclass_beq andb] in I1.
           destruct (find_lcls (live oc) out r _ _ I1) as (j' & -> & ->). reflexivity.
        -- intros j Hj. rewrite I3 by (intros Hr; apply Hj; right; exact Hr).
           apply nth_lset_neq. intros ->. apply Hj. left. reflexivity.
      * assert (Hw : w7b c b = b).
        { destruct Ht as [-> | [-> | [-> _]]]; reflexivity. }
        rewrite Hw in H'.
        destruct (IH v b strong out Hnd' Hb Hal Htr2 H') as (I1 & I2 & I3).
        split; [exact I1|]. split.
        -- rewrite I2, Bool.andb_true_r. rewrite (I3 i Hir), Hc.
           destruct Ht as [-> | [-> | [-> Ht]]]; try reflexivity.
           cbn [ceq bclass_beq orb].
           destruct (lcls (live oc) v r) as [|x t] eqn:El; [discriminate|]. cbn [hd] in Ht. subst x.
           cbn [w7] in I1.
           assert (Es : (strong =c L) = false).
           { destruct (strong =c L) eqn:Es; [|reflexivity]. elim Hn. split; [reflexivity | exact Hb]. }
           rewrite Es in I1. cbn [ceq bclass_beq andb] in I1.
           destruct (find_lcls (live oc) out r _ _ I1) as (j' & -> & ->). reflexivity.
        -- intros j Hj. apply I3. intros Hr. apply Hj. right. exact Hr.
Qed.

Lemma cs_weak_proof : CS_weak.
Proof.
  intros cps oc sq pc out Hlen Hoc (Hne & Hin & Hasc & Hsos & Heos) Hbn Hnr H.
  unfold resolve_weak in H.
  apply bind_ok in H as (st_end & Hf & H). apply bind_ok in H as (v & Hv & H7).
  apply set_all_ok_inv in Hv as [_ ->].
  set (sqi := flat_map run_range (irs_runs sq)) in *.
  set (st0 := {| w_prev4 := irs_sos sq; w_prev5 := irs_sos sq; w_prev1 := irs_sos sq; w_al := false;
                 w_et := []; w_bn := []; w_pc := pc |}) in *.
  destruct (asc_nodup _ _ Hasc) as [Hnd _]. fold sqi in Hnd.
  assert (Hz : zip_ok (irs_runs sq) (length cps) [] (indexed_units 0 (irs_runs sq))).
  { exact (zip_runs (irs_runs sq) (length cps) Hin (irs_runs sq) [] 0 eq_refl eq_refl). }
  assert (Hms : map snd (indexed_units 0 (irs_runs sq)) = sqi) by apply indexed_units_snd.
  assert (I0 : Inv cps (live oc) [] sqi st0).
  { constructor; cbn [st0 w_pc w_et w_bn w_prev1 w_prev4 w_prev5 rev app].
    - exact Hlen.
    - exact Hnd.
    - intros j Hj. exact (run_in_bound _ _ j Hin Hj).
    - intros j [].
    - intros j [].
    - intros j [].
    - intros j [].
    - intros H. elim H. reflexivity.
    - destruct Hsos as [-> | ->]; discriminate.
    - exists [], sqi. split; [reflexivity|]. split; [intros j []|]. split; [|intros H; elim H; reflexivity].
      intros j Hj. unfold bn_exact in Hbn. rewrite forallb_forall in Hbn.
      specialize (Hbn j Hj). apply Bool.eqb_prop in Hbn. split.
      + intros Hl. rewrite Forall_forall in Hnr. apply Hnr. unfold at_, live_idx.
        apply in_map_iff. exists j. split; [reflexivity|]. apply filter_In. split; assumption.
      + intros Hl. rewrite Hl in Hbn. cbn [negb] in Hbn. apply ceq_eq. exact Hbn. }
  rewrite <- Hms in I0.
  pose proof (fold_main cps sq (live oc) _ _ _ _ Hz I0 Hf) as C. rewrite Hms in C.
  set (v := lset_all (w_pc st_end) (w_et st_end) ON) in *.
  pose proof (c_live _ _ _ _ _ _ _ C) as CL. unfold sF in CL. cbn [st0 w_pc w_prev1 w_prev4 w_prev5 w_al] in CL.
  destruct (w7_main oc sqi v (irs_sos sq =c L) (irs_sos sq) out Hnd eq_refl) as (W1 & W2 & _).
  - rewrite CL. apply F_no_AL.
  - exact (c_tr _ _ _ _ _ _ _ C).
  - exact H7.
  - split; [|exact W2].
    unfold sq_weak_spec, weak, live_idx, seq_idx. fold sqi.
    change (at_ BN out (filter (live oc) sqi)) with (lcls (live oc) out sqi). rewrite W1, CL.
    rewrite F_spec by assumption. reflexivity.
Qed.
