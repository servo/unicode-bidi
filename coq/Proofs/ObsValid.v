(* Proofs/ObsValid.v — what [model_obs] returns for a valid case.  The text's characters have one
   character-level (U32) analysis [b], [p] (CharAnalysis.char_an); the lines are unit ranges
   [urun lens r] of character ranges [r].  The observation is [lift_obs b p clines]: every vector the
   per-unit expansion of the character-level one, every paragraph and run mapped to unit ranges, every
   summary query the character-level answer ([model_obs_valid], [valid_obs]).  For one line, the
   fields of [model_line] are given by the character-level line functions ([the_L], [the_runs],
   [the_RO]) under the hypotheses [line_ctx]; [lines_forall] reduces a per-line judge over both line
   lists of the observation to one line under [line_ctx].  The lemmas the final-form files
   (Finals1-6, C09Final, C13Final) take from here carry the prefix fl_. *)
From BidiVerif Require Import Base ModelText ModelResolve ModelLine Obs Judge Stmts2 Stmts3 Stmts5.
From BidiVerif.Proofs Require Import ListLib Units JudgeEqb.
From BidiVerif.Proofs Require Import L1 TotalAssemble LLLevels CharAnalysis Queries.
From BidiVerif.Props Require Import C04 C05 TextView LengthIndependence CLReorderLine LLRuns LLReorderLine.

Definition xbi (lens : list nat) (b : bidi_info) : bidi_info :=
  {| bi_classes := expand lens (bi_classes b); bi_levels := expand lens (bi_levels b);
     bi_paras := map (upara lens) (bi_paras b) |}.
Definition xpi (lens : list nat) (p : para_bidi_info) : para_bidi_info :=
  {| pb_classes := expand lens (pb_classes p); pb_levels := expand lens (pb_levels p);
     pb_level := pb_level p; pb_pure := pb_pure p |}.

Lemma text_obs_ext (o o' : text_obs) :
  to_ii o = to_ii o' -> to_bi o = to_bi o' -> to_bi_has_rtl o = to_bi_has_rtl o' ->
  to_bi_dirs o = to_bi_dirs o' -> to_bi_level_at o = to_bi_level_at o' -> to_bi_lines o = to_bi_lines o' ->
  to_pi o = to_pi o' -> to_pi_has_rtl o = to_pi_has_rtl o' -> to_pi_dir o = to_pi_dir o' ->
  to_pi_lines o = to_pi_lines o' -> to_bd o = to_bd o' -> to_bdf o = to_bdf o' -> to_sub o = to_sub o' ->
  o = o'.
Proof. destruct o, o'. cbn. intros. subst. reflexivity. Qed.

Lemma obs_bi c : to_bi (model_obs false c) = bidi_info_new (tc_enc c) (tc_ds c) (tc_text c) (tc_dir c).
Proof. reflexivity. Qed.
Lemma obs_pi c : to_pi (model_obs false c) = para_bidi_info_new (tc_enc c) (tc_ds c) (tc_text c) (tc_dir c).
Proof. reflexivity. Qed.

Lemma map_res_ok {A B} (f : A -> res B) (g : A -> B) l :
  (forall x, In x l -> f x = Ok (g x)) -> map_res f l = Ok (map g l).
Proof.
  induction l as [|x l IH]; intros H; [reflexivity|]. cbn [map_res map].
  rewrite (H x (or_introl eq_refl)), IH; [reflexivity|]. intros y Hy. apply H. right. exact Hy.
Qed.

Lemma map_res_map {A B C} (f : B -> res C) (g : A -> B) l : map_res f (map g l) = map_res (fun x => f (g x)) l.
Proof. induction l as [|x l IH]; [reflexivity|]. cbn [map map_res]. rewrite IH. reflexivity. Qed.

Lemma forallb_combine_maps {A B C} (Q : B * C -> bool) (f : A -> B) (g : A -> C) : forall l,
  forallb Q (combine (map f l) (map g l)) = forallb (fun x => Q (f x, g x)) l.
Proof. induction l as [|x t IH]; [reflexivity|]. cbn [map combine forallb]. rewrite IH. reflexivity. Qed.

Lemma level_at_range (lv : list nat) a : forall n s, s + n <= length lv -> a <= s ->
  map_res (fun k => get 1227 lv (a + k)) (seq (s - a) n) = Ok (firstn n (skipn s lv)).
Proof.
  induction n as [|n IH]; intros s Hs Ha; [reflexivity|].
  cbn [seq map_res]. replace (a + (s - a)) with s by lia.
  destruct (get_total 1227 lv s ltac:(lia)) as (x & Ex). rewrite Ex. cbn [bind].
  replace (S (s - a)) with (S s - a) by lia. rewrite (IH (S s)) by lia. cbn [bind].
  apply get_ok in Ex. rewrite (skipn_nth_error lv s x Ex). reflexivity.
Qed.

Lemma levels_at_sub lv q : p_start q <= p_end q -> p_end q <= length lv ->
  map_res (paragraph_level_at lv q) (range 0 (p_end q - p_start q)) = Ok (sub lv (p_start q) (p_end q)).
Proof.
  intros H1 H2. unfold range. rewrite Nat.sub_0_r.
  pose proof (level_at_range lv (p_start q) (p_end q - p_start q) (p_start q) ltac:(lia) ltac:(lia)) as E.
  rewrite Nat.sub_diag in E. exact E.
Qed.

Lemma para_direction_expand lens v : Forall (fun n => 0 < n) lens -> length v = length lens ->
  para_direction (expand lens v) = para_direction v.
Proof.
  intros Hp Hl. unfold para_direction.
  rewrite !para_direction_from_closed by reflexivity. rewrite !(existsb_expand _ lens Hp v Hl). reflexivity.
Qed.

Lemma valid_lines lens lines : Forall (valid_line lens) lines ->
  exists clines, lines = map (urun lens) clines /\ Forall (run_in (length lens)) clines.
Proof.
  induction 1 as [|[a b] t (i & j & Hij & Hj & Ha & Hb) _ (cl & -> & Hcl)]; [exists []; split; [reflexivity|constructor]|].
  cbn [fst snd] in Ha, Hb. subst a b. exists ((i, j) :: cl).
  split; [reflexivity|]. constructor; [split; assumption | exact Hcl].
Qed.

Section Valid.
Variables (e : enc) (ds : datasource) (text : list N) (d : option nat).
Hypothesis Hvalid : valid_text e text.
Let chars := view_of e text.
Let lens := map snd chars.
Let cps := map fst chars.
Let k := length chars.

Lemma fl_lens_pos : Forall (fun n => 0 < n) lens.
Proof. exact (view_lens_pos e text Hvalid). Qed.
Lemma fl_lens_length : length lens = k.
Proof. apply map_length. Qed.
Lemma fl_cps_length : length cps = k.
Proof. apply map_length. Qed.

Lemma ustart_leb a i : i < k -> (ustart lens a <=? ustart lens i) = (a <=? i).
Proof.
  intros Hi. pose proof (ustart_lt lens fl_lens_pos i (S i) ltac:(lia) ltac:(rewrite fl_lens_length; lia)) as Hs.
  destruct (Nat.leb_spec a i) as [H|H].
  - apply Nat.leb_le, ustart_mono, H.
  - apply Nat.leb_gt. pose proof (ustart_mono lens (S i) a H). lia.
Qed.

Lemma ustart_ltb i b : i < k -> (ustart lens i <? ustart lens b) = (i <? b).
Proof. intros Hi. rewrite !Nat.ltb_antisym, ustart_leb by exact Hi. reflexivity. Qed.

Lemma find_upara paras i : i < k ->
  find (fun q => (p_start q <=? ustart lens i) && (ustart lens i <? p_end q)) (map (upara lens) paras)
  = option_map (upara lens) (find (fun q => (p_start q <=? i) && (i <? p_end q)) paras).
Proof.
  intros Hi. induction paras as [|q ps IH]; [reflexivity|].
  cbn [map find upara p_start p_end]. rewrite ustart_leb, ustart_ltb by exact Hi.
  destruct ((p_start q <=? i) && (i <? p_end q)); [reflexivity | exact IH].
Qed.

Lemma level_of_line_upara paras r : fst r < k ->
  level_of_line (map (upara lens) paras) (urun lens r) = level_of_line paras r.
Proof.
  intros Hr. unfold level_of_line, urun. cbn [fst]. rewrite find_upara by exact Hr.
  destruct (find _ paras); reflexivity.
Qed.

Lemma find_para_tile paras (r : nat * nat) : ptile 0 k paras -> fst r < k ->
  exists q, In q paras /\ find (fun q => (p_start q <=? fst r) && (fst r <? p_end q)) paras = Some q.
Proof.
  intros Ht Hr. destruct (find _ paras) as [q|] eqn:Ef.
  - exists q. split; [exact (proj1 (find_some _ _ Ef)) | reflexivity].
  - exfalso. destruct (ptile_cover paras 0 k (fst r) Ht ltac:(lia)) as (q & Hq & H1 & H2).
    pose proof (find_none _ _ Ef q Hq) as Hn. cbv beta in Hn.
    apply andb_false_iff in Hn as [Hn|Hn]; [apply Nat.leb_gt in Hn | apply Nat.ltb_ge in Hn]; lia.
Qed.

Lemma para_of_line_tile paras r : ptile 0 k paras -> fst r < k ->
  (q <- para_of_line (map (upara lens) paras) (urun lens r) ;; Ok (p_level q)) = Ok (level_of_line paras r).
Proof.
  intros Ht Hr. destruct (find_para_tile paras r Ht Hr) as (q & _ & Ef).
  unfold para_of_line, level_of_line, urun. cbn [fst]. rewrite find_upara, Ef by exact Hr. reflexivity.
Qed.

Lemma level_of_line_le paras r : Forall (fun q => p_level q <= 1) paras -> level_of_line paras r <= 1.
Proof.
  intros H. unfold level_of_line. destruct (find _ paras) as [q|] eqn:Ef; [|lia].
  apply find_some in Ef as [Hin _]. rewrite Forall_forall in H. exact (H q Hin).
Qed.

Record line_ctx (cls : list bclass) (lv : list nat) (pl i j : nat) : Prop := {
  lc_cls : length cls = k;
  lc_lv : length lv = k;
  lc_lt : i < j;
  lc_le : j <= k;
  lc_126 : Forall (fun l => l <= 126) lv;
  lc_pl : pl <= 1;
  lc_group : map kgroup cls = map kgroup (map (ds_class ds) cps) }.

Section Line.
Variables (cls : list bclass) (lv : list nat) (pl i j : nat).

Definition the_line : nat * nat := (ustart lens i, ustart lens j).
Definition the_L : list nat := lline pl cls lv i j.
Definition the_LV : list nat := expand lens the_L.
Definition the_runs : list run :=
  match visual_runs_for_line false the_L (i, j) with Ok (_, runs) => runs | Panic _ => [] end.
Definition the_RO : list N := map (fun x => nth (i + x) cps 0%N) (Spec.l2 (Spec.l1 pl (sub cls i j) (sub lv i j))).
Definition the_lo : line_obs :=
  model_line false e text (expand lens cls) (expand lens lv) (Ok pl) the_line.

Hypothesis C : line_ctx cls lv pl i j.

Lemma fl_L_length : length the_L = k.
Proof. destruct C. apply (lline_length pl cls lv i j k); try assumption; lia. Qed.

Lemma fl_LV_length : length the_LV = total lens.
Proof. apply expand_length. rewrite fl_L_length, fl_lens_length. reflexivity. Qed.

Lemma fl_L_126 : Forall (fun l => l <= 126) the_L.
Proof.
  destruct C. unfold the_L, lline. apply Forall_app. split; [apply Forall_firstn; assumption|].
  apply Forall_app. split; [|apply Forall_skipn; assumption].
  apply l1_Forall; [lia | apply Forall_sub; assumption].
Qed.

Lemma fl_LV_126 : Forall (fun l => l <= 126) the_LV.
Proof.
  apply Forall_forall. intros l Hin. apply Units.In_expand in Hin.
  pose proof fl_L_126 as H. rewrite Forall_forall in H. exact (H l Hin).
Qed.

Lemma fl_line_lt : ustart lens i < ustart lens j.
Proof. destruct C. apply ustart_lt; [exact fl_lens_pos | assumption | rewrite fl_lens_length; assumption]. Qed.

Lemma fl_line : lo_line the_lo = the_line.
Proof. reflexivity. Qed.

Lemma fl_rl : lo_rl the_lo = Ok the_LV.
Proof.
  destruct C. unfold the_lo, model_line. cbn [lo_rl bind].
  apply (reordered_levels_gen e text Hvalid cls lv pl i j); try assumption; lia.
Qed.

Lemma fl_rlc : lo_rlc the_lo = Ok the_L.
Proof.
  destruct C. unfold the_lo, model_line. cbn [lo_rlc bind].
  apply (per_char_gen e text Hvalid cls lv pl i j); try assumption; lia.
Qed.

(* the last three conjuncts are what the judge of C05 checks *)
Lemma fl_vr :
  let a := ustart lens i in let b := ustart lens j in let uruns := map (urun lens) the_runs in
  lo_vr the_lo = Ok (the_LV, uruns) /\ lo_dvr the_lo = Ok uruns /\
  runs_cover a b uruns = true /\ forallb (run_uniform_maximal a b the_LV) uruns = true /\
  runs_visual_order a b the_LV uruns = map (fun x => a + x) (Spec.l2 (sub the_LV a b)).
Proof.
  pose proof C as [_ _ Hij Hj _ _ _].
  destruct (C05_visual_runs the_L i j Hij ltac:(rewrite fl_L_length; exact Hj) fl_L_126) as (runs' & Ev & _).
  assert (Er : the_runs = runs') by (unfold the_runs; rewrite Ev; reflexivity).
  pose proof (ll_visual_runs e text Hvalid the_L i j runs' fl_L_length Hij Hj Ev) as Eu.
  destruct (C05_visual_runs the_LV (ustart lens i) (ustart lens j) fl_line_lt
              ltac:(rewrite fl_LV_length; apply ustart_le_total) fl_LV_126) as (runs & H1 & H2 & H3 & H4 & H5).
  fold chars lens the_LV in Eu. rewrite Eu in H1. injection H1 as <-. rewrite <- Er in *.
  cbv zeta. pose proof fl_rl as R. unfold the_lo, model_line in *. cbn [lo_rl] in R.
  cbn [lo_vr lo_dvr]. rewrite R. cbn [bind]. unfold the_line. auto.
Qed.

Lemma fl_rv :
  let sl := sub the_LV (ustart lens i) (ustart lens j) in
  lo_rv the_lo = Ok (Spec.l2 sl) /\ length (Spec.l2 sl) = length sl.
Proof.
  intros sl. pose proof fl_rl as R. unfold the_lo, model_line in *. cbn [lo_rl] in R.
  cbn [lo_rv]. rewrite R. cbn [bind]. unfold the_line. cbn [fst snd].
  pose proof fl_line_lt as H1.
  rewrite slice_sub; [| lia | rewrite fl_LV_length; apply ustart_le_total]. cbn [bind]. fold sl.
  destruct (C04_reorder_visual sl (Forall_sub _ _ _ _ fl_LV_126)) as (out & Ho & Hlen & _ & Heq & _).
  rewrite Ho. subst out. split; [reflexivity | exact Hlen].
Qed.

Lemma fl_ro : exists out,
  lo_ro the_lo = Ok out /\ map fst (view_of e out) = the_RO /\ (well_formed e text -> out = encode_chars e the_RO).
Proof.
  destruct C as [Hc Hl Hij Hj H126 Hpl _]. rewrite <- fl_cps_length in Hc, Hl, Hj.
  destruct (cl_reorder_line cps cls lv pl i j Hc Hl Hij Hj H126 ltac:(lia)) as [E32 _].
  rewrite fl_cps_length in Hc, Hl, Hj.
  destruct (ll_reorder_line2 e text Hvalid cls lv pl i j _ Hc Hl Hij Hj E32) as (out & Eo & _ & Ho & Hw).
  exists out. unfold the_lo, model_line. cbn [lo_ro bind]. auto.
Qed.
End Line.

Definition lift_obs (b : bidi_info) (p : para_bidi_info) (clines : list (nat * nat)) : text_obs :=
  let lv := bi_levels b in
  let paras := bi_paras b in
  {| to_ii := Ok (expand lens (bi_classes b), map (upara lens) paras);
     to_bi := Ok (xbi lens b);
     to_bi_has_rtl := Ok (levels_has_rtl lv);
     to_bi_dirs := Ok (map (fun q => para_direction (sub lv (p_start q) (p_end q))) paras);
     to_bi_level_at := Ok (map (fun q => expand (sub lens (p_start q) (p_end q)) (sub lv (p_start q) (p_end q))) paras);
     to_bi_lines := map (fun r => the_lo (bi_classes b) lv (level_of_line paras r) (fst r) (snd r)) clines;
     to_pi := Ok (xpi lens p);
     to_pi_has_rtl := Ok (para_bidi_info_has_rtl false p);
     to_pi_dir := Ok (para_direction (pb_levels p));
     to_pi_lines := map (fun r => the_lo (pb_classes p) (pb_levels p) (pb_level p) (fst r) (snd r)) clines;
     to_bd := Ok (base_direction_from ds false 0 cps);
     to_bdf := Ok (base_direction_from ds true 0 cps);
     to_sub := map (fun q => s <- t_subrange 4 e text (p_start q) (p_end q) ;; bidi_info_new e ds s d)
                   (map (upara lens) paras) |}.

Section Analysis.
Variables (b : bidi_info) (p : para_bidi_info).
Hypothesis CA : char_an ds cps d b p.

Lemma upara_in q : In q (bi_paras b) ->
  p_start q <= p_end q /\ p_end q <= length (bi_levels b) /\
  ustart lens (p_start q) <= ustart lens (p_end q) /\ ustart lens (p_end q) <= length (expand lens (bi_levels b)).
Proof.
  intros Hq. destruct (ptile_in _ _ _ _ (ca_tile _ _ _ _ _ CA) Hq) as (_ & A & B).
  rewrite (ca_bi_lv _ _ _ _ _ CA). split; [exact A|]. split; [exact B|]. split; [apply ustart_mono, A|].
  rewrite expand_length by (rewrite (ca_bi_lv _ _ _ _ _ CA), fl_lens_length; apply fl_cps_length).
  apply ustart_le_total.
Qed.

Lemma bi_line_ctx r : run_in k r ->
  line_ctx (bi_classes b) (bi_levels b) (level_of_line (bi_paras b) r) (fst r) (snd r).
Proof.
  intros [H1 H2]. destruct CA. split; try assumption; try (rewrite <- fl_cps_length; assumption).
  apply level_of_line_le. assumption.
Qed.

Lemma pi_line_ctx r : run_in k r -> line_ctx (pb_classes p) (pb_levels p) (pb_level p) (fst r) (snd r).
Proof. intros [H1 H2]. destruct CA. split; try assumption; rewrite <- fl_cps_length; assumption. Qed.

Theorem model_obs_valid clines :
  fsi_proviso e ds chars -> Forall (run_in k) clines ->
  model_obs false {| tc_enc := e; tc_ds := ds; tc_text := text; tc_dir := d; tc_lines := map (urun lens) clines |}
  = lift_obs b p clines.
Proof.
  intros Hf Hcl.
  pose proof (li_bidi_info e text Hvalid ds d b Hf (ca_bi _ _ _ _ _ CA)) as Eb.
  pose proof (li_para_bidi_info e text Hvalid ds d p Hf (ca_pi _ _ _ _ _ CA)) as Ep.
  fold chars lens (xbi lens b) in Eb. fold chars lens (xpi lens p) in Ep.
  destruct (bi_from_ii _ _ _ _ _ Eb) as (ii & Ei & Hic & Hip).
  unfold bidi_info_new in Eb. unfold para_bidi_info_new in Ep.
  assert (Hlb : length (bi_levels b) = length lens)
    by (rewrite (ca_bi_lv _ _ _ _ _ CA), fl_lens_length; apply fl_cps_length).
  assert (Hlp : length (pb_levels p) = length lens)
    by (rewrite (ca_pi_lv _ _ _ _ _ CA), fl_lens_length; apply fl_cps_length).
  apply text_obs_ext; unfold model_obs, lift_obs;
    cbn [tc_enc tc_ds tc_text tc_dir tc_lines to_ii to_bi to_bi_has_rtl to_bi_dirs to_bi_level_at to_bi_lines
         to_pi to_pi_has_rtl to_pi_dir to_pi_lines to_bd to_bdf to_sub];
    rewrite ?Ei, ?Eb, ?Ep; cbn [bind]; try reflexivity.
  - (* to_ii *) rewrite <- Hic, <- Hip. reflexivity.
  - (* to_bi_has_rtl *) f_equal. unfold bidi_info_has_rtl, levels_has_rtl. cbn [xbi bi_levels].
    exact (existsb_expand _ lens fl_lens_pos _ Hlb).
  - (* to_bi_dirs *) cbn [xbi bi_levels bi_paras]. rewrite map_res_map. apply map_res_ok. intros q Hq.
    destruct (upara_in q Hq) as (A1 & A2 & A3 & A4).
    unfold paragraph_direction. cbn [upara p_start p_end].
    rewrite slice_sub, sub_expand by assumption. cbn [bind]. f_equal.
    apply para_direction_expand; [apply Forall_sub, fl_lens_pos|].
    rewrite !sub_length by lia. reflexivity.
  - (* to_bi_level_at *) cbn [xbi bi_levels bi_paras]. rewrite map_res_map. apply map_res_ok. intros q Hq.
    destruct (upara_in q Hq) as (A1 & A2 & A3 & A4).
    rewrite <- sub_expand by assumption. exact (levels_at_sub _ (upara lens q) A3 A4).
  - (* to_bi_lines *) rewrite map_map. apply map_ext_in. intros r Hr. rewrite Forall_forall in Hcl. destruct (Hcl r Hr) as [H1 H2].
    unfold the_lo. cbn [xbi bi_classes bi_levels bi_paras]. f_equal.
    apply para_of_line_tile; [|lia]. rewrite <- fl_cps_length. exact (ca_tile _ _ _ _ _ CA).
  - (* to_pi_dir *) f_equal. cbn [xpi pb_levels]. apply para_direction_expand; [exact fl_lens_pos | exact Hlp].
  - (* to_pi_lines *) apply map_map.
  - (* to_bd *) destruct (view_of_ok e text Hvalid) as (_ & _ & Hc & _). unfold get_base_direction. rewrite Hc. reflexivity.
  - (* to_bdf *) destruct (view_of_ok e text Hvalid) as (_ & _ & Hc & _). unfold get_base_direction. rewrite Hc. reflexivity.
Qed.

(* a judge of one line, on every line of both line lists: [P stored pl lo] is given the stored levels and
   the paragraph level as the judges of C03 and C06 look them up *)
Lemma lines_forall clines (P : list nat -> nat -> line_obs -> bool) :
  Forall (run_in k) clines ->
  (forall cls lv pl i j, line_ctx cls lv pl i j -> P (expand lens lv) pl (the_lo cls lv pl i j) = true) ->
  forallb (fun lo => P (bi_levels (xbi lens b)) (level_of_line (bi_paras (xbi lens b)) (lo_line lo)) lo)
          (to_bi_lines (lift_obs b p clines)) = true /\
  forallb (P (pb_levels (xpi lens p)) (pb_level (xpi lens p))) (to_pi_lines (lift_obs b p clines)) = true.
Proof.
  intros Hcl H. rewrite Forall_forall in Hcl.
  split; apply forallb_forall; intros lo Hin; apply in_map_iff in Hin as (r & <- & Hr);
    pose proof (Hcl r Hr) as Hrk.
  - rewrite fl_line. cbn [xbi bi_levels bi_paras]. change (the_line (fst r) (snd r)) with (urun lens r).
    rewrite level_of_line_upara by (destruct Hrk; lia). apply H, bi_line_ctx, Hrk.
  - apply H, pi_line_ctx, Hrk.
Qed.
End Analysis.
End Valid.

Theorem valid_obs c : valid_case c ->
  exists b p clines,
    char_an (tc_ds c) (map fst (view_of (tc_enc c) (tc_text c))) (tc_dir c) b p /\
    Forall (run_in (length (view_of (tc_enc c) (tc_text c)))) clines /\
    model_obs false c = lift_obs (tc_enc c) (tc_ds c) (tc_text c) (tc_dir c) b p clines.
Proof.
  intros (_ & Hv & Hf & Hd & HL). rewrite case_chars_view in Hf, HL.
  destruct (char_an_exists (tc_ds c) (map fst (view_of (tc_enc c) (tc_text c))) (tc_dir c) Hd) as (b & p & CA).
  destruct (valid_lines _ _ HL) as (clines & El & Hcl). rewrite map_length in Hcl.
  exists b, p, clines. split; [exact CA|]. split; [exact Hcl|].
  destruct c as [e ds text d lines]. cbn [tc_enc tc_ds tc_text tc_dir tc_lines] in *. subst lines.
  exact (model_obs_valid e ds text d Hv b p CA clines Hf Hcl).
Qed.

Lemma case_lines_forall c (P : list nat -> nat -> line_obs -> bool) : valid_case c ->
  (forall cls lv pl i j, line_ctx (tc_enc c) (tc_ds c) (tc_text c) cls lv pl i j ->
     P (expand (map snd (view_of (tc_enc c) (tc_text c))) lv) pl (the_lo (tc_enc c) (tc_text c) cls lv pl i j) = true) ->
  exists B PI, to_bi (model_obs false c) = Ok B /\ to_pi (model_obs false c) = Ok PI /\
    forallb (fun lo => P (bi_levels B) (level_of_line (bi_paras B) (lo_line lo)) lo)
            (to_bi_lines (model_obs false c)) = true /\
    forallb (P (pb_levels PI) (pb_level PI)) (to_pi_lines (model_obs false c)) = true.
Proof.
  intros Hvc H. destruct (valid_obs c Hvc) as (b & p & cl & CA & Hcl & ->). destruct Hvc as (_ & Hv & _).
  eexists _, _. split; [reflexivity|]. split; [reflexivity|].
  exact (lines_forall _ _ _ _ Hv b p CA cl P Hcl H).
Qed.
