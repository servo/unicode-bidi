(* Proofs/LIInitial.v — LENGTH INDEPENDENCE of compute_initial_info (Stmts3.LI_initial): the scan of a
   text in any encoding is the per-unit expansion of the scan of its character list in the ghost encoding
   U32: [compute_initial_info_units] at the view of a valid text.  The four [li_*] lemmas before the theorem are
   facts of Units.v that a reader of the statement needs: the expansion over no character is empty, an expansion
   has [total] units, character 0 starts at unit 0, no start exceeds the total. *)
From BidiVerif Require Import Base Judge Stmts2 Stmts3.
From BidiVerif.Proofs Require Import Units TextView InitialUnits.

Lemma li_xp_nil_l {A} (v : list A) : expand [] v = [].
Proof. reflexivity. Qed.

Lemma li_xp_length {A} (l : list nat) : forall (v : list A), length l = length v ->
  length (expand l v) = total l.
Proof. intros v H. apply expand_length. symmetry. exact H. Qed.

Lemma li_ustart_0 lens : ustart lens 0 = 0.
Proof. reflexivity. Qed.

Lemma li_ustart_le_total lens s : ustart lens s <= total lens.
Proof. apply ustart_le_total. Qed.

Lemma li_initial_main : LI_initial.
Proof.
  intros e text Hv ds d split ii' Hfsi H.
  exact (compute_initial_info_units e ds text (view_of e text) d split ii' (view_of_proved e text Hv) Hfsi H).
Qed.
