(* Proofs/InitialUnits.v — compute_initial_info on the code units of a text is the expansion of
   compute_initial_info on its characters.  After [j] characters the unit-level state is [ust st] for the
   character-level state [st] (class vector expanded over the first [j] characters, indices mapped by
   [ustart]); [Inv j st] records what the character-level state needs for that: the class vector has [j]
   cells, the open isolates and the paragraph start lie before [j], and a cell still holding FSI belongs
   to a character as long as U+2068 (the one encoded length lib.rs:386 assumes). *)
From BidiVerif Require Import Base ConstsGen ModelText ModelResolve Spec Judge Stmts Stmts2 Stmts3.
From BidiVerif.Proofs Require Import ListLib Units InitialStep.

Lemma expand_firstn {A} lens : forall (v : list A), expand lens v = expand (firstn (length v) lens) v.
Proof.
  induction lens as [|l lens IH]; intros [|x v]; try reflexivity.
  cbn [length firstn]. rewrite !expand_cons, <- IH. reflexivity.
Qed.

Section Prefix.
Context {A : Type} (lens : list nat) (v : list A).
Hypothesis Hv : length v <= length lens.

Let Hl : length v = length (firstn (length v) lens).
Proof. rewrite firstn_length. lia. Qed.

Lemma expand_prefix_lset s x : s < length v ->
  lset_all (expand lens v) (units lens s) x = expand lens (lset v s x).
Proof.
  intros Hs. rewrite (expand_firstn lens (lset v s x)), lset_length, expand_firstn.
  rewrite <- lset_units by exact Hl. unfold units. rewrite ustart_firstn by lia.
  rewrite nth_firstn_lt by exact Hs. reflexivity.
Qed.

Lemma expand_prefix_snoc x : length v < length lens ->
  expand lens (v ++ [x]) = expand lens v ++ repeat x (nth (length v) lens 0).
Proof.
  intros H. rewrite expand_firstn, (expand_firstn lens v), app_length. cbn [length]. rewrite Nat.add_1_r.
  destruct (nth_error lens (length v)) as [l|] eqn:E; [|apply nth_error_None in E; lia].
  rewrite (nth_error_nth _ _ 0 E).
  assert (F : firstn (S (length v)) lens = firstn (length v) lens ++ [l]).
  { rewrite <- (firstn_skipn (length v) lens) at 1. rewrite (skipn_nth_error _ _ _ E).
    rewrite firstn_app, firstn_length, firstn_firstn. replace (Nat.min (length v) (length lens)) with (length v) by lia.
    replace (S (length v) - length v) with 1 by lia. rewrite Nat.min_r by lia. reflexivity. }
  rewrite F. apply expand_snoc. symmetry. exact Hl.
Qed.
End Prefix.

Section Sim.
Variable e : enc.
Variable ds : datasource.
Variable chars : list (N * nat).
Hypothesis Hch : Forall (fun ch => snd ch = char_len e (fst ch) /\ 0 < snd ch) chars.
Hypothesis Hfsi : fsi_proviso e ds chars.
Notation lens := (map snd chars).

Definition ust (st : ii_state) : ii_state :=
  {| ii_classes := expand lens (ii_classes st);
     ii_stack := map (ustart lens) (ii_stack st);
     ii_para_start := ustart lens (ii_para_start st);
     ii_para_level := ii_para_level st;
     ii_pure := ii_pure st; ii_iso := ii_iso st;
     ii_paras := map (upara lens) (ii_paras st);
     ii_flags := ii_flags st |}.

Record Inv (j : nat) (st : ii_state) : Prop := {
  inv_len : length (ii_classes st) = j;
  inv_stk : Forall (fun s => s < j) (ii_stack st);
  inv_ps : ii_para_start st <= j;
  inv_fsi : forall s, nth_error (ii_classes st) s = Some FSI -> nth s lens 0 = char_len e fc_FSI
}.

Lemma char_facts j c len : nth_error chars j = Some (c, len) ->
  len = char_len e c /\ 0 < len /\ (ds_class ds c = FSI -> len = char_len e fc_FSI) /\
  nth j lens 0 = len /\ j < length lens.
Proof.
  intros H. pose proof (nth_error_In _ _ H) as Hin.
  unfold fsi_proviso in Hfsi. rewrite Forall_forall in Hch, Hfsi.
  destruct (Hch _ Hin) as [H1 H2]. pose proof (Hfsi _ Hin) as H3. cbn [fst snd] in *.
  repeat split; try assumption.
  - apply nth_error_nth. rewrite nth_error_map, H. reflexivity.
  - rewrite map_length. apply nth_error_Some. congruence.
Qed.

Let Lpos : Forall (fun n => 0 < n) lens := chars_lens_pos e chars Hch.

(* the FSI an isolate was opened by: the cell of the character at U32, its units here *)
Lemma ii_fix_units j st k len cls' :
  Inv j st -> j < length lens -> is_strong k = true ->
  ii_fix U32 st k (ii_classes st ++ [k]) = Ok cls' ->
  exists cc', cls' = cc' ++ [k] /\ length cc' = j /\
    (forall s, nth_error cc' s = Some FSI -> nth_error (ii_classes st) s = Some FSI) /\
    ii_fix e (ust st) k (expand lens (ii_classes st) ++ repeat k len) = Ok (expand lens cc' ++ repeat k len).
Proof.
  intros HI Hj Hk H. destruct HI as [Hlen Hstk Hps Hf]. set (cc := ii_classes st) in *.
  unfold ii_fix in *. rewrite Hk in *. cbn [ust ii_stack].
  destruct (ii_stack st) as [|s stk]; cbn [map].
  - injection H as <-. exists cc. auto.
  - pose proof (Forall_inv Hstk) as Hs. cbn beta in Hs. rewrite <- Hlen in Hs.
    apply bind_ok in H as (k0 & Hg & H). apply get_ok in Hg. rewrite nth_error_app1 in Hg by exact Hs.
    assert (Hp : 0 < nth s lens 0) by (apply (lens_pos_nth lens s Lpos); lia).
    assert (Hu : ustart lens s < length (expand lens cc)).
    { rewrite expand_length_gen. apply ustart_lt; [exact Lpos|exact Hs|lia]. }
    rewrite (get_some _ _ _ k0); [|rewrite nth_error_app1 by exact Hu; rewrite <- (Nat.add_0_r (ustart lens s));
                                    rewrite expand_nth_gen by exact Hp; exact Hg].
    cbn [bind]. destruct (k0 =c FSI) eqn:E0.
    + apply ceq_eq in E0. subst k0. set (kk := if k =c L then LRI else RLI) in *.
      cbn [char_len range Nat.sub seq write_fsi] in H. rewrite Nat.add_0_r in H.
      apply bind_ok in H as (c1 & H1 & H). injection H as <-. apply upd_ok_inv in H1 as [_ ->].
      rewrite lset_app_l by exact Hs.
      exists (lset cc s kk). split; [reflexivity|]. split; [rewrite lset_length; exact Hlen|]. split.
      * intros s' Hs'. rewrite nth_error_lset in Hs'. destruct ((s' =? s) && (s <? length cc)); [|exact Hs'].
        unfold kk in Hs'. destruct (k =c L); discriminate.
      * rewrite <- (Hf s Hg), write_fsi_set_all. unfold range. rewrite Nat.sub_0_r, map_add_seq, Nat.add_0_r.
        fold (units lens s). pose proof (ustart_S lens s) as HS.
        rewrite set_all_lset_all.
        -- rewrite lset_all_app_l; [rewrite expand_prefix_lset by (exact Hs || lia); reflexivity|].
           intros u Hu'. apply in_units in Hu' as (t & Ht & ->).
           rewrite expand_length_gen. pose proof (ustart_mono lens (S s) (length cc) Hs). lia.
        -- intros u Hu'. apply in_units in Hu' as (t & Ht & ->). rewrite app_length.
           rewrite expand_length_gen. pose proof (ustart_mono lens (S s) (length cc) Hs). lia.
    + injection H as <-. exists cc. auto.
Qed.

Lemma map_tl {X Y} (f : X -> Y) l : tl (map f l) = map f (tl l).
Proof. destruct l; reflexivity. Qed.

Lemma ii_ctl_units split dl st j k cc' : length cc' = j -> j < length lens ->
  ust (ii_ctl split dl st j 1 k (cc' ++ [k]))
  = ii_ctl split dl (ust st) (ustart lens j) (nth j lens 0) k (expand lens cc' ++ repeat k (nth j lens 0)).
Proof.
  intros <- Hj. unfold ii_ctl. rewrite Nat.add_1_r, <- ustart_S, <- expand_prefix_snoc by lia.
  destruct ((k =c B) && split); unfold ust;
    cbn [ii_classes ii_stack ii_para_start ii_para_level ii_pure ii_iso ii_paras ii_flags map].
  - rewrite map_app. reflexivity.
  - f_equal.
    + destruct (is_isolate_init k); [reflexivity|]. destruct (k =c PDI); [symmetry; apply map_tl | reflexivity].
    + destruct (ii_stack st); reflexivity.
Qed.

Lemma ii_ctl_inv split dl st j k len cc' : Inv j st -> nth j lens 0 = len ->
  (k = FSI -> len = char_len e fc_FSI) -> length cc' = j ->
  (forall s, nth_error cc' s = Some FSI -> nth_error (ii_classes st) s = Some FSI) ->
  Inv (S j) (ii_ctl split dl st j 1 k (cc' ++ [k])).
Proof.
  intros [Hlen Hstk Hps Hf] Hl Hk Hc Hsub.
  assert (Hstk' : Forall (fun s => s < S j) (ii_stack st)) by (revert Hstk; apply Forall_impl; intros; lia).
  assert (Hf' : forall s, nth_error (cc' ++ [k]) s = Some FSI -> nth s lens 0 = char_len e fc_FSI).
  { intros s H. destruct (Nat.lt_ge_cases s (length cc')) as [Hlt|Hge].
    - rewrite nth_error_app1 in H by exact Hlt. apply Hf, Hsub, H.
    - rewrite nth_error_app2 in H by exact Hge. destruct (s - length cc') as [|r] eqn:Er.
      + injection H as H. replace s with j by lia. rewrite Hl. apply Hk, H.
      + destruct r; discriminate H. }
  unfold ii_ctl. destruct ((k =c B) && split); constructor; cbn [ii_classes ii_stack ii_para_start];
    try exact Hf'; try (rewrite app_length; cbn [length]; lia); try lia.
  - constructor.
  - destruct (is_isolate_init k); [constructor; [lia|exact Hstk']|].
    destruct (k =c PDI); [|exact Hstk']. destruct (ii_stack st); [constructor | inversion Hstk'; assumption].
Qed.

Lemma ii_step_units split dl j c len st st' :
  Inv j st -> nth_error chars j = Some (c, len) ->
  ii_step U32 ds split dl st (j, c) = Ok st' ->
  ii_step e ds split dl (ust st) (ustart lens j, c) = Ok (ust st') /\ Inv (S j) st'.
Proof.
  intros HI Hn H. destruct (char_facts j c len Hn) as (Hlen & Hpos & HF & Hl & Hj).
  rewrite ii_step_nf in H |- *. cbn [char_len repeat] in H. rewrite <- Hlen. set (k := ds_class ds c) in *.
  apply bind_ok in H as (cls' & Hfix & H). injection H as <-.
  assert (X : exists cc', cls' = cc' ++ [k] /\ length cc' = j /\
            (forall s, nth_error cc' s = Some FSI -> nth_error (ii_classes st) s = Some FSI) /\
            ii_fix e (ust st) k (expand lens (ii_classes st) ++ repeat k len) = Ok (expand lens cc' ++ repeat k len)).
  { destruct (is_strong k) eqn:Ek; [exact (ii_fix_units j st k len cls' HI Hj Ek Hfix)|].
    unfold ii_fix in *. rewrite Ek in *. injection Hfix as <-. exists (ii_classes st).
    split; [reflexivity|]. split; [apply (inv_len _ _ HI)|]. auto. }
  destruct X as (cc' & -> & Hc & Hsub & Hu). change (ii_classes (ust st)) with (expand lens (ii_classes st)). rewrite Hu. cbn [bind].
  rewrite <- Hl, <- ii_ctl_units by assumption.
  split; [reflexivity | apply (ii_ctl_inv split dl st j k len); assumption].
Qed.

Lemma ii_fold_units split dl : forall suf pre st st',
  chars = pre ++ suf -> Inv (length pre) st ->
  ii_fold U32 ds split dl st (combine (seq (length pre) (length suf)) (map fst suf)) = Ok st' ->
  ii_fold e ds split dl (ust st)
          (map (fun x : nat * N * nat => (fst (fst x), snd (fst x))) (positions (ustart lens (length pre)) suf))
    = Ok (ust st') /\ Inv (length chars) st'.
Proof.
  induction suf as [|[c len] suf IH]; intros pre st st' Hsp HI H.
  - cbn [length seq map combine ii_fold] in H. injection H as <-.
    rewrite Hsp, app_nil_r. split; [reflexivity | exact HI].
  - cbn [length seq map fst combine ii_fold] in H. apply bind_ok in H as (st1 & H1 & H2).
    assert (Hn : nth_error chars (length pre) = Some (c, len)) by (rewrite Hsp; apply nth_error_mid).
    destruct (ii_step_units split dl (length pre) c len st st1 HI Hn H1) as [Hs HI'].
    destruct (char_facts _ _ _ Hn) as (_ & _ & _ & Hl & _).
    cbn [positions map fst snd ii_fold]. rewrite Hs. cbn [bind].
    rewrite <- Hl, <- ustart_S.
    specialize (IH (pre ++ [(c, len)]) st1 st'). rewrite app_length in IH. cbn [length] in IH.
    rewrite Nat.add_1_r in IH. apply IH; [rewrite <- app_assoc; exact Hsp | exact HI' | exact H2].
Qed.

End Sim.

Theorem compute_initial_info_units e ds text chars d split ii' :
  text_view e text chars -> fsi_proviso e ds chars ->
  compute_initial_info U32 ds (map fst chars) d split = Ok ii' ->
  let lens := map snd chars in
  compute_initial_info e ds text d split =
    Ok {| in_classes := expand lens (in_classes ii'); in_level := in_level ii';
          in_pure := in_pure ii'; in_iso := in_iso ii';
          in_paras := map (upara lens) (in_paras ii'); in_flags := in_flags ii' |}.
Proof.
  intros (Hci & _ & _ & Hlen & Hch) Hfsi H lens. unfold compute_initial_info in *.
  apply bind_ok in H as (stc & Hf & Hr). cbn [t_char_indices t_len] in Hf, Hr. rewrite map_length in Hf, Hr.
  match type of Hf with ii_fold _ _ _ _ ?s0 _ = _ => set (st0 := s0) in * end.
  assert (HI0 : Inv e chars 0 st0).
  { constructor; cbn [st0 ii_classes ii_stack ii_para_start]; [reflexivity | constructor | lia |].
    intros [|s] H; discriminate H. }
  destruct (ii_fold_units e ds chars Hch Hfsi split d chars [] st0 stc eq_refl HI0 Hf) as [Hu [Hcc _ Hps _]].
  assert (E0 : ust chars st0 = st0) by (unfold ust, st0; cbn [ii_classes]; rewrite expand_nil_r; reflexivity).
  rewrite E0 in Hu. cbn [length] in Hu. change (ustart (map snd chars) 0) with 0 in Hu. rewrite Hci.
  rewrite Hu. cbn [bind ust ii_classes ii_para_start ii_para_level ii_pure ii_iso ii_paras ii_flags]. rewrite Hlen.
  fold lens. assert (Hk : length lens = length chars) by apply map_length.
  pose proof (chars_lens_pos e chars Hch) as Hpos. fold lens in Hpos.
  assert (Hb : (ustart lens (ii_para_start stc) <? total lens) = (ii_para_start stc <? length chars)).
  { rewrite <- (ustart_all lens (length lens) (le_n _)), Hk.
    destruct (Nat.ltb_spec (ii_para_start stc) (length chars)) as [Hlt|Hge].
    - apply Nat.ltb_lt, ustart_lt; [exact Hpos | exact Hlt | lia].
    - replace (ii_para_start stc) with (length chars) by lia. apply Nat.ltb_irrefl. }
  rewrite Hb. destruct (split && (ii_para_start stc <? length chars)); injection Hr as <-;
    cbn [in_classes in_level in_pure in_iso in_paras in_flags]; [|reflexivity].
  rewrite map_app. cbn [map]. unfold upara. cbn [p_start p_end p_level].
  rewrite <- Hk, (ustart_all lens (length lens) (le_n _)). reflexivity.
Qed.
