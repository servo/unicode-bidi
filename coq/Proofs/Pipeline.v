(* Proofs/Pipeline.v — the composite functions of the model taken apart once: what a successful run of
   compute_bidi_info_for_para, of one round of the per-paragraph loop bidi_paras and of the two
   constructors consists of ([*_inv]), and how such a run is put together from its parts; the step of
   resolve_levels and of assign_levels_to_removed_chars for one character. *)
From BidiVerif Require Import Base ModelText ModelResolve.
From BidiVerif.Proofs Require Import ListLib.

Lemma skipn_add {A} a b : forall (l : list A), skipn (a + b) l = skipn b (skipn a l).
Proof.
  induction a as [|a IH]; intros [|x l]; cbn [Nat.add skipn]; [reflexivity | reflexivity | |apply IH].
  rewrite skipn_nil. reflexivity.
Qed.

Lemma slice_skipn {A} s (l q r : list A) a : skipn a l = q ++ r -> a <= length l ->
  slice s l a (a + length q) = Ok q.
Proof.
  intros H Ha. pose proof (f_equal (@length A) H) as HL. rewrite skipn_length, app_length in HL.
  rewrite slice_ok by lia. rewrite H, Nat.add_comm, Nat.add_sub, firstn_length_app. reflexivity.
Qed.

Definition rl1 (c : bclass) (l : nat) : res nat :=
  match is_rtl l, c with
  | false, AN | false, EN =>
    match level_raise l 2 with Some x => Ok x | None => Panic 587 end
  | false, R | true, L | true, EN | true, AN =>
    match level_raise l 1 with Some x => Ok x | None => Panic 589 end
  | _, _ => Ok l
  end.

Lemma resolve_levels_cons c pcs l ls :
  resolve_levels (c :: pcs) (l :: ls) = (l' <- rl1 c l ;; rest <- resolve_levels pcs ls ;; Ok (l' :: rest)).
Proof. reflexivity. Qed.

Lemma assign_removed_cons prev c cs l ls :
  assign_removed_from prev (c :: cs) (l :: ls) =
  (rest <- assign_removed_from (if removed_by_x9 c then prev else l) cs ls ;;
   Ok ((if removed_by_x9 c then prev else l) :: rest)).
Proof. reflexivity. Qed.

Section Pipe.
Variable e : enc.
Variable ds : datasource.

Lemma para_fast legacy pl pure iso text oc : (pl =? 0) && pure = true ->
  compute_bidi_info_for_para_gen e ds legacy pl pure iso text oc = Ok (repeat pl (length oc)).
Proof. intros E. unfold compute_bidi_info_for_para_gen. rewrite E. reflexivity. Qed.

Lemma para_slow legacy pl pure iso text oc lv pc runs seqs pc' lv' : (pl =? 0) && pure = false ->
  explicit_compute e text pl oc (repeat pl (length oc)) oc = Ok (lv, pc, runs) ->
  isolating_run_sequences pl oc lv runs iso = Ok seqs ->
  resolve_sequences e ds legacy text lv oc pc seqs = Ok pc' ->
  resolve_levels pc' lv = Ok lv' ->
  compute_bidi_info_for_para_gen e ds legacy pl pure iso text oc = assign_levels_to_removed_chars pl oc lv'.
Proof.
  intros E H1 H2 H3 H4. unfold compute_bidi_info_for_para_gen. rewrite E, H1. cbn [bind].
  rewrite H2. cbn [bind]. rewrite H3. cbn [bind]. rewrite H4. reflexivity.
Qed.

Lemma para_slow_inv legacy pl pure iso text oc out : (pl =? 0) && pure = false ->
  compute_bidi_info_for_para_gen e ds legacy pl pure iso text oc = Ok out ->
  exists lv pc runs seqs pc' lv',
    explicit_compute e text pl oc (repeat pl (length oc)) oc = Ok (lv, pc, runs) /\
    isolating_run_sequences pl oc lv runs iso = Ok seqs /\
    resolve_sequences e ds legacy text lv oc pc seqs = Ok pc' /\
    resolve_levels pc' lv = Ok lv' /\
    assign_levels_to_removed_chars pl oc lv' = Ok out.
Proof.
  intros E H. unfold compute_bidi_info_for_para_gen in H. rewrite E in H.
  apply bind_ok in H as ([[lv pc] runs] & H1 & H). apply bind_ok in H as (seqs & H2 & H).
  apply bind_ok in H as (pc' & H3 & H). apply bind_ok in H as (lv' & H4 & H).
  exists lv, pc, runs, seqs, pc', lv'. auto.
Qed.

Lemma bidi_paras_step legacy text classes p ps f fs acc ptext poc pl :
  length acc = p_start p ->
  t_subrange 509 e text (p_start p) (p_end p) = Ok ptext ->
  slice 510 classes (p_start p) (p_end p) = Ok poc ->
  compute_bidi_info_for_para_gen e ds legacy (p_level p) (f_pure_ltr f) (f_has_isolate f) ptext poc = Ok pl ->
  bidi_paras e ds legacy text classes (p :: ps) (f :: fs) acc
  = bidi_paras e ds legacy text classes ps fs (acc ++ pl).
Proof.
  intros H0 H1 H2 H3. cbn [bidi_paras]. rewrite H0, Nat.eqb_refl. cbn [bind].
  rewrite H1. cbn [bind]. rewrite H2. cbn [bind]. rewrite H3. reflexivity.
Qed.

Lemma bidi_paras_cons_inv legacy text classes p ps f fs acc out :
  bidi_paras e ds legacy text classes (p :: ps) (f :: fs) acc = Ok out ->
  exists ptext poc pl,
    length acc = p_start p /\
    t_subrange 509 e text (p_start p) (p_end p) = Ok ptext /\
    slice 510 classes (p_start p) (p_end p) = Ok poc /\
    compute_bidi_info_for_para_gen e ds legacy (p_level p) (f_pure_ltr f) (f_has_isolate f) ptext poc = Ok pl /\
    bidi_paras e ds legacy text classes ps fs (acc ++ pl) = Ok out.
Proof.
  cbn [bidi_paras]. intros H. apply bind_ok in H as (u & H0 & H).
  destruct (Nat.eqb_spec (length acc) (p_start p)) as [E|]; [|discriminate H0].
  apply bind_ok in H as (ptext & H1 & H). apply bind_ok in H as (poc & H2 & H).
  apply bind_ok in H as (pl & H3 & H). exists ptext, poc, pl. auto.
Qed.

Lemma bidi_info_new_intro legacy text d ii levels :
  compute_initial_info e ds text d true = Ok ii ->
  bidi_paras e ds legacy text (in_classes ii) (in_paras ii) (in_flags ii) [] = Ok levels ->
  bidi_info_new_gen e ds legacy text d
  = Ok {| bi_classes := in_classes ii; bi_levels := levels; bi_paras := in_paras ii |}.
Proof. intros H1 H2. unfold bidi_info_new_gen. rewrite H1. cbn [bind]. rewrite H2. reflexivity. Qed.

Lemma bidi_info_new_inv legacy text d b : bidi_info_new_gen e ds legacy text d = Ok b ->
  exists ii, compute_initial_info e ds text d true = Ok ii /\
    bidi_paras e ds legacy text (in_classes ii) (in_paras ii) (in_flags ii) [] = Ok (bi_levels b) /\
    b = {| bi_classes := in_classes ii; bi_levels := bi_levels b; bi_paras := in_paras ii |}.
Proof.
  unfold bidi_info_new_gen. intros H. apply bind_ok in H as (ii & H1 & H).
  apply bind_ok in H as (levels & H2 & H). injection H as <-. exists ii. auto.
Qed.

Lemma para_bidi_info_new_intro legacy text d ii levels :
  compute_initial_info e ds text d false = Ok ii ->
  compute_bidi_info_for_para_gen e ds legacy (in_level ii) (in_pure ii) (in_iso ii) text (in_classes ii) = Ok levels ->
  para_bidi_info_new_gen e ds legacy text d
  = Ok {| pb_classes := in_classes ii; pb_levels := levels; pb_level := in_level ii; pb_pure := in_pure ii |}.
Proof. intros H1 H2. unfold para_bidi_info_new_gen. rewrite H1. cbn [bind]. rewrite H2. reflexivity. Qed.

Lemma para_bidi_info_new_inv legacy text d p : para_bidi_info_new_gen e ds legacy text d = Ok p ->
  exists ii, compute_initial_info e ds text d false = Ok ii /\
    compute_bidi_info_for_para_gen e ds legacy (in_level ii) (in_pure ii) (in_iso ii) text (in_classes ii)
      = Ok (pb_levels p) /\
    p = {| pb_classes := in_classes ii; pb_levels := pb_levels p; pb_level := in_level ii; pb_pure := in_pure ii |}.
Proof.
  unfold para_bidi_info_new_gen. intros H. apply bind_ok in H as (ii & H1 & H).
  apply bind_ok in H as (levels & H2 & H). injection H as <-. exists ii. auto.
Qed.
End Pipe.
