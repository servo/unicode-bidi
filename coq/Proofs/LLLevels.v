(* Proofs/LLLevels.v — LENGTH INDEPENDENCE of the line-level L1 API:
   reordered_levels / reordered_levels_per_char on a text in any encoding, on a line made of whole
   characters i..j-1, is the per-unit expansion (resp. the per-character value) of
   [lline pl cls lv i j = firstn i lv ++ Spec.l1 pl (sub cls i j) (sub lv i j) ++ skipn j lv].
   [reordered_levels_gen]: slices of expansions on character boundaries are expansions of slices, the
   sub-text is the text of the line's characters (TextView), the L1 routine works on expansions
   (L1.reorder_levels_expand).  [sample_starts]: sampling an expansion at every character start gives
   the character vector.  In the ghost encoding U32 all lengths are 1, expansion and ustart are the
   identity, and the two functions compute the character-level vector itself. *)
From BidiVerif Require Import Base ModelText ModelResolve ModelLine Judge Stmts Stmts2 Stmts3 Stmts5.
From BidiVerif.Proofs Require Import Units.
From BidiVerif.Proofs Require Import L1 TextView.

Lemma split_sub {A} (l : list A) i j : i <= j -> l = firstn i l ++ sub l i j ++ skipn j l.
Proof. intros H. unfold sub. apply split_mid. exact H. Qed.

(* the line-level result at character level *)
Definition lline (pl : nat) (cls : list bclass) (lv : list nat) (i j : nat) : list nat :=
  firstn i lv ++ Spec.l1 pl (sub cls i j) (sub lv i j) ++ skipn j lv.

Lemma lline_length pl cls lv i j k :
  length cls = k -> length lv = k -> i <= j -> j <= k -> length (lline pl cls lv i j) = k.
Proof.
  intros Hc Hl Hij Hj. unfold lline.
  rewrite !app_length, l1_length, firstn_length, skipn_length, !sub_length by (rewrite ?sub_length; lia).
  lia.
Qed.

Lemma expand_lline lens pl cls lv i j :
  length cls = length lens -> length lv = length lens -> i <= j -> j <= length lens ->
  firstn (ustart lens i) (expand lens lv)
  ++ expand (sub lens i j) (Spec.l1 pl (sub cls i j) (sub lv i j))
  ++ skipn (ustart lens j) (expand lens lv)
  = expand lens (lline pl cls lv i j).
Proof.
  intros Hc Hl Hij Hj. unfold lline.
  rewrite firstn_expand, skipn_expand by lia.
  rewrite (split_sub lens i j Hij) at 4.
  rewrite !expand_app; [reflexivity | | rewrite !firstn_length; lia].
  rewrite l1_length, !sub_length by (rewrite ?sub_length; lia). reflexivity.
Qed.

Lemma subrange_line_view site e text i j :
  valid_text e text -> i <= j -> j <= length (view_of e text) ->
  exists subt,
    t_subrange site e text (ustart (map snd (view_of e text)) i) (ustart (map snd (view_of e text)) j) = Ok subt /\
    valid_text e subt /\ view_of e subt = sub (view_of e text) i j /\
    line_view e subt (sub (view_of e text) i j).
Proof.
  intros Hv Hij Hj. destruct (subrange_view_proved site e text i j Hv Hij Hj) as (subt & Hsub & Hview & Hvs).
  exists subt. split; [exact Hsub|]. split; [exact Hvs|]. split; [exact Hview|].
  destruct (view_of_proved e subt Hvs) as (H1 & _ & _ & _ & H5). unfold sub. rewrite <- Hview. split; assumption.
Qed.

Section Gen.
Variable e : enc.
Variable text : list N.
Hypothesis Hvalid : valid_text e text.
Let chars := view_of e text.
Let lens := map snd chars.
Let k := length chars.

Lemma lens_pos_view : Forall (fun ch : N * nat => snd ch = char_len e (fst ch) /\ 0 < snd ch) chars.
Proof. destruct (view_of_proved e text Hvalid) as (_ & _ & _ & _ & H). exact H. Qed.

Lemma reordered_levels_gen cls lv pl i j :
  length cls = k -> length lv = k -> i <= j -> j <= k ->
  reordered_levels e false text (expand lens cls) (expand lens lv) pl (ustart lens i, ustart lens j)
  = Ok (expand lens (lline pl cls lv i j)).
Proof.
  intros Hc Hl Hij Hj.
  assert (Hk : length lens = k) by (unfold lens; apply map_length).
  unfold reordered_levels. rewrite expand_length by lia.
  pose proof (ustart_le_total lens i) as B1. pose proof (ustart_le_total lens j) as B2.
  apply Nat.leb_le in B1, B2. rewrite B1, B2. cbn [andb negb].
  rewrite !slice_expand by lia. cbn [bind].
  destruct (subrange_line_view 557 e text i j Hvalid Hij Hj) as (subt & Hsub & _ & _ & Hlv).
  fold chars lens in Hsub, Hlv. rewrite Hsub. cbn [bind].
  pose proof (sub_map snd chars i j) as Hsl. fold lens in Hsl. rewrite Hsl.
  rewrite (reorder_levels_expand e subt (sub chars i j) (sub cls i j) (sub lv i j) pl Hlv)
    by (rewrite !sub_length; fold k; lia).
  cbn [bind]. f_equal. rewrite <- Hsl. apply expand_lline; lia.
Qed.

Lemma sample_starts site : forall (ch : list (N * nat)) (w pre : list nat),
  Forall (fun c : N * nat => 0 < snd c) ch -> length w = length ch ->
  map_res (fun ic : nat * N => get site (pre ++ expand (map snd ch) w) (fst ic))
          (map (fun x : nat * N * nat => (fst (fst x), snd (fst x))) (positions (length pre) ch))
  = Ok w.
Proof.
  induction ch as [|[c l] r IH]; intros [|x w] pre HF Hw; cbn [length] in Hw; try discriminate.
  - reflexivity.
  - inversion HF as [|a b Hl HF']; subst a b. cbn [snd] in Hl.
    cbn [map positions map_res fst snd].
    rewrite expand_cons.
    assert (Hg : get site (pre ++ repeat x l ++ expand (map snd r) w) (length pre) = Ok x).
    { destruct l as [|l']; [lia|].
      apply (get_app_cons site _ pre (repeat x l' ++ expand (map snd r) w)); reflexivity. }
    rewrite Hg. cbn [bind].
    replace (length pre + l) with (length (pre ++ repeat x l))
      by (rewrite app_length, repeat_length; reflexivity).
    rewrite (app_assoc pre (repeat x l)).
    rewrite (IH w (pre ++ repeat x l) HF') by lia.
    reflexivity.
Qed.

Lemma per_char_gen cls lv pl i j :
  length cls = k -> length lv = k -> i <= j -> j <= k ->
  reordered_levels_per_char e false text (expand lens cls) (expand lens lv) pl (ustart lens i, ustart lens j)
  = Ok (lline pl cls lv i j).
Proof.
  intros Hc Hl Hij Hj. unfold reordered_levels_per_char.
  rewrite (reordered_levels_gen cls lv pl i j Hc Hl Hij Hj). cbn [bind].
  destruct (view_of_proved e text Hvalid) as (Hidx & _ & _ & _ & Hch). fold chars in Hidx, Hch.
  rewrite Hidx.
  apply (sample_starts 584 chars (lline pl cls lv i j) []).
  - eapply Forall_impl; [|exact Hch]. cbn beta. intros ch [_ H]. exact H.
  - apply (lline_length pl cls lv i j k); assumption.
Qed.

End Gen.

(* the ghost encoding: all lengths are 1 *)

Lemma expand_ones {A} : forall (lens : list nat) (v : list A),
  Forall (fun n => n = 1) lens -> length v = length lens -> expand lens v = v.
Proof.
  induction lens as [|l lens IH]; intros [|x v] HF Hv; cbn [length] in Hv; try discriminate; [reflexivity|].
  inversion HF as [|a b Hl HF']; subst a b. subst l.
  rewrite expand_cons. cbn [repeat app]. f_equal. apply IH; [exact HF' | lia].
Qed.

Lemma ustart_ones : forall (lens : list nat) i,
  Forall (fun n => n = 1) lens -> i <= length lens -> ustart lens i = i.
Proof.
  induction lens as [|l lens IH]; intros [|i] HF Hi; cbn [length] in Hi; try reflexivity; [lia|].
  inversion HF as [|a b Hl HF']; subst a b. subst l.
  rewrite ustart_cons, IH by (assumption || lia). reflexivity.
Qed.

Lemma lens32_ones (t : list N) : Forall (fun n => n = 1) (map snd (view_of U32 t)).
Proof.
  cbn [view_of]. rewrite map_map. cbn [snd]. induction t as [|c r IH]; cbn [map]; constructor; [reflexivity|exact IH].
Qed.

Lemma lens32_length (t : list N) : length (map snd (view_of U32 t)) = length t.
Proof. cbn [view_of]. rewrite !map_length. reflexivity. Qed.

Lemma cl_reordered_levels : CL_reordered_levels.
Proof.
  intros cps cls lv pl i j Hc Hl Hij Hj.
  pose proof (lens32_ones cps) as H1. pose proof (lens32_length cps) as Hlen.
  assert (Hk : length (view_of U32 cps) = length cps) by (cbn [view_of]; apply map_length).
  pose proof (reordered_levels_gen U32 cps I cls lv pl i j) as G.
  pose proof (per_char_gen U32 cps I cls lv pl i j) as P.
  rewrite Hk in G, P. specialize (G Hc Hl Hij Hj). specialize (P Hc Hl Hij Hj).
  assert (HL : length (lline pl cls lv i j) = length cps) by (apply lline_length; assumption).
  rewrite !ustart_ones in G, P by (try exact H1; rewrite ?Hlen; lia).
  rewrite (expand_ones _ cls), (expand_ones _ lv) in G, P by (try exact H1; rewrite ?Hlen; assumption).
  rewrite (expand_ones _ (lline pl cls lv i j)) in G by (try exact H1; rewrite ?Hlen; assumption).
  split; [exact G | exact P].
Qed.

Lemma ll_reordered_levels_proved : LL_reordered_levels.
Proof.
  intros e text Hvalid cls lv pl i j out' Hc Hl Hij Hj H32.
  set (chars := view_of e text) in *.
  assert (Hcps : length (map fst chars) = length chars) by apply map_length.
  destruct (cl_reordered_levels (map fst chars) cls lv pl i j) as [C _]; try (rewrite Hcps; assumption); try assumption.
  rewrite C in H32. injection H32 as <-.
  split.
  - apply (reordered_levels_gen e text Hvalid cls lv pl i j); assumption.
  - apply (per_char_gen e text Hvalid cls lv pl i j); assumption.
Qed.
