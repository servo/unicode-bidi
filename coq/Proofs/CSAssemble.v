(* Proofs/CSAssemble.v — the ASSEMBLY of "one paragraph follows UAX #9" (CS_para, Stmts6.v) from the
   per-stage statements:
     cs_para_from_mixed : CS_runs -> CS_sequences -> CS_weak' -> CS_neutral' -> CS_levels -> CS_shortcut -> CS_para.
   What the explicit stage returns at character level ([explicit_chars], [explicit_agrees_chars]) and the
   totality/frame theorems of the stages ([sequences_total_proved], [t_weak_main], [t_neutral_proof]) are
   used directly.
   The isolating run sequences are pairwise disjoint, so processing them one after another on the
   shared class array computes, on the live positions of each sequence, the specification's
   [resolve_classes]; the order of processing is irrelevant; I1/I2 and the removed characters are
   then pointwise. *)
From BidiVerif Require Import Base ModelText ModelResolve Spec StageRel Stmts Stmts2 Stmts4 Stmts6.
From BidiVerif.Proofs Require Import ListLib SeqModel.
From BidiVerif.Proofs Require Import LevelOps ExplicitInv ExplicitSpec TotalSequences TotalWeak TotalNeutral Pipeline LIAssemble ExplicitSteps ReportedClasses.
From Coq Require Import Permutation.

(* The stage statements with a further boolean condition [extra] on the level runs beside
   [runs_bd7].  With [extra3] the condition is the third conjunct of [runs_bd7] once more, so the
   primed statements say what CS_runs and CS_sequences say; CS_weak' and CS_neutral' are CS_weak and
   CS_neutral word for word. *)

Definition runs_bd7x (extra : list bclass -> list run -> bool)
           (cls0 : list bclass) (xlev : list (option nat)) (oc : list bclass) (lv : list nat)
           (runs : list run) : bool :=
  runs_bd7 cls0 xlev oc lv runs && extra oc runs.

Definition CS_runs_x (extra : list bclass -> list run -> bool) : Prop :=
  forall cps cls0 pl lv pc runs,
    length cls0 = length cps -> pl <= 1 -> single_para cls0 ->
    let oc := reported_classes cls0 in
    explicit_compute U32 cps pl oc (repeat pl (length cps)) oc = Ok (lv, pc, runs) ->
    runs_bd7x extra cls0 (fst (explicit_levels cls0 pl)) oc lv runs = true.

Definition cs_sequences_hyps_x (extra : list bclass -> list run -> bool)
           (cls0 : list bclass) (pl : nat) (lv : list nat) (runs : list run) : Prop :=
  let oc := reported_classes cls0 in
  let k := length cls0 in
  let xlev := fst (explicit_levels cls0 pl) in
  pl <= 1 /\ single_para cls0 /\ length lv = k /\ 0 < k /\ tile_from 0 k runs /\
  (forall i, i < k -> live oc i = true -> nth_error lv i = nth i xlev None) /\
  runs_bd7x extra cls0 xlev oc lv runs = true.

Definition CS_sequences_x (extra : list bclass -> list run -> bool) : Prop :=
  forall cls0 pl lv runs has_iso seqs,
    cs_sequences_hyps_x extra cls0 pl lv runs ->
    let oc := reported_classes cls0 in
    (has_iso = false -> forallb (fun c => negb (is_isolate_init c)) oc = true) ->
    isolating_run_sequences pl oc lv runs has_iso = Ok seqs ->
    Permutation (model_seq3 oc seqs) (spec_seq3 cls0 (fst (explicit_levels cls0 pl)) pl).

Definition extra3 (oc : list bclass) (runs : list run) : bool :=
  forallb (fun r => live oc (fst r)) (tl runs).
Definition runs_bd7' := runs_bd7x extra3.
Definition CS_runs' : Prop := CS_runs_x extra3.
Definition cs_sequences_hyps' := cs_sequences_hyps_x extra3.
Definition CS_sequences' : Prop := CS_sequences_x extra3.

Definition CS_weak' : Prop :=
  forall cps oc sq pc out,
    length pc = length cps -> length oc = length cps -> seq_wf (length cps) sq ->
    bn_exact oc pc sq = true ->
    Forall (fun c => not_removed_by_x9 c = true) (at_ BN pc (live_idx oc sq)) ->
    resolve_weak U32 cps sq pc = Ok out ->
    at_ BN out (live_idx oc sq) = sq_weak_spec oc pc sq /\
    transparent oc out sq = true.

Definition CS_neutral' : Prop :=
  forall ds cps oc lv sq pc1 out,
    length pc1 = length cps -> length oc = length cps -> length lv = length cps ->
    seq_wf (length cps) sq ->
    Forall (fun c => is_ni c = true \/ strong_dir c <> None) (at_ BN pc1 (live_idx oc sq)) ->
    transparent oc pc1 sq = true ->
    resolve_neutral U32 ds cps sq lv oc pc1 = Ok out ->
    at_ BN out (live_idx oc sq) = sq_neutral_spec ds cps oc lv pc1 sq.

Lemma runs_bd7_extra3 cls0 xlev oc lv runs :
  runs_bd7x extra3 cls0 xlev oc lv runs = runs_bd7 cls0 xlev oc lv runs.
Proof.
  unfold runs_bd7x, runs_bd7, extra3.
  destruct (forallb (fun r => live oc (fst r)) (tl runs)); rewrite ?andb_true_r, ?andb_false_r; reflexivity.
Qed.

Lemma forallb_ext_in {A} (f g : A -> bool) (l : list A) :
  (forall x, In x l -> f x = g x) -> forallb f l = forallb g l.
Proof.
  induction l as [|x l IH]; intros H; [reflexivity|]. cbn [forallb].
  rewrite (H x (or_introl eq_refl)), IH; [reflexivity|]. intros y Hy. apply H. right; exact Hy.
Qed.

Lemma NoDup_app_disj {A} (a b : list A) : NoDup (a ++ b) -> forall x, In x a -> ~ In x b.
Proof.
  induction a as [|y a IH]; intros H x Hx; [contradiction|].
  cbn [app] in H. inversion H as [|? ? Hn Hd]; subst.
  destruct Hx as [->|Hx].
  - intros Hb. apply Hn. apply in_or_app. right; exact Hb.
  - apply IH; assumption.
Qed.

Lemma NoDup_app_l {A} (a b : list A) : NoDup (a ++ b) -> NoDup a.
Proof. apply ListLib.NoDup_app_l. Qed.

Lemma NoDup_filter {A} (f : A -> bool) (l : list A) : NoDup l -> NoDup (filter f l).
Proof. apply List.NoDup_filter. Qed.

Lemma live_idx_incl oc sq i : In i (live_idx oc sq) -> In i (seq_idx sq) /\ live oc i = true.
Proof. unfold live_idx. intros H. apply filter_In in H. exact H. Qed.

Lemma at_agree {A} (d : A) (a b : list A) (l : list nat) :
  (forall i, In i l -> nth_error a i = nth_error b i) -> at_ d a l = at_ d b l.
Proof.
  intros H. unfold at_. apply map_ext_in. intros i Hi. apply nth_eq_of_nth_error. apply H; exact Hi.
Qed.

Lemma bn_exact_agree oc pc pc' sq :
  (forall i, In i (seq_idx sq) -> nth_error pc i = nth_error pc' i) ->
  bn_exact oc pc sq = bn_exact oc pc' sq.
Proof.
  intros H. unfold bn_exact. apply forallb_ext_in. intros i Hi.
  rewrite (nth_eq_of_nth_error pc pc' i BN (H i Hi)). reflexivity.
Qed.

Lemma at_length {A} (d : A) v l : length (at_ d v l) = length l.
Proof. unfold at_. apply map_length. Qed.

Lemma at_nth {A} (d : A) v l j : j < length l -> nth j (at_ d v l) d = nth (nth j l 0) v d.
Proof.
  intros H. unfold at_.
  rewrite (nth_indep (map (fun i => nth i v d) l) d (nth 0 v d)) by (rewrite map_length; exact H).
  rewrite (map_nth (fun i => nth i v d) l 0 j). reflexivity.
Qed.

(* What W1-W7 leave behind.  Each pass keeps a predicate on classes that holds of the classes the pass may
   write ([w1_P] .. [w7_P]); so BN-free input gives BN-free output ([weak_nbn]), and input without
   X9-removed classes gives only NI classes and L, R, EN, AN ([weak_ni_or_strong]). *)

Lemma w1_P (Q P : bclass -> Prop) t :
  (forall c, Q c -> c <> NSM -> P c) -> P ON ->
  forall prev, P prev -> Forall Q t -> Forall P (w1 prev t).
Proof.
  intros HQ Hon. induction t as [|c r IH]; intros prev Hp HF; cbn [w1]; [constructor|].
  inversion HF as [|? ? Hc Hr]; subst.
  assert (Hc' : P (if c =c NSM then if is_iso_ctl prev then ON else prev else c)).
  { destruct (c =c NSM) eqn:E; [destruct (is_iso_ctl prev); assumption|].
    apply HQ; [exact Hc | apply ceq_neq; exact E]. }
  constructor; [exact Hc' | apply IH; assumption].
Qed.

Lemma w2_P (P : bclass -> Prop) t : P AN -> forall s, Forall P t -> Forall P (w2 s t).
Proof.
  intros Han. induction t as [|c r IH]; intros s HF; cbn [w2]; [constructor|].
  inversion HF as [|? ? Hc Hr]; subst.
  constructor; [|apply IH; exact Hr].
  destruct ((c =c EN) && (s =c AL)); assumption.
Qed.

Lemma w3_P (Q P : bclass -> Prop) t :
  (forall c, Q c -> c <> AL -> P c) -> P R -> Forall Q t -> Forall P (w3 t).
Proof.
  intros HQ Hr HF. unfold w3. apply Forall_forall. intros x Hx. apply in_map_iff in Hx as (c & <- & Hc).
  rewrite Forall_forall in HF. specialize (HF c Hc).
  destruct (c =c AL) eqn:E; [exact Hr|]. apply HQ; [exact HF | apply ceq_neq; exact E].
Qed.

Lemma w4_P (P : bclass -> Prop) t : P EN -> P AN -> forall p, Forall P t -> Forall P (w4 p t).
Proof.
  intros Hen Han. induction t as [|c r IH]; intros p HF; cbn [w4]; [constructor|].
  inversion HF as [|? ? Hc Hr]; subst.
  constructor; [|apply IH; exact Hr].
  destruct p as [[]|]; try exact Hc; destruct c; try exact Hc; destruct r as [|[] ?]; assumption.
Qed.

Lemma w5_fwd_P (P : bclass -> Prop) t : P EN -> forall p, Forall P t -> Forall P (w5_fwd p t).
Proof.
  intros Hen. induction t as [|c r IH]; intros p HF; cbn [w5_fwd]; [constructor|].
  inversion HF as [|? ? Hc Hr]; subst.
  constructor; [|apply IH; exact Hr].
  destruct ((c =c ET) && (p =c EN)); assumption.
Qed.

Lemma w5_P (P : bclass -> Prop) t : P EN -> Forall P t -> Forall P (w5 t).
Proof.
  intros Hen HF. unfold w5.
  apply Forall_rev. apply w5_fwd_P; [exact Hen|]. apply Forall_rev. apply w5_fwd_P; assumption.
Qed.

Lemma w6_P (Q P : bclass -> Prop) t :
  (forall c, Q c -> c <> ES -> c <> ET -> c <> CS -> P c) -> P ON -> Forall Q t -> Forall P (w6 t).
Proof.
  intros HQ Hon HF. unfold w6. apply Forall_forall. intros x Hx. apply in_map_iff in Hx as (c & <- & Hc).
  rewrite Forall_forall in HF. specialize (HF c Hc).
  destruct c; try exact Hon; apply HQ; try exact HF; discriminate.
Qed.

Lemma w7_P (P : bclass -> Prop) t : P L -> forall s, Forall P t -> Forall P (w7 s t).
Proof.
  intros Hl. induction t as [|c r IH]; intros s HF; cbn [w7]; [constructor|].
  inversion HF as [|? ? Hc Hr]; subst.
  constructor; [|apply IH; exact Hr].
  destruct ((c =c EN) && (s =c L)); assumption.
Qed.

Definition nbn (c : bclass) : Prop := c <> BN.

Lemma weak_nbn sos t : nbn sos -> Forall nbn t -> Forall nbn (weak sos t).
Proof.
  intros Hs HF. unfold weak.
  apply w7_P; [discriminate|]. apply (w6_P nbn); [auto | discriminate |].
  apply w5_P; [discriminate|]. apply w4_P; [discriminate | discriminate |].
  apply (w3_P nbn); [auto | discriminate |]. apply w2_P; [discriminate|].
  apply (w1_P nbn); [auto | discriminate | exact Hs | exact HF].
Qed.

Lemma not_removed_nbn c : not_removed_by_x9 c = true -> nbn c.
Proof. intros H E. subst c. discriminate H. Qed.

(* the classes the neutral stage may meet at live positions *)
Definition ni_or_strong (c : bclass) : Prop := is_ni c = true \/ strong_dir c <> None.

Definition okw (n : nat) (c : bclass) : Prop :=
  not_removed_by_x9 c = true /\
  (1 <= n -> c <> NSM) /\ (2 <= n -> c <> AL) /\ (3 <= n -> c <> ES /\ c <> ET /\ c <> CS).

Ltac okw_lit := unfold okw; repeat split; intros; try discriminate; lia.

Lemma weak_ni_or_strong sos t :
  sos = L \/ sos = R ->
  Forall (fun c => not_removed_by_x9 c = true) t ->
  Forall ni_or_strong (weak sos t).
Proof.
  intros Hs HF. unfold weak.
  (* W1 leaves no NSM, W3 no AL, W6 no ES, ET, CS; the other passes only write EN, AN, L *)
  assert (H3 : Forall (okw 3) (w7 sos (w6 (w5 (w4 None (w3 (w2 sos (w1 sos t)))))))).
  { apply w7_P; [okw_lit|].
    apply (w6_P (okw 2)); [|okw_lit|].
    { intros c (A & B1 & B2 & _) C1 C2 C3. unfold okw. repeat split; auto. }
    apply w5_P; [okw_lit|]. apply w4_P; [okw_lit | okw_lit |].
    apply (w3_P (okw 1)); [|okw_lit|].
    { intros c (A & B1 & _ & _) C. unfold okw. repeat split; auto; intros; lia. }
    apply w2_P; [okw_lit|].
    apply (w1_P (fun c => not_removed_by_x9 c = true)); [|okw_lit| |exact HF].
    { intros c A C. unfold okw. repeat split; auto; intros; lia. }
    destruct Hs as [-> | ->]; okw_lit. }
  eapply Forall_impl; [|exact H3].
  intros c (A & B1 & B2 & B3). specialize (B1 ltac:(lia)). specialize (B2 ltac:(lia)).
  destruct (B3 ltac:(lia)) as (C1 & C2 & C3).
  unfold ni_or_strong. destruct c; try discriminate A; try congruence;
    first [left; reflexivity | right; discriminate].
Qed.

(* what the specification computes for one model sequence from the classes the explicit stage left *)
Definition sq_res (ds : datasource) (cps : list N) (oc : list bclass) (lv : list nat)
           (pc0 : list bclass) (sq : irs) : list bclass :=
  let li := live_idx oc sq in
  resolve_classes (irs_sos sq) (irs_eos sq) (sq_ecls lv sq)
                  (map (fun i => ds_bracket ds (nth i cps 0%N)) li)
                  (map (fun i => nth i oc BN =c NSM) li)
                  (at_ BN pc0 li).

Definition sq_pre (oc pc : list bclass) (sq : irs) : Prop :=
  bn_exact oc pc sq = true /\
  Forall (fun c => not_removed_by_x9 c = true) (at_ BN pc (live_idx oc sq)).

Lemma sq_pre_agree oc pc pc' sq :
  (forall i, In i (seq_idx sq) -> nth_error pc i = nth_error pc' i) ->
  sq_pre oc pc sq -> sq_pre oc pc' sq.
Proof.
  intros H [H1 H2]. split.
  - rewrite <- (bn_exact_agree oc pc pc' sq H). exact H1.
  - rewrite <- (at_agree BN pc pc' (live_idx oc sq)); [exact H2|].
    intros i Hi. apply H. exact (proj1 (live_idx_incl oc sq i Hi)).
Qed.

Lemma sq_res_agree ds cps oc lv pc pc' sq :
  (forall i, In i (seq_idx sq) -> nth_error pc i = nth_error pc' i) ->
  sq_res ds cps oc lv pc sq = sq_res ds cps oc lv pc' sq.
Proof.
  intros H. unfold sq_res. cbv zeta.
  rewrite (at_agree BN pc pc' (live_idx oc sq)); [reflexivity|].
  intros i Hi. apply H. exact (proj1 (live_idx_incl oc sq i Hi)).
Qed.

Lemma neutral_spec_res ds cps oc lv pc pc1 sq :
  at_ BN pc1 (live_idx oc sq) = sq_weak_spec oc pc sq ->
  sq_neutral_spec ds cps oc lv pc1 sq = sq_res ds cps oc lv pc sq.
Proof.
  intros H. unfold sq_neutral_spec, sq_res, resolve_classes. cbv zeta.
  rewrite H. unfold sq_weak_spec. reflexivity.
Qed.

Lemma one_sequence (HW : CS_weak') (HN : CS_neutral') ds cps lv oc sq pc pc1 pc2 :
  length oc = length cps -> length lv = length cps -> length pc = length cps -> length pc1 = length cps ->
  seq_wf (length cps) sq -> sq_pre oc pc sq ->
  resolve_weak U32 cps sq pc = Ok pc1 ->
  resolve_neutral U32 ds cps sq lv oc pc1 = Ok pc2 ->
  at_ BN pc2 (live_idx oc sq) = sq_res ds cps oc lv pc sq.
Proof.
  intros Hoc Hlv Hpc Hpc1 Hwf [Hbn Hnr] E1 E2.
  destruct (HW cps oc sq pc pc1 Hpc Hoc Hwf Hbn Hnr E1) as [W1 W2].
  assert (Hns : Forall (fun c => is_ni c = true \/ strong_dir c <> None) (at_ BN pc1 (live_idx oc sq))).
  { rewrite W1. unfold sq_weak_spec.
    apply (weak_ni_or_strong (irs_sos sq)); [|exact Hnr].
    destruct Hwf as (_ & _ & _ & Hs & _). exact Hs. }
  rewrite (HN ds cps oc lv sq pc1 pc2 Hpc1 Hoc Hlv Hwf Hns W2 E2).
  apply neutral_spec_res. exact W1.
Qed.

(* The sequences are disjoint and each stage changes nothing outside its sequence (t_weak, t_neutral):
   every sequence starts from the classes [pc] has on it, and what it leaves there is still there at
   the end. *)
Lemma resolve_sequences_spec (HW : CS_weak') (HN : CS_neutral') ds cps lv oc :
  length oc = length cps -> length lv = length cps ->
  forall seqs pc,
    length pc = length cps -> Forall (seq_wf (length cps)) seqs ->
    NoDup (flat_map seq_idx seqs) ->
    exists out,
      resolve_sequences U32 ds false cps lv oc pc seqs = Ok out /\ length out = length cps /\
      (forall i, ~ In i (flat_map seq_idx seqs) -> nth_error out i = nth_error pc i) /\
      (forall sq, In sq seqs -> sq_pre oc pc sq ->
                  at_ BN out (live_idx oc sq) = sq_res ds cps oc lv pc sq).
Proof.
  intros Hoc Hlv. induction seqs as [|sq rest IH]; intros pc Hpc HF Hnd.
  - exists pc. split; [reflexivity|]. split; [exact Hpc|]. split; [reflexivity|]. intros sq [].
  - inversion HF as [|? ? Hwf HF']; subst. cbn [flat_map] in Hnd.
    destruct (t_weak_main cps sq pc Hpc Hwf) as (pc1 & E1 & L1 & F1).
    assert (Hpc1 : length pc1 = length cps) by lia.
    destruct (t_neutral_proof ds cps sq lv oc pc1 Hpc1 Hoc Hlv Hwf) as (pc2 & E2 & L2 & F2).
    destruct (IH pc2 ltac:(lia) HF' (NoDup_app_r _ _ Hnd)) as (out & E & Lo & Fo & So).
    pose proof (NoDup_app_disj _ _ Hnd) as Hdisj.
    assert (Hfr : forall i, ~ In i (seq_idx sq) -> nth_error pc2 i = nth_error pc i)
      by (intros i Hi; rewrite (F2 i Hi); apply F1; exact Hi).
    exists out. cbn [resolve_sequences]. rewrite E1. cbn [bind].
    change (resolve_neutral_gen U32 ds false cps sq lv oc pc1) with (resolve_neutral U32 ds cps sq lv oc pc1).
    rewrite E2. cbn [bind]. split; [exact E|]. split; [exact Lo|]. split.
    + intros i Hi. cbn [flat_map] in Hi.
      rewrite Fo by (intros X; apply Hi; apply in_or_app; right; exact X).
      apply Hfr. intros X; apply Hi; apply in_or_app; left; exact X.
    + intros sq' [<-|Hin] Hpre.
      * rewrite <- (one_sequence HW HN ds cps lv oc sq pc pc1 pc2 Hoc Hlv Hpc Hpc1 Hwf Hpre E1 E2).
        apply at_agree. intros i Hi.
        apply Fo. apply Hdisj. exact (proj1 (live_idx_incl oc sq i Hi)).
      * assert (Hag : forall i, In i (seq_idx sq') -> nth_error pc i = nth_error pc2 i).
        { intros i Hi. symmetry. apply Hfr. intros X.
          apply (Hdisj i X). apply in_flat_map. exists sq'. split; assumption. }
        rewrite (So sq' Hin (sq_pre_agree oc pc pc2 sq' Hag Hpre)).
        symmetry. apply sq_res_agree. exact Hag.
Qed.

Lemma ovr_class_cases o c : ovr_class o c = c \/ ovr_class o c = L \/ ovr_class o c = R.
Proof. destruct o; cbn; auto. Qed.

Lemma x_step_class cls0 pl s i c0 s' lv c :
  x_step cls0 pl s i c0 = (s', lv, c) -> c = c0 \/ c = L \/ c = R.
Proof.
  unfold x_step. destruct (top_of (x_stack s) pl) as [[tl_ to] iso].
  pose proof (ovr_class_cases to c0) as Ho.
  destruct c0; cbn [ceq bclass_beq];
    repeat match goal with
           | |- context [match fsi_strong ?a ?b with _ => _ end] => destruct (fsi_strong a b) as [[]|]
           | |- context [if ?b then _ else _] => destruct b
           | |- context [match top_of ?a ?b with _ => _ end] => destruct (top_of a b) as [[? ?] ?]
           end;
    intros H; injection H as _ _ <-; auto; apply ovr_class_cases.
Qed.

Lemma x_run_class cls0 pl l : forall s i j, j < length l ->
  let c := nth j (snd (x_run cls0 pl s i l)) L in c = nth j l L \/ c = L \/ c = R.
Proof.
  induction l as [|c0 r IH]; intros s i j Hj; cbn [length] in Hj; [lia|].
  cbn [x_run]. destruct (x_step cls0 pl s i c0) as [[s' lv] c] eqn:Es.
  specialize (IH s' (S i)). destruct (x_run cls0 pl s' (S i) r) as [lvs cs].
  cbn [snd] in *. destruct j as [|j]; cbn [nth].
  - eapply x_step_class; exact Es.
  - apply IH. lia.
Qed.

Lemma live_reported_L cls0 i : i < length cls0 ->
  live (reported_classes cls0) i = negb (is_removed (nth i cls0 L)).
Proof. intros H. rewrite live_reported, (nth_indep cls0 BN L) by exact H. reflexivity. Qed.

(* the class W and N see at position i *)
Definition xc_at (cls0 xcls : list bclass) (i : nat) : bclass :=
  match nth i xcls L, nth i (reported_classes cls0) L with FSI, k => k | k, _ => k end.

Lemma x_classes_xc_at cls0 xcls i : length xcls = length cls0 -> i < length cls0 ->
  nth i (x_classes cls0 xcls) ON = xc_at cls0 xcls i.
Proof.
  intros Hl Hi. rewrite x_classes_nth by exact Hl. unfold xc_at.
  rewrite (nth_indep xcls ON L), (nth_indep _ BN L) by (rewrite ?reported_length; lia). reflexivity.
Qed.

Lemma xc_at_not_removed cls0 pl i : i < length cls0 -> is_removed (nth i cls0 L) = false ->
  not_removed_by_x9 (xc_at cls0 (snd (explicit_levels cls0 pl)) i) = true.
Proof.
  intros Hi Hr. unfold xc_at, explicit_levels.
  pose proof (x_run_class cls0 pl cls0 {| x_stack := [(pl, ONone, false)]; x_oi := 0; x_oe := 0; x_vi := 0 |}
                          0 i Hi) as Hc. cbv zeta in Hc.
  rewrite nth_reported by reflexivity.
  destruct Hc as [-> | [-> | ->]]; [|reflexivity|reflexivity].
  unfold not_removed_by_x9.
  destruct (nth i cls0 L) eqn:E; try reflexivity; try discriminate Hr.
  rewrite rep_removed. reflexivity.
Qed.

Lemma explicit_facts cps cls0 pl :
  length cls0 = length cps -> pl <= 1 ->
  let oc := reported_classes cls0 in
  let k := length cps in
  let xlev := fst (explicit_levels cls0 pl) in
  let xcls := snd (explicit_levels cls0 pl) in
  exists lv pc runs,
    explicit_compute U32 cps pl oc (repeat pl k) oc = Ok (lv, pc, runs) /\
    length lv = k /\ length pc = k /\
    Forall (fun l => pl <= l /\ l <= 125) lv /\
    (0 < k -> tile_from 0 k runs) /\ (k = 0 -> runs = []) /\
    (forall i, i < k -> live oc i = true ->
       nth_error lv i = nth i xlev None /\ nth_error pc i = Some (xc_at cls0 xcls i)) /\
    (forall i, i < k -> live oc i = false -> nth_error pc i = Some BN).
Proof.
  intros Hlen Hpl oc k xlev xcls.
  assert (Hoc : length oc = length cps) by (unfold oc; rewrite reported_length; exact Hlen).
  destruct (explicit_chars cps pl oc Hoc) as (lv & pc & runs & Hex & Hl1 & Hl2 & Ht & He & HF).
  exists lv, pc, runs. fold k in Hex, Hl1, Hl2, Ht, He.
  split; [exact Hex|]. split; [exact Hl1|]. split; [exact Hl2|]. split; [apply HF; lia|].
  split; [exact Ht|]. split; [exact He|].
  pose proof (explicit_agrees_chars cps cls0 pl lv pc runs Hlen Hex) as Hag.
  unfold xlev, xcls. destruct (explicit_levels cls0 pl) as [xl xc]. cbn [fst snd].
  split; intros i Hi Hlive; destruct (Hag i ltac:(lia)) as [Hkept Hrem];
    unfold oc in Hlive; rewrite live_reported_L in Hlive by lia.
  - destruct Hkept as [E1 E2]; [destruct (is_removed (nth i cls0 L)); [discriminate | reflexivity]|].
    split; [exact E1|]. rewrite E2. unfold pcls, xc_at. destruct (nth i xc L); reflexivity.
  - apply Hrem. destruct (is_removed (nth i cls0 L)); [reflexivity | discriminate].
Qed.

Lemma filter_flat_map {A B} (p : B -> bool) (f : A -> list B) (l : list A) :
  filter p (flat_map f l) = flat_map (fun x => filter p (f x)) l.
Proof. apply ListLib.filter_flat_map. Qed.

Lemma flat_map_ext_in {A B} (f g : A -> list B) (l : list A) :
  (forall x, In x l -> f x = g x) -> flat_map f l = flat_map g l.
Proof.
  induction l as [|x l IH]; intros H; [reflexivity|]. cbn [flat_map].
  rewrite (H x (or_introl eq_refl)), IH; [reflexivity|]. intros y Hy. apply H. right; exact Hy.
Qed.

Lemma tile_seq k : forall runs pos, tile_from pos k runs -> flat_map run_range runs = seq pos (k - pos).
Proof.
  induction runs as [|[s en] r IH]; intros pos H; cbn [tile_from] in H.
  - subst. rewrite Nat.sub_diag. reflexivity.
  - destruct H as (-> & Hlt & Ht). pose proof (tile_le k r en Ht) as Hle.
    cbn [flat_map]. rewrite (IH en Ht). unfold run_range, range. cbn [fst snd].
    replace (k - pos) with ((en - pos) + (k - en)) by lia. rewrite seq_app.
    replace (pos + (en - pos)) with en by lia. reflexivity.
Qed.

Lemma seqs_geometry k runs seqs :
  tile_from 0 k runs -> Permutation (flat_map irs_runs seqs) runs ->
  NoDup (flat_map seq_idx seqs) /\ (forall i, In i (flat_map seq_idx seqs) <-> i < k).
Proof.
  intros Ht Hp.
  assert (Hp' : Permutation (flat_map seq_idx seqs) (seq 0 k)).
  { unfold seq_idx. rewrite <- (flat_map_flat_map run_range irs_runs).
    rewrite <- (Nat.sub_0_r k) at 1. rewrite <- (tile_seq k runs 0 Ht).
    apply Permutation_flat_map. exact Hp. }
  split.
  - eapply Permutation_NoDup; [apply Permutation_sym; exact Hp' | apply seq_NoDup].
  - intros i. split; intros H.
    + apply (Permutation_in _ Hp') in H. apply in_seq in H. lia.
    + apply (Permutation_in _ (Permutation_sym Hp')). apply in_seq. lia.
Qed.

(* the input of the first stage satisfies the precondition of CS_weak' on every sequence *)
Lemma sq_pre_explicit cls0 xcls pl k pc sq :
  let oc := reported_classes cls0 in
  length cls0 = k -> xcls = snd (explicit_levels cls0 pl) ->
  (forall i, i < k -> live oc i = true -> nth_error pc i = Some (xc_at cls0 xcls i)) ->
  (forall i, i < k -> live oc i = false -> nth_error pc i = Some BN) ->
  (forall i, In i (seq_idx sq) -> i < k) ->
  sq_pre oc pc sq.
Proof.
  intros oc Hk -> Hlive Hrem Hidx.
  assert (Hnr : forall i, i < k -> live oc i = true -> not_removed_by_x9 (nth i pc BN) = true).
  { intros i Hi Hl. rewrite (nth_error_nth pc i BN (Hlive i Hi Hl)).
    apply xc_at_not_removed; [lia|].
    unfold oc in Hl. rewrite live_reported_L in Hl by lia.
    destruct (is_removed (nth i cls0 L)); [discriminate | reflexivity]. }
  split.
  - unfold bn_exact. apply forallb_forall. intros i Hi. specialize (Hidx i Hi).
    destruct (live oc i) eqn:El.
    + specialize (Hnr i Hidx El). destruct (nth i pc BN); try reflexivity. discriminate Hnr.
    + rewrite (nth_error_nth pc i BN (Hrem i Hidx El)). reflexivity.
  - apply Forall_forall. intros c Hc. unfold at_ in Hc. apply in_map_iff in Hc as (i & <- & Hi).
    apply live_idx_incl in Hi as [Hi Hl]. apply Hnr; [apply Hidx; exact Hi | exact Hl].
Qed.

Lemma combine_map_r {A B} (f : A -> B) (l : list A) : combine l (map f l) = map (fun x => (x, f x)) l.
Proof. induction l as [|x l IH]; cbn; [reflexivity|]. rewrite IH. reflexivity. Qed.

Lemma seq_match ds cps cls0 brk xlev xcls pl lv pc out sq :
  let oc := reported_classes cls0 in
  let k := length cps in
  let idx := remaining cls0 in
  let li := live_idx oc sq in
  cls0 = map (ds_class ds) cps -> brk = map (ds_bracket ds) cps ->
  length xcls = length cls0 -> length lv = k ->
  (forall i, i < k -> live oc i = true ->
     nth_error lv i = nth i xlev None /\ nth_error pc i = Some (xc_at cls0 xcls i)) ->
  (forall i, In i (seq_idx sq) -> i < k) ->
  seq_sos xlev pl idx li = irs_sos sq -> seq_eos cls0 xlev pl idx li = irs_eos sq ->
  dir_of_level (lev_at xlev pl (first_of li)) = sq_ecls lv sq ->
  at_ BN out li = sq_res ds cps oc lv pc sq ->
  resolve_sequence cls0 (x_classes cls0 xcls) brk xlev pl idx li
    = map (fun i => (i, implicit_level (nth i lv 0) (nth i out BN))) li.
Proof.
  intros oc k idx li Hc0 Hbrk Hxl Hlv Hlive Hidx Hsos Heos Hecls Hout.
  assert (Hk : length cls0 = k) by (rewrite Hc0, map_length; reflexivity).
  assert (Hli : forall i, In i li -> i < k /\ live oc i = true).
  { intros i Hi. apply live_idx_incl in Hi as [Hi Hl]. split; [apply Hidx; exact Hi | exact Hl]. }
  unfold resolve_sequence. cbv zeta. rewrite Hsos, Heos, Hecls.
  assert (E1 : map (fun i => snth brk i None) li = map (fun i => ds_bracket ds (nth i cps 0%N)) li).
  { apply map_ext_in. intros i Hi. destruct (Hli i Hi) as [Hik _]. unfold snth. rewrite Hbrk.
    rewrite (nth_indep _ None (ds_bracket ds 0%N)) by (rewrite map_length; exact Hik).
    apply map_nth. }
  assert (E2 : map (fun i => snth cls0 i ON =c NSM) li = map (fun i => nth i oc BN =c NSM) li).
  { apply map_ext_in. intros i Hi. destruct (Hli i Hi) as [Hik _]. unfold snth, oc.
    rewrite nth_reported, (rep_inv (fun c => c =c NSM)) by reflexivity.
    rewrite (nth_indep cls0 ON BN) by lia. reflexivity. }
  assert (E3 : map (fun i => snth (x_classes cls0 xcls) i ON) li = at_ BN pc li).
  { unfold at_. apply map_ext_in. intros i Hi. destruct (Hli i Hi) as [Hik Hl]. unfold snth.
    rewrite x_classes_xc_at by lia.
    symmetry. apply nth_error_nth. exact (proj2 (Hlive i Hik Hl)). }
  rewrite E1, E2, E3.
  change (resolve_classes (irs_sos sq) (irs_eos sq) (sq_ecls lv sq)
            (map (fun i => ds_bracket ds (nth i cps 0%N)) li)
            (map (fun j => nth j oc BN =c NSM) li) (at_ BN pc li))
    with (sq_res ds cps oc lv pc sq).
  rewrite <- Hout. unfold at_. rewrite combine_map_r, map_map. cbn [fst snd].
  apply map_ext_in. intros i Hi. destruct (Hli i Hi) as [Hik Hl].
  f_equal. f_equal. unfold lev_at, snth.
  destruct (Hlive i Hik Hl) as [H1 _]. rewrite <- H1.
  rewrite (nth_error_nth' lv 0) by lia. reflexivity.
Qed.

(* the embedding direction: the model reads the level at the first position of the first run *)
Definition first_run_live (oc : list bclass) (sq : irs) : Prop :=
  live_idx oc sq <> [] ->
  exists r0 rest, irs_runs sq = r0 :: rest /\ filter (live oc) (run_range r0) <> [].

Lemma hd_app_nonempty {A} (d : A) (a b : list A) : a <> [] -> hd d (a ++ b) = hd d a.
Proof. destruct a; [contradiction | reflexivity]. Qed.

Lemma hd_In {A} (d : A) (a : list A) : a <> [] -> In (hd d a) a.
Proof. destruct a; [contradiction | left; reflexivity]. Qed.

Lemma ecls_match cls0 xlev oc lv pl runs sq :
  runs_bd7 cls0 xlev oc lv runs = true ->
  (forall r, In r (irs_runs sq) -> In r runs) ->
  first_run_live oc sq -> live_idx oc sq <> [] ->
  dir_of_level (lev_at xlev pl (first_of (live_idx oc sq))) = sq_ecls lv sq.
Proof.
  intros Hb Hin Hf Hne. destruct (Hf Hne) as (r0 & rest & Er & Hr0).
  unfold runs_bd7 in Hb. apply andb_true_iff in Hb as [Hb _]. apply andb_true_iff in Hb as [_ Hb].
  rewrite forallb_forall in Hb. specialize (Hb r0 (Hin r0 ltac:(rewrite Er; left; reflexivity))).
  rewrite forallb_forall in Hb.
  assert (Hfirst : first_of (live_idx oc sq) = hd 0 (filter (live oc) (run_range r0))).
  { unfold first_of, live_idx, seq_idx. rewrite Er. cbn [flat_map]. rewrite filter_app.
    apply hd_app_nonempty. exact Hr0. }
  specialize (Hb _ (hd_In 0 _ Hr0)). rewrite <- Hfirst in Hb.
  unfold sq_ecls. rewrite Er. unfold lev_at, snth.
  destruct (nth (first_of (live_idx oc sq)) xlev None) as [l|]; [|discriminate Hb].
  apply Nat.eqb_eq in Hb. subst l. symmetry. apply level_class_dir.
Qed.

(* In a sequence with a live character the FIRST level run has one (so the level the model reads
   at the first position of the first run is the level of the sequence's first live character).
   A level run without live characters can only be the paragraph's first run; BD13 never continues
   it: a run is continued only after an isolate initiator, which is a live character. *)

Definition hl (oc : list bclass) (r : run) : Prop := filter (live oc) (run_range r) <> [].
Definition fl_seq (oc : list bclass) (sq : list run) : Prop :=
  match sq with [] => True | r0 :: rest => rest = [] \/ hl oc r0 end.

Lemma fl_snoc oc top r : Forall (hl oc) top -> fl_seq oc (top ++ [r]).
Proof.
  destruct top as [|r0 t]; intros H; cbn [app fl_seq]; [left; reflexivity|].
  right. exact (Forall_inv H).
Qed.

Lemma fl_of_all oc sq : Forall (hl oc) sq -> fl_seq oc sq.
Proof. destruct sq as [|r0 t]; intros H; cbn [fl_seq]; [exact I | right; exact (Forall_inv H)]. Qed.

Lemma hl_of_live oc s en i : s <= i < en -> live oc i = true -> hl oc (s, en).
Proof.
  intros Hi Hl. unfold hl. intros E.
  assert (Hin : In i (filter (live oc) (run_range (s, en)))).
  { apply filter_In. split; [|exact Hl]. unfold run_range, range. cbn [fst snd]. apply in_seq. lia. }
  rewrite E in Hin. contradiction.
Qed.

Lemma iso_end_hl oc s en sc sl :
  (en <=? s) = false -> get 127 oc s = Ok sc -> slice 132 oc s en = Ok sl ->
  is_isolate_init (opt_or (rfind not_removed_by_x9 sl) sc) = true -> hl oc (s, en).
Proof.
  intros Hlt Hg Hs Hiso. apply Nat.leb_gt in Hlt.
  pose proof (slice_length _ _ _ _ _ Hs) as (Lsl & _ & Hen). apply slice_ok_inv in Hs as (_ & _ & ->).
  destruct (rfind not_removed_by_x9 (firstn (en - s) (skipn s oc))) as [x|] eqn:Ef; cbn [opt_or] in Hiso.
  - unfold rfind in Ef. apply find_some in Ef as [Hin Hx]. apply in_rev in Hin.
    apply In_nth_error in Hin as (j & Ej). pose proof (nth_error_lt _ _ _ Ej) as Hj. rewrite Lsl in Hj.
    rewrite nth_error_firstn_lt, nth_error_skipn in Ej by exact Hj.
    apply (hl_of_live oc s en (s + j)); [lia|]. unfold live. rewrite (nth_error_nth oc _ BN Ej). exact Hx.
  - apply ListLib.get_ok in Hg. apply (hl_of_live oc s en s); [lia|].
    unfold live. rewrite (nth_error_nth oc s BN Hg).
    unfold not_removed_by_x9. destruct sc; try discriminate Hiso; reflexivity.
Qed.

Lemma bd13_first_live oc : forall runs stack sequences out,
  Forall (Forall (hl oc)) stack -> Forall (fl_seq oc) sequences ->
  bd13_fold oc runs stack sequences = Ok out -> Forall (fl_seq oc) out.
Proof.
  induction runs as [|r rest IH]; intros stack sequences out Hs Hq H; cbn [bd13_fold] in H.
  - injection H as <-. apply Forall_app. split; [exact Hq|].
    apply Forall_forall. intros s Hin. apply filter_In in Hin. destruct Hin as [Hin _].
    rewrite Forall_forall in Hs. apply fl_of_all. apply Hs. exact Hin.
  - destruct r as [s en]. destruct (en <=? s) eqn:Ele; [discriminate|].
    destruct stack as [|top below]; [discriminate|].
    apply bind_ok in H. destruct H as (sc & Hsc & H).
    apply bind_ok in H. destruct H as (sl & Hsl & H).
    inversion Hs as [|? ? Hs1 Hs2]; subst.
    destruct ((sc =c PDI) && (1 <? length (top :: below)));
      destruct (is_isolate_init (opt_or (rfind not_removed_by_x9 sl) sc)) eqn:Eiso;
      apply IH in H; try exact H; try exact Hs2; try exact Hs; try exact Hq.
    + constructor; [|exact Hs2]. apply Forall_app. split; [exact Hs1|].
      constructor; [|constructor]. eapply iso_end_hl; eassumption.
    + apply Forall_app. split; [exact Hq|]. constructor; [|constructor]. apply fl_snoc. exact Hs1.
    + constructor; [|exact Hs]. constructor; [|constructor]. eapply iso_end_hl; eassumption.
    + apply Forall_app. split; [exact Hq|]. constructor; [|constructor]. left; reflexivity.
Qed.

Lemma fl_first_run_live oc sq : fl_seq oc (irs_runs sq) -> first_run_live oc sq.
Proof.
  intros H Hne. unfold live_idx, seq_idx in Hne.
  destruct (irs_runs sq) as [|r0 rest] eqn:Er; [cbn in Hne; contradiction|].
  exists r0, rest. split; [reflexivity|].
  cbn [fl_seq] in H. destruct H as [->|H]; [|exact H].
  cbn [flat_map] in Hne. rewrite app_nil_r in Hne. exact Hne.
Qed.

Lemma seq_first_live pl oc lv runs iso seqs :
  isolating_run_sequences pl oc lv runs iso = Ok seqs -> Forall (first_run_live oc) seqs.
Proof.
  unfold isolating_run_sequences. destruct (negb iso).
  - apply map_res_Forall. intros r sq Hin H. apply irs_fast_one_runs in H.
    apply fl_first_run_live. rewrite H. left; reflexivity.
  - intros H. apply bind_ok in H as (ss & Hb & H).
    apply (bd13_first_live oc) in Hb; [|repeat constructor|constructor].
    revert H. apply map_res_Forall. intros s sq Hin H. apply irs_general_one_runs in H.
    apply fl_first_run_live. rewrite H. rewrite Forall_forall in Hb. apply Hb. exact Hin.
Qed.

Lemma map2_implicit_length : forall lv pc, length lv = length pc -> length (map2_implicit lv pc) = length lv.
Proof.
  induction lv as [|l lv IH]; intros [|c pc] H; cbn [length] in H; try discriminate; [reflexivity|].
  cbn [map2_implicit length]. rewrite IH by lia. reflexivity.
Qed.

Lemma map2_implicit_nth : forall lv pc i, i < length lv -> i < length pc ->
  nth i (map2_implicit lv pc) 0 = implicit_level (nth i lv 0) (nth i pc BN).
Proof.
  induction lv as [|l lv IH]; intros [|c pc] i H1 H2; cbn [length] in H1, H2; try lia.
  cbn [map2_implicit]. destruct i as [|i]; cbn [nth]; [reflexivity|]. apply IH; lia.
Qed.

Lemma assoc_nat_map (g : nat -> nat) l i :
  In i l -> assoc_nat i (map (fun j => (j, g j)) l) = Some (g i).
Proof.
  induction l as [|a l IH]; intros H; [contradiction|]. cbn [map assoc_nat].
  destruct (Nat.eqb_spec a i) as [->|Hne]; [reflexivity|].
  destruct H as [H|H]; [contradiction|]. apply IH; exact H.
Qed.

Lemma iso_reported cls0 :
  existsb is_isolate_init (reported_classes cls0) = existsb is_isolate_init cls0.
Proof. exact (existsb_reported is_isolate_init cls0 eq_refl eq_refl). Qed.

Lemma no_iso_reported cls0 :
  existsb is_isolate_init cls0 = false ->
  forallb (fun c => negb (is_isolate_init c)) (reported_classes cls0) = true.
Proof.
  rewrite <- iso_reported. intros H. apply forallb_forall. intros x Hx.
  destruct (In_nth _ _ L Hx) as (i & Hi & <-). rewrite (existsb_nth _ _ L Hi H). reflexivity.
Qed.

Lemma nonempty_true {A} (l : list A) : StageRel.nonempty l = true <-> l <> [].
Proof. destruct l; cbn; split; intros H; try discriminate; try reflexivity; contradiction. Qed.

Lemma dir3_para_level cls0 dir : dir3 dir -> para_level cls0 dir <= 1.
Proof.
  intros [->|[->| ->]]; cbn [para_level]; try lia.
  destruct (first_strong cls0 0 (length cls0)) as [[]|]; lia.
Qed.

Lemma seq3_cover oc seqs cls0 xlev pl :
  Permutation (model_seq3 oc seqs) (spec_seq3 cls0 xlev pl) ->
  (forall s, In s (isolating_sequences cls0 xlev) ->
     exists sq, In sq seqs /\ live_idx oc sq = s /\ s <> [] /\
                irs_sos sq = seq_sos xlev pl (remaining cls0) s /\
                irs_eos sq = seq_eos cls0 xlev pl (remaining cls0) s) /\
  (forall sq, In sq seqs -> live_idx oc sq <> [] -> In (live_idx oc sq) (isolating_sequences cls0 xlev)).
Proof.
  intros Hp. unfold model_seq3, spec_seq3 in Hp. cbv zeta in Hp. split.
  - intros s Hs.
    apply (in_map (fun s => (s, seq_sos xlev pl (remaining cls0) s, seq_eos cls0 xlev pl (remaining cls0) s))) in Hs.
    apply (Permutation_in _ (Permutation_sym Hp)), filter_In in Hs as [Hs Hne].
    apply in_map_iff in Hs as (sq & E & Hsq). injection E as E1 E2 E3. cbn [fst] in Hne.
    exists sq. split; [exact Hsq|]. split; [exact E1|]. split; [apply nonempty_true; exact Hne | auto].
  - intros sq Hsq Hne.
    assert (Hm : In (live_idx oc sq, irs_sos sq, irs_eos sq)
                    (filter (fun t : seq3 => StageRel.nonempty (fst (fst t)))
                            (map (fun sq => (live_idx oc sq, irs_sos sq, irs_eos sq)) seqs))).
    { apply filter_In. split; [apply (in_map (fun sq => (live_idx oc sq, irs_sos sq, irs_eos sq))); exact Hsq|].
      apply nonempty_true. exact Hne. }
    apply (Permutation_in _ Hp), in_map_iff in Hm as (s & E & Hs). injection E as <- _ _. exact Hs.
Qed.

Lemma resolve_paragraph_pointwise cls0 brk dir xlev xcls (g : nat -> nat) :
  explicit_levels cls0 (para_level cls0 dir) = (xlev, xcls) ->
  (forall s, In s (isolating_sequences cls0 xlev) ->
     resolve_sequence cls0 (x_classes cls0 xcls) brk xlev (para_level cls0 dir) (remaining cls0) s
     = map (fun i => (i, g i)) s) ->
  (forall i, i < length cls0 -> is_removed (nth i cls0 BN) = false ->
     In i (concat (isolating_sequences cls0 xlev))) ->
  snd (resolve_paragraph cls0 brk dir)
  = map (fun i => if is_removed (nth i cls0 BN) then None else Some (g i)) (seq 0 (length cls0)).
Proof.
  intros Ex Hs Hc. unfold resolve_paragraph. cbv zeta. rewrite Ex. cbn [snd].
  rewrite (flat_map_ext_in _ _ _ Hs), flat_map_concat_map, <- concat_map.
  apply map_ext_in. intros i Hi. apply in_seq in Hi. unfold snth.
  destruct (is_removed (nth i cls0 BN)) eqn:Er; [reflexivity|].
  rewrite (assoc_nat_map g _ i (Hc i ltac:(lia) Er)). reflexivity.
Qed.

Lemma map_combine_seq {A B C} (F : A * B -> C) da db : forall (a : list A) (b : list B) (G : nat -> C),
  length b = length a -> (forall i, i < length a -> F (nth i a da, nth i b db) = G i) ->
  map F (combine a b) = map G (seq 0 (length a)).
Proof.
  induction a as [|x a IH]; intros [|y b] G Hl H; try discriminate Hl; [reflexivity|].
  cbn [combine map length seq]. rewrite <- seq_shift, map_map.
  f_equal; [exact (H 0 ltac:(cbn [length]; lia))|].
  apply IH; [cbn [length] in Hl; lia|]. intros i Hi. apply (H (S i)). cbn [length]. lia.
Qed.

Theorem cs_para_from_mixed :
  CS_runs -> CS_sequences -> CS_weak' -> CS_neutral' -> CS_levels -> CS_shortcut -> CS_para.
Proof.
  intros HR HS HW HN [HL1 HL2] HSh ds cps dir pure iso cls0 brk pl Hsp Hd Hpure Hiso.
  assert (Hc0 : length cls0 = length cps) by (unfold cls0; apply map_length).
  assert (Hbrk : length brk = length cls0) by (unfold brk, cls0; rewrite !map_length; reflexivity).
  assert (Hpl : pl <= 1) by (apply dir3_para_level; exact Hd).
  set (oc := reported_classes cls0).
  assert (Hoc : length oc = length cps) by (unfold oc; rewrite reported_length; exact Hc0).
  unfold compute_bidi_info_for_para.
  destruct ((pl =? 0) && pure) eqn:Esh.
  { rewrite para_fast, Hoc, <- Hc0 by exact Esh.
    apply andb_true_iff in Esh as [E0 Ep]. apply Nat.eqb_eq in E0.
    f_equal. rewrite E0. symmetry.
    apply HSh; [exact Hsp | exact Hbrk | rewrite <- Hpure; exact Ep | exact E0]. }
  destruct (Nat.eq_dec (length cps) 0) as [Hz|Hnz].
  { (* T_sequences and CS_sequences speak of non-empty paragraphs only *)
    destruct cps; [|discriminate Hz].
    unfold compute_bidi_info_for_para_gen. rewrite Esh. destruct iso; reflexivity. }
  destruct (explicit_facts cps cls0 pl Hc0 Hpl)
    as (lv & pc & runs & Hex & Hl1 & Hl2 & HF & Ht & _ & Hlive & Hrem).
  fold oc in Hex, Hlive, Hrem. specialize (Ht ltac:(lia)).
  pose proof (HR cps cls0 pl lv pc runs Hc0 Hpl Hsp Hex) as Hb. fold oc in Hb.
  destruct (sequences_total_proved pl oc lv runs iso (length cps) Hoc Hl1 ltac:(lia) Ht) as (seqs & Es & Hwf & Hperm).
  assert (Hs3 : Permutation (model_seq3 oc seqs) (spec_seq3 cls0 (fst (explicit_levels cls0 pl)) pl)).
  { apply (HS cls0 pl lv runs iso seqs); [|intros E; apply no_iso_reported; rewrite <- Hiso; exact E | exact Es].
    unfold cs_sequences_hyps. rewrite Hc0. fold oc.
    repeat split; try assumption; [lia|]. intros i Hi Hl. exact (proj1 (Hlive i Hi Hl)). }
  pose proof (seq_first_live pl oc lv runs iso seqs Es) as Hfl.
  destruct (seqs_geometry (length cps) runs seqs Ht Hperm) as [Hnd Hcov].
  destruct (resolve_sequences_spec HW HN ds cps lv oc Hoc Hl1 seqs pc Hl2 Hwf Hnd) as (out & Er & Lo & _ & Hres).
  assert (H125 : Forall (fun l => l <= 125) lv)
    by (eapply Forall_impl; [|exact HF]; intros a [_ Ha]; exact Ha).
  rewrite <- Hoc in Hex at 1.
  rewrite (para_slow U32 ds false pl pure iso cps oc _ _ _ _ _ _ Esh Hex Es Er (HL1 out lv ltac:(lia) H125)).
  rewrite HL2 by (rewrite map2_implicit_length by lia; lia).
  f_equal. f_equal.
  destruct (explicit_levels cls0 pl) as [xlev xcls] eqn:Ex. cbn [fst snd] in *.
  assert (Hxl : length xcls = length cls0).
  { replace xcls with (snd (explicit_levels cls0 pl)) by (rewrite Ex; reflexivity).
    apply (x_run_length cls0 pl cls0). }
  destruct (seq3_cover oc seqs cls0 xlev pl Hs3) as [Hspec Hmodel].
  set (g := fun i => implicit_level (nth i lv 0) (nth i out BN)).
  rewrite (resolve_paragraph_pointwise cls0 brk dir xlev xcls g Ex).
  - rewrite Hc0, <- Hoc. apply (map_combine_seq _ BN 0); [rewrite map2_implicit_length by lia; lia|].
    intros i Hi. cbn [fst snd]. unfold g. rewrite map2_implicit_nth by lia.
    unfold oc. rewrite nth_reported, rep_removed by reflexivity. reflexivity.
  - intros s Hs. destruct (Hspec s Hs) as (sq & Hin & <- & Hne & Hsos & Heos).
    assert (Hidx : forall i, In i (seq_idx sq) -> i < length cps).
    { intros i Hi. apply Hcov. apply in_flat_map. exists sq. split; assumption. }
    apply (seq_match ds cps cls0 brk xlev xcls pl lv pc out sq); auto.
    + apply (ecls_match cls0 xlev oc lv pl runs sq Hb); [| |exact Hne].
      * intros r Hr. apply (Permutation_in _ Hperm). apply in_flat_map. exists sq. split; assumption.
      * rewrite Forall_forall in Hfl. apply Hfl; exact Hin.
    + apply Hres; [exact Hin|].
      apply (sq_pre_explicit cls0 xcls pl (length cps) pc sq Hc0); [rewrite Ex; reflexivity | | exact Hrem | exact Hidx].
      intros i Hi Hl. exact (proj2 (Hlive i Hi Hl)).
  - intros i Hi Hr. rewrite Hc0 in Hi.
    assert (Hl : live oc i = true).
    { unfold oc. rewrite live_reported, Hr. reflexivity. }
    apply Hcov in Hi. apply in_flat_map in Hi as (sq & Hin & Hi).
    assert (Hili : In i (live_idx oc sq)) by (unfold live_idx; apply filter_In; split; assumption).
    apply in_concat. exists (live_idx oc sq). split; [|exact Hili].
    apply Hmodel; [exact Hin|]. intros E. rewrite E in Hili. contradiction.
Qed.

Theorem cs_para_from :
  CS_runs' -> CS_sequences' -> CS_weak' -> CS_neutral' -> CS_levels -> CS_shortcut -> CS_para.
Proof.
  intros HR HS. apply cs_para_from_mixed.
  - intros cps cls0 pl lv pc runs H1 H2 H3 oc H4. rewrite <- runs_bd7_extra3.
    exact (HR cps cls0 pl lv pc runs H1 H2 H3 H4).
  - intros cls0 pl lv runs has_iso seqs Hh. apply (HS cls0 pl lv runs has_iso seqs).
    unfold cs_sequences_hyps', cs_sequences_hyps_x. rewrite runs_bd7_extra3. exact Hh.
Qed.

Theorem cs_para_from_pinned :
  CS_runs -> CS_sequences -> CS_weak -> CS_neutral -> CS_levels -> CS_shortcut -> CS_para.
Proof. exact cs_para_from_mixed. Qed.
