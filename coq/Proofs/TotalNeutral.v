(* Proofs/TotalNeutral.v — totality, length preservation and frame of implicit::resolve_neutral
   (with identify_bracket_pairs) at character level (ghost encoding U32).  Every write of the stage is
   an [lset_all] on positions of the sequence, which gives length and frame; what has to be shown is
   that every index read lies inside the vectors: the bracket pairs of BD16 point into the runs
   ([pair_ok]), N0 is then the closed form of NeutralPair, and the iterator of N1/N2 shrinks. *)
From BidiVerif Require Import Base ConstsGen ModelText ModelResolve StageRel Stmts3 Stmts4.
From BidiVerif.Proofs Require Import ListLib LevelOps CSNeutralBase NeutralLoops NeutralPair.
From Coq Require Import Permutation.

(* frame: same length, untouched outside S *)
Definition fr {A} (S : list nat) (a b : list A) : Prop :=
  length b = length a /\ forall i, ~ In i S -> nth_error b i = nth_error a i.

Lemma fr_refl {A} S (a : list A) : fr S a a.
Proof. split; auto. Qed.

Lemma fr_trans {A} S (a b c : list A) : fr S a b -> fr S b c -> fr S a c.
Proof.
  intros [L1 F1] [L2 F2]. split; [congruence|].
  intros i Hi. rewrite F2, F1; auto.
Qed.

Lemma fr_len {A} S (a b : list A) : fr S a b -> length b = length a.
Proof. intros [H _]; exact H. Qed.

Lemma fr_lset_all {A} S (l : list A) idxs x : incl idxs S -> fr S l (lset_all l idxs x).
Proof.
  intros H. split; [apply lset_all_length|].
  intros i Hi. apply nth_error_lset_all_notin. intros Hin. apply Hi, H, Hin.
Qed.

Lemma in_run_range r j : In j (run_range r) <-> fst r <= j < snd r.
Proof. apply in_range. Qed.

Lemma S_bound k (runs : list run) : Forall (run_in k) runs -> forall j, In j (flat_map run_range runs) -> j < k.
Proof.
  intros HF j Hj. apply in_flat_map in Hj as (r & Hr & Hj). apply in_run_range in Hj.
  rewrite Forall_forall in HF. destruct (HF r Hr) as [_ H]. lia.
Qed.

Definition pos_ok (runs : list run) (pos ri : nat) : Prop :=
  exists r, nth_error runs ri = Some r /\ fst r <= pos < snd r.

Definition pair_ok (runs : list run) (p : bracket_pair) : Prop :=
  pos_ok runs (bp_start p) (bp_start_run p) /\ pos_ok runs (bp_end p) (bp_end_run p) /\
  bp_start p < bp_end p.

Definition entry_ok (runs : list run) (bound : nat) (en : N * nat * nat) : Prop :=
  pos_ok runs (snd (fst en)) (snd en) /\ snd (fst en) < bound.

Definition stack_ok (runs : list run) (bound : nat) (stack : list (N * nat * nat)) : Prop :=
  Forall (entry_ok runs bound) stack.

Lemma stack_ok_mono runs b b' stack : b <= b' -> stack_ok runs b stack -> stack_ok runs b' stack.
Proof.
  intros Hb H. unfold stack_ok in *. eapply Forall_impl; [|exact H].
  intros en [H1 H2]. split; [exact H1 | lia].
Qed.

Lemma bracket_match_ok runs b key : forall stack pos ri below,
  stack_ok runs b stack -> bracket_match key stack = Some (pos, ri, below) ->
  pos_ok runs pos ri /\ pos < b /\ stack_ok runs b below.
Proof.
  induction stack as [|[[k0 p0] r0] rest IH]; intros pos ri below Hs Hm; cbn [bracket_match] in Hm; [discriminate|].
  inversion Hs as [|x l [Hx1 Hx2] Hrest]; subst. cbn [fst snd] in Hx1, Hx2.
  destruct (k0 =? key)%N.
  - injection Hm as -> -> ->. auto.
  - eapply IH; eauto.
Qed.

Lemma pos_ok_S (runs : list run) pos ri : pos_ok runs pos ri -> In pos (flat_map run_range runs).
Proof.
  intros (r & Hn & Hr). apply in_flat_map. exists r. split; [eapply nth_error_In; eauto | apply in_run_range, Hr].
Qed.

Section BD16.
Variable ds : datasource.
Variable legacy : bool.
Variable runs : list run.
Variable oc pc : list bclass.

Lemma bd16_run_ok run_index s en :
  nth_error runs run_index = Some (s, en) -> en <= length pc -> en <= length oc ->
  forall sub a stack pairs,
    s + a + length sub <= en -> stack_ok runs (s + a) stack -> Forall (pair_ok runs) pairs ->
    exists stack' pairs' stopped,
      bd16_run ds legacy oc pc run_index s (combine (seq a (length sub)) sub) stack pairs
        = Ok (stack', pairs', stopped) /\
      stack_ok runs en stack' /\ Forall (pair_ok runs) pairs'.
Proof.
  intros Hn Hen Heno.
  induction sub as [|ch sub IH]; intros a stack pairs Hlen Hst Hp.
  - cbn [length seq combine bd16_run]. exists stack, pairs, false. split; [reflexivity|]. split; [|exact Hp].
    eapply stack_ok_mono; [|exact Hst]. cbn [length] in Hlen. lia.
  - cbn [length] in Hlen. cbn [length seq combine bd16_run].
    assert (Hnext : forall stack1 pairs1, stack_ok runs (s + a) stack1 -> Forall (pair_ok runs) pairs1 ->
      exists stack' pairs' stopped,
        bd16_run ds legacy oc pc run_index s (combine (seq (S a) (length sub)) sub) stack1 pairs1
          = Ok (stack', pairs', stopped) /\
        stack_ok runs en stack' /\ Forall (pair_ok runs) pairs').
    { intros stack1 pairs1 H1 H2. apply IH; [lia | | exact H2].
      eapply stack_ok_mono; [|exact H1]. lia. }
    assert (Hpos : pos_ok runs (s + a) run_index) by (exists (s, en); split; [exact Hn | cbn [fst snd]; lia]).
    destruct (get_total 524 pc (s + a)) as (c & ->); [lia|]. cbn [bind].
    destruct (negb (c =c ON)); [apply Hnext; assumption|].
    destruct (get_total 530 oc (s + a)) as (o & ->); [lia|]. cbn [bind].
    destruct (removed_by_x9 o && negb legacy); [apply Hnext; assumption|].
    destruct (ds_bracket ds ch) as [[opening is_open]|]; [|apply Hnext; assumption].
    destruct is_open.
    + destruct (bracket_limit <=? length stack).
      * exists stack, pairs, true. split; [reflexivity|]. split; [|exact Hp].
        eapply stack_ok_mono; [|exact Hst]. lia.
      * apply IH; [lia | | exact Hp].
        constructor; [split; [exact Hpos | cbn [fst snd]; lia]|].
        eapply stack_ok_mono; [|exact Hst]. lia.
    + destruct (bracket_match opening stack) as [[[pos ri] below]|] eqn:Em; [|apply Hnext; assumption].
      destruct (bracket_match_ok _ _ _ _ _ _ _ Hst Em) as (Hpos' & Hlt & Hbelow).
      apply Hnext; [exact Hbelow|].
      apply Forall_app; split; [exact Hp|]. constructor; [|constructor].
      split; [exact Hpos'|]. split; [exact Hpos | exact Hlt].
Qed.

End BD16.

Lemma bd16_runs_ok ds text oc pc runs k :
  length text = k -> length pc = k -> length oc = k ->
  forall rest pre run_index prev stack pairs,
    runs = pre ++ rest -> run_index = length pre ->
    runs_ascending prev rest -> Forall (run_in k) rest ->
    stack_ok runs prev stack -> Forall (pair_ok runs) pairs ->
    exists pairs', bd16_runs U32 ds false text oc pc run_index rest stack pairs = Ok pairs' /\
                   Forall (pair_ok runs) pairs'.
Proof.
  intros Ht Hpc Hoc.
  induction rest as [|[s en] rest IH]; intros pre run_index prev stack pairs Hruns Hri Hasc Hin Hst Hp.
  - cbn [bd16_runs]. eauto.
  - cbn [bd16_runs t_subrange t_char_indices].
    cbn [runs_ascending] in Hasc. destruct Hasc as (Hprev & Hlt & Hasc).
    inversion Hin as [|x l [_ Hen] Hin']; subst x l. cbn [fst snd] in Hen.
    rewrite slice_ok by lia. cbn [bind].
    assert (Hn : nth_error runs run_index = Some (s, en)) by (rewrite Hruns, Hri; apply nth_error_mid).
    destruct (bd16_run_ok ds false runs oc pc run_index s en Hn ltac:(lia) ltac:(lia)
                (firstn (en - s) (skipn s text)) 0 stack pairs) as (st' & ps' & stopped & E & Hst' & Hps').
    { rewrite firstn_length, skipn_length. lia. }
    { eapply stack_ok_mono; [|exact Hst]. lia. }
    { exact Hp. }
    rewrite E; cbn [bind].
    destruct stopped; cbn [andb negb].
    + eauto.
    + apply (IH (pre ++ [(s, en)]) (S run_index) en); auto.
      * rewrite <- app_assoc. exact Hruns.
      * rewrite app_length. cbn [length]. lia.
Qed.

Lemma insert_pair_perm p : forall l, Permutation (insert_pair p l) (p :: l).
Proof.
  induction l as [|q l IH]; cbn [insert_pair]; [reflexivity|].
  destruct (bp_start p <? bp_start q); [reflexivity|].
  rewrite IH. apply perm_swap.
Qed.

Lemma sort_pairs_perm l : Permutation (sort_pairs l) l.
Proof.
  unfold sort_pairs. rewrite <- (app_nil_r l) at 2. generalize (@nil bracket_pair).
  induction l as [|p l IH]; intros acc; cbn [fold_left app]; [reflexivity|].
  rewrite IH. rewrite insert_pair_perm. symmetry. apply Permutation_middle.
Qed.

Lemma sort_pairs_Forall (P : bracket_pair -> Prop) l : Forall P l -> Forall P (sort_pairs l).
Proof. apply Permutation_Forall. symmetry. apply sort_pairs_perm. Qed.

Section N0.
Variable cps : list N.
Variable sq : irs.
Variable oc : list bclass.
Variable k : nat.
Hypothesis Hcps : length cps = k.
Hypothesis Hoc : length oc = k.
Hypothesis Hwf : seq_wf k sq.
Variable e : bclass.
Hypothesis He : e = L \/ e = R.
Let S := seq_idx sq.

Lemma n0_pair_ok (pc : list bclass) p :
  length pc = k -> pair_ok (irs_runs sq) p ->
  exists pc', n0_pair U32 false iter_backwards_from cps sq oc e (if e =c L then R else L) pc p = Ok pc' /\
              fr S pc pc'.
Proof.
  intros Hpc (Hs & He' & Hlt). destruct Hwf as (_ & Hin & Hasc & _). destruct (asc_runs _ _ Hasc) as [HascS _].
  destruct (pair_cut S _ _ HascS (pos_ok_S _ _ _ Hs) (pos_ok_S _ _ _ He') Hlt) as (pre & mid & post & HSq).
  rewrite (n0_pair_eq cps sq oc k Hcps Hoc e He HascS (S_bound k _ Hin) pre mid post _ _ HSq pc p Hpc
             eq_refl eq_refl Hs He').
  eexists. split; [reflexivity|].
  destruct (n0_decide sq oc e pre mid pc); [apply fr_lset_all, (Mset_incl oc S _ _ _ _ _ HascS HSq) | apply fr_refl].
Qed.

Lemma n0_pairs_ok : forall pairs (pc : list bclass),
  length pc = k -> Forall (pair_ok (irs_runs sq)) pairs ->
  exists pc', n0_pairs U32 false iter_backwards_from cps sq oc e (if e =c L then R else L) pc pairs = Ok pc' /\
              fr S pc pc'.
Proof.
  induction pairs as [|p rest IH]; intros pc Hpc Hp; cbn [n0_pairs].
  - exists pc; split; [reflexivity | apply fr_refl].
  - apply Forall_cons_iff in Hp as [Hp1 Hp2].
    destruct (n0_pair_ok pc p Hpc Hp1) as (pc1 & E1 & F1).
    rewrite E1; cbn [bind].
    destruct (IH pc1) as (pc2 & E2 & F2); [rewrite (fr_len _ _ _ F1); exact Hpc | exact Hp2 |].
    exists pc2; split; [exact E2 | eapply fr_trans; eauto].
Qed.

End N0.

Lemma ni_consume_total pc : forall l acc last, (forall j, In j l -> j < length pc) ->
  exists r, ni_consume pc l acc last = Ok r.
Proof.
  induction l as [|j l IH]; intros acc last H; cbn [ni_consume]; [eauto|].
  destruct (get_total 448 pc j) as (c & ->); [apply H; left; reflexivity|]. cbn [bind].
  destruct (is_NI c || (c =c BN)); [|eauto]. apply IH. intros j' Hj'. apply H. right. exact Hj'.
Qed.

(* a round takes the run it resolves, and the position that ended it, off the iterator *)
Lemma n12_loop_ok S sq ecls : forall fuel idxs (pc : list bclass) prev,
  length idxs < fuel -> incl idxs S -> (forall j, In j S -> j < length pc) ->
  exists out, n12_loop fuel sq ecls pc idxs prev = Ok out /\ fr S pc out.
Proof.
  induction fuel as [|f IH]; intros idxs pc prev Hf Hin Hk; [lia|].
  cbn [n12_loop]. destruct idxs as [|i rest]; [exists pc; split; [reflexivity | apply fr_refl]|].
  apply incl_cons_inv in Hin as [Hi Hrest]. cbn [length] in Hf.
  destruct (get_total 440 pc i (Hk i Hi)) as (c & ->). cbn [bind].
  destruct (is_NI c || (c =c BN)); [|apply IH; auto; lia].
  destruct (ni_consume_total pc rest [i] i) as ([[[run last] nc] rest'] & E); [intros j Hj; apply Hk, Hrest, Hj|].
  rewrite E. cbn [bind]. apply ni_consume_inv in E as (l1 & -> & _ & Hcase).
  assert (H : incl l1 rest /\ In last (i :: rest) /\ incl rest' rest /\ length rest' <= length rest).
  { destruct Hcase as [(_ & -> & -> & Hl)|(c' & _ & -> & _)].
    - repeat split; auto using incl_refl; [intros x [] | cbn; lia].
    - rewrite app_length. cbn [length]. repeat split; [apply incl_appl, incl_refl | | | lia].
      + right. apply in_or_app. right. left. reflexivity.
      + intros x Hx. apply in_or_app. right. right. exact Hx. }
  destruct H as (H1 & H2 & H3 & H4).
  assert (HrunS : incl ([i] ++ l1) S) by (intros x [<-|Hx]; [exact Hi | apply Hrest, H1, Hx]).
  rewrite set_all_lset_all by (intros j Hj; apply Hk, HrunS, Hj). cbn [bind].
  pose proof (fr_lset_all S pc _ (n12_class prev (opt_or nc (irs_eos sq)) ecls) HrunS) as F1.
  set (pc1 := lset_all pc _ _) in *. pose proof (fr_len _ _ _ F1) as L1.
  destruct (get_total 484 pc1 last) as (p & ->).
  { rewrite L1. apply Hk. destruct H2 as [<-|H2]; [exact Hi | apply Hrest, H2]. }
  cbn [bind].
  destruct (IH rest' pc1 p) as (out & Eo & Fo);
    [lia | intros x Hx; apply Hrest, H3, Hx | intros j Hj; rewrite L1; apply Hk, Hj|].
  exists out. split; [exact Eo | eapply fr_trans; eauto].
Qed.

Lemma t_neutral_proof : T_neutral.
Proof.
  unfold T_neutral. intros ds cps sq lv oc pc Hpc Hoc Hlv Hwf.
  pose proof Hwf as (Hne & Hin & Hasc & _ & _). unfold seq_in in Hin.
  set (k := length cps) in *.
  pose proof (S_bound k (irs_runs sq) Hin) as HSk.
  unfold resolve_neutral, resolve_neutral_gen.
  destruct (irs_runs sq) as [|r0 rest] eqn:Eruns; [congruence|]. rewrite <- Eruns in *.
  assert (Hr0 : run_in k r0).
  { rewrite Eruns in Hin. inversion Hin; assumption. }
  destruct (get_total 272 lv (fst r0)) as (l0 & ->); [destruct Hr0; lia|]. cbn [bind].
  unfold identify_bracket_pairs_gen.
  destruct (bd16_runs_ok ds cps oc pc (irs_runs sq) k eq_refl Hpc Hoc (irs_runs sq) [] 0 0 [] [])
    as (pairs & Ep & Hpairs); auto; try constructor.
  rewrite Ep; cbn [bind].
  apply (sort_pairs_Forall _ _) in Hpairs.
  destruct (n0_pairs_ok cps sq oc k eq_refl Hoc Hwf (level_class l0) (level_class_LR l0)
              (sort_pairs pairs) pc Hpc Hpairs) as (pc1 & E1 & F1).
  rewrite E1; cbn [bind].
  destruct (n12_loop_ok (seq_idx sq) sq (level_class l0)
              (S (length (seq_idx sq))) (seq_idx sq) pc1 (irs_sos sq)) as (out & Eo & Fo);
    [lia | apply incl_refl | intros j Hj; rewrite (fr_len _ _ _ F1), Hpc; apply HSk, Hj |].
  exists out. split; [exact Eo|].
  destruct (fr_trans _ _ _ _ F1 Fo) as [Hl Hf]. split; [exact Hl | exact Hf].
Qed.
