(* Proofs/Queries.v — C17: the summary queries (direction, level_at, has_rtl) say what they claim,
   and ParagraphBidiInfo::has_rtl = false implies that every stored level is even and that every
   line reorders to itself. *)
From BidiVerif Require Import Base ModelText ModelResolve ModelLine Stmts.
From BidiVerif.Proofs Require Import ListLib.
From BidiVerif.Proofs Require Import LevelOps.

Lemma parity_cases l :
  (is_ltr l = true /\ is_rtl l = false /\ Nat.even l = true /\ Nat.odd l = false) \/
  (is_ltr l = false /\ is_rtl l = true /\ Nat.even l = false /\ Nat.odd l = true).
Proof.
  rewrite <- is_ltr_even, <- is_rtl_odd, ltr_rtl_exclusive.
  destruct (is_rtl l); [right|left]; repeat split; reflexivity.
Qed.

(* the scan keeps two flags, "an even level seen" and "an odd level seen", never both set while it runs
   (the third branch of the model, a level neither even nor odd, is dead) *)
Definition dir_of_flags (l r : bool) : direction := if l && r then Mixed else if l then Ltr else Rtl.

Lemma para_direction_from_closed lv : forall ltr rtl, ltr && rtl = false ->
  para_direction_from ltr rtl lv = dir_of_flags (ltr || existsb Nat.even lv) (rtl || existsb Nat.odd lv).
Proof.
  induction lv as [|l rest IH]; intros ltr rtl Hx; cbn [para_direction_from existsb].
  - rewrite !orb_false_r. unfold dir_of_flags. rewrite Hx. reflexivity.
  - destruct (parity_cases l) as [(A & B & C & D)|(A & B & C & D)]; rewrite A, ?B, C, D; cbn [orb].
    + destruct rtl; [rewrite !orb_true_r; reflexivity|].
      rewrite IH by reflexivity. rewrite orb_true_r. reflexivity.
    + destruct ltr; [rewrite !orb_true_r; reflexivity|].
      rewrite IH by reflexivity. rewrite orb_true_r. reflexivity.
Qed.

Lemma existsb_false_Forall (p q : nat -> bool) l : (forall x, q x = negb (p x)) ->
  (existsb p l = false <-> Forall (fun x => q x = true) l).
Proof.
  intros Hq. induction l as [|x l IH]; cbn [existsb]; [split; [constructor | reflexivity]|].
  rewrite orb_false_iff, IH, Forall_cons_iff, Hq, negb_true_iff. reflexivity.
Qed.

Lemma para_direction_spec lv : lv <> [] ->
  (para_direction lv = Ltr <-> Forall (fun l => Nat.even l = true) lv) /\
  (para_direction lv = Rtl <-> Forall (fun l => Nat.odd l = true) lv).
Proof.
  intros Hne. unfold para_direction. rewrite para_direction_from_closed by reflexivity. cbn [orb].
  rewrite <- (existsb_false_Forall Nat.odd Nat.even) by (intros x; symmetry; apply Nat.negb_odd).
  rewrite <- (existsb_false_Forall Nat.even Nat.odd) by (intros x; symmetry; apply Nat.negb_even).
  destruct lv as [|l rest]; [contradiction|]. cbn [existsb].
  destruct (parity_cases l) as [(_ & _ & -> & ->)|(_ & _ & -> & ->)]; cbn [orb]; unfold dir_of_flags;
    destruct (existsb Nat.even rest), (existsb Nat.odd rest); cbn [andb]; split; split; congruence.
Qed.

Lemma paragraph_level_at_spec lv p k : paragraph_level_at lv p k = get 1227 lv (p_start p + k).
Proof. reflexivity. Qed.

Lemma bidi_info_has_rtl_spec b :
  bidi_info_has_rtl b = true <-> exists l, In l (bi_levels b) /\ Nat.odd l = true.
Proof. unfold bidi_info_has_rtl. apply has_rtl_spec. Qed.

Lemma ii_step_level e ds dl st ic st' :
  ii_step e ds false dl st ic = Ok st' ->
  dir3 (ii_para_level st) -> dir3 (ii_para_level st').
Proof.
  intros H D. destruct ic as [i c]. unfold ii_step in H. cbv zeta in H.
  destruct (ds_class ds c);
    cbn [ii_stack ii_para_level ii_classes ii_para_start ii_pure ii_iso ii_paras ii_flags] in H;
    try (injection H as <-; exact D).
  (* left: L, R, AL.  Outside every isolate they set the paragraph level if it is still open;
     inside one they may rewrite a pending FSI and leave the level alone *)
  all: destruct (ii_stack st) as [|s0 stk];
    [ injection H as <-; cbn [ii_para_level];
      destruct D as [D|[D|D]]; rewrite D; unfold dir3; cbn; auto
    | apply bind_ok in H as (k & _ & H); apply bind_ok in H as (cl & _ & H);
      injection H as <-; exact D ].
Qed.

Lemma ii_fold_level e ds dl l : forall st st',
  ii_fold e ds false dl st l = Ok st' ->
  dir3 (ii_para_level st) -> dir3 (ii_para_level st').
Proof.
  induction l as [|ic rest IH]; intros st st' H D; cbn [ii_fold] in H.
  - injection H as <-. exact D.
  - apply bind_ok in H as (st1 & H1 & H2).
    apply (IH st1 st' H2). apply (ii_step_level e ds dl st ic st1 H1 D).
Qed.

Lemma initial_info_level e ds text d ii :
  dir3 d -> compute_initial_info e ds text d false = Ok ii ->
  in_level ii = 0 \/ in_level ii = 1.
Proof.
  intros D H. unfold compute_initial_info in H.
  apply bind_ok in H as (st & Hf & H).
  apply ii_fold_level in Hf; [|exact D].
  cbn [andb] in H. injection H as <-. cbn [in_level].
  destruct Hf as [E|[E|E]]; rewrite E; cbn [opt_or]; auto.
Qed.

Lemma pure_ltr_levels e ds legacy iso text oc :
  compute_bidi_info_for_para_gen e ds legacy 0 true iso text oc = Ok (repeat 0 (length oc)).
Proof. reflexivity. Qed.

Lemma reorder_line_zero e text classes n line :
  fst line <= snd line -> snd line <= n ->
  reorder_line e false text classes (repeat 0 n) 0 line = t_subrange 596 e text (fst line) (snd line).
Proof.
  intros Hab Hbn. unfold reorder_line, slice. rewrite repeat_length.
  assert (C : (fst line <=? snd line) && (snd line <=? n) = true).
  { apply andb_true_iff; split; apply Nat.leb_le; assumption. }
  rewrite C. cbn [bind].
  assert (R : levels_has_rtl (firstn (snd line - fst line) (skipn (fst line) (repeat 0 n))) = false).
  { apply not_true_is_false. intros H. apply existsb_exists in H as (x & Hx & Ex).
    apply in_firstn, in_skipn, repeat_spec in Hx. subst x. discriminate. }
  rewrite R. reflexivity.
Qed.

Lemma no_rtl_paragraph e ds text d pb :
  dir3 d ->
  para_bidi_info_new e ds text d = Ok pb ->
  para_bidi_info_has_rtl false pb = false ->
  Forall (fun l => Nat.even l = true) (pb_levels pb) /\
  (forall line, fst line <= snd line -> snd line <= length (pb_levels pb) ->
     reorder_line e false text (pb_classes pb) (pb_levels pb) (pb_level pb) line
     = t_subrange 596 e text (fst line) (snd line)).
Proof.
  intros D H N. unfold para_bidi_info_new, para_bidi_info_new_gen in H.
  apply bind_ok in H as (ii & Hii & H).
  apply bind_ok in H as (levels & Hl & H).
  injection H as <-.
  unfold para_bidi_info_has_rtl in N. cbn [pb_pure pb_level negb andb] in N.
  apply orb_false_iff in N as [Np Nl].
  apply negb_false_iff in Np.
  assert (L0 : in_level ii = 0).
  { destruct (initial_info_level e ds text d ii D Hii) as [E|E]; [exact E|].
    rewrite E in Nl. discriminate Nl. }
  rewrite L0, Np, pure_ltr_levels in Hl. injection Hl as <-.
  cbn [pb_levels pb_classes pb_level]. rewrite L0. split.
  - apply Forall_forall. intros x Hx. apply repeat_spec in Hx. subst x. reflexivity.
  - intros line Hab Hbn. rewrite repeat_length in Hbn. apply reorder_line_zero; assumption.
Qed.

Lemma C17_proof : C17_statement.
Proof.
  unfold C17_statement.
  split; [exact para_direction_spec|].
  split; [exact paragraph_level_at_spec|].
  split; [exact bidi_info_has_rtl_spec|].
  exact no_rtl_paragraph.
Qed.
