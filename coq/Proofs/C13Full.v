(* Proofs/C13Full.v — C13 part B: X10/W/N/I on the isolating run sequences outside the pair, and the
   resolved levels. *)
From BidiVerif Require Import Base Spec Stmts7.
From BidiVerif.Proofs Require Import ListLib.
From BidiVerif.Proofs Require Import ExplicitSteps C13Explicit C13Runs C13Text C13Seqs.

Lemma filter_map_comm {A B} (p : B -> bool) (g : A -> B) l : filter p (map g l) = map g (filter (fun x => p (g x)) l).
Proof.
  induction l as [|a l IH]; [reflexivity|]. cbn [map filter]. destruct (p (g a)); cbn [map]; rewrite IH; reflexivity.
Qed.

Definition lastopt (l : list nat) : option nat := match rev l with x :: _ => Some x | [] => None end.

Lemma lastopt_snoc l x : lastopt (l ++ [x]) = Some x.
Proof. unfold lastopt. rewrite rev_app_distr. reflexivity. Qed.

Lemma lastopt_app_cons a x b : lastopt (a ++ x :: b) = match lastopt b with Some y => Some y | None => Some x end.
Proof.
  unfold lastopt. rewrite rev_app_distr. cbn [rev]. destruct (rev b) as [|y r] eqn:E; cbn [app]; reflexivity.
Qed.

Lemma lastopt_map (g : nat -> nat) l : lastopt (map g l) = option_map g (lastopt l).
Proof. unfold lastopt. rewrite <- map_rev. destruct (rev l); reflexivity. Qed.

Lemma hd_app_ne {A} (a b : list A) : a <> [] -> forall d, hd d (a ++ b) = hd d a.
Proof. destruct a; [contradiction|reflexivity]. Qed.

Lemma assoc_nat_app k a b :
  assoc_nat k (a ++ b) = match assoc_nat k a with Some v => Some v | None => assoc_nat k b end.
Proof.
  induction a as [|[x y] a IH]; [reflexivity|]. cbn [app assoc_nat]. destruct (x =? k); [reflexivity|exact IH].
Qed.

Lemma assoc_nat_notin k l : (forall p, In p l -> fst p <> k) -> assoc_nat k l = None.
Proof.
  induction l as [|[x y] l IH]; intros H; [reflexivity|]. cbn [assoc_nat].
  destruct (x =? k) eqn:E; [apply Nat.eqb_eq in E; exfalso; apply (H (x, y)); [left; reflexivity|exact E]|].
  apply IH. intros p Hp. apply H. right. exact Hp.
Qed.

Lemma assoc_nat_map (g : nat -> nat) k l : (forall x y, g x = g y -> x = y) ->
  assoc_nat (g k) (map (fun p => (g (fst p), snd p)) l) = assoc_nat k l.
Proof.
  intros Hg. induction l as [|[x y] l IH]; [reflexivity|]. cbn [map assoc_nat fst snd].
  destruct (x =? k) eqn:E.
  - apply Nat.eqb_eq in E. subst x. rewrite Nat.eqb_refl. reflexivity.
  - apply Nat.eqb_neq in E. assert (E' : (g x =? g k) = false).
    { apply Nat.eqb_neq. intros H. apply E, Hg, H. }
    rewrite E'. exact IH.
Qed.

Lemma match_rev_lastopt {A} (L : list nat) (F : nat -> A) (d : A) :
  match rev L with i :: _ => F i | [] => d end = match lastopt L with Some i => F i | None => d end.
Proof. unfold lastopt. destruct (rev L); reflexivity. Qed.

Lemma match_hd_error {A} (L : list nat) (F : nat -> A) (d : A) :
  match L with i :: _ => F i | [] => d end = match hd_error L with Some i => F i | None => d end.
Proof. destruct L; reflexivity. Qed.

Lemma hd_error_map (g : nat -> nat) l : hd_error (map g l) = option_map g (hd_error l).
Proof. destruct l; reflexivity. Qed.

Lemma combine_map_l {A} (g : nat -> nat) s (t : list A) :
  combine (map g s) t = map (fun p => (g (fst p), snd p)) (combine s t).
Proof.
  revert t. induction s as [|x s IH]; intros t; [reflexivity|]. destruct t as [|y t]; [reflexivity|].
  cbn [map combine fst snd]. rewrite IH. reflexivity.
Qed.

Lemma nth_map_seq {A} (F : nat -> A) n i d : i < n -> nth i (map F (seq 0 n)) d = F i.
Proof.
  intros H. rewrite (nth_indep _ d (F 0)) by (rewrite map_length, seq_length; exact H).
  rewrite map_nth. rewrite seq_nth by exact H. reflexivity.
Qed.

Section Outside.
Variables (prefix suffix c : list bclass) (ini : bclass).
Hypothesis Hini : ini = LRI \/ ini = RLI.
Hypothesis Hbal : iso_bal 0 c = true.
Variables (LP LS LC : list (option nat)) (CP CS CC : list bclass) (tl : nat) (to : ovr) (pl : nat).
Variables (bp bs b : list (option (N * bool))) (bi bq : option (N * bool)).

Let np := length prefix.
Let m := length c.
Let q := np + 1 + m.
Let T := txt prefix ini c suffix.
Let T0 := txt prefix ini [] suffix.
Let f := fo np m.
Let XL := LP ++ [Some tl] ++ LC ++ [Some tl] ++ LS.
Let XL0 := LP ++ [Some tl] ++ [] ++ [Some tl] ++ LS.
Let XC := CP ++ [ovr_class to ini] ++ CC ++ [ovr_class to PDI] ++ CS.
Let XC0 := CP ++ [ovr_class to ini] ++ [] ++ [ovr_class to PDI] ++ CS.
Let K := bp ++ [bi] ++ b ++ [bq] ++ bs.
Let K0 := bp ++ [bi] ++ [] ++ [bq] ++ bs.

Hypothesis HLP : length LP = np.
Hypothesis HLC : length LC = m.
Hypothesis HCP : length CP = np.
Hypothesis HCC : length CC = m.
Hypothesis HCS : length CS = length suffix.
Hypothesis Hbp : length bp = np.
Hypothesis Hb : length b = m.

Let RP := remaining prefix.
Let RC := map (fun i => np + 1 + i) (remaining c).
Let RS0 := map (fun i => np + 2 + i) (remaining suffix).
Let idx1 := remaining T.
Let idx0 := remaining T0.

Let PN := RP ++ [np].
Let B0 := (np + 1) :: RS0.

Lemma f_small x : x <= np -> f x = x.
Proof. apply fo_le. Qed.
Lemma f_big x : np < x -> f x = x + m.
Proof. apply fo_gt. Qed.

Lemma PN_le x : In x PN -> x <= np.
Proof.
  intros H. apply in_app_or in H. destruct H as [H|[<-|[]]]; [|lia].
  apply remaining_lt in H. fold np in H. lia.
Qed.
Lemma RC_range x : In x RC -> np < x < q.
Proof.
  intros H. unfold RC in H. apply in_map_iff in H. destruct H as (k & <- & Hk).
  apply remaining_lt in Hk. fold m in Hk. unfold q. lia.
Qed.

(* the remaining positions: those of the text with empty content renamed, with those of the content in the
   gap that the renaming leaves between np and q *)
Lemma idx0_split : idx0 = PN ++ B0.
Proof. apply (idx0_eq prefix suffix ini Hini). Qed.
Lemma idx1_split : idx1 = map f PN ++ RC ++ map f B0.
Proof.
  unfold idx1, T. rewrite (idx1_eq prefix suffix c ini Hini). fold np m q f RP RC RS0 PN.
  cbn [B0 map]. rewrite (fo_succ np m : f (np + 1) = q). f_equal.
  rewrite <- (map_id PN) at 1. apply map_ext_in. intros x Hx. symmetry. apply f_small, PN_le, Hx.
Qed.

Lemma filter_lt_f x L : filter (fun i => i <? f x) (map f L) = map f (filter (fun i => i <? x) L).
Proof. rewrite filter_map_comm. f_equal. apply filter_ext. intros a. apply fo_ltb. Qed.
Lemma filter_gt_f x L : filter (fun i => f x <? i) (map f L) = map f (filter (fun i => x <? i) L).
Proof. rewrite filter_map_comm. f_equal. apply filter_ext. intros a. apply fo_ltb. Qed.

Lemma lev_at_f i : lev_at XL pl (f i) = lev_at XL0 pl i.
Proof. unfold lev_at. unfold XL, XL0, f, np, m. rewrite (XL_f prefix c LP LS LC tl HLP HLC i). reflexivity. Qed.

Lemma K_f i : snth K (f i) None = snth K0 i None.
Proof. unfold snth, K, K0, f, np, m. apply T_nth; assumption. Qed.

Lemma T_f d i : snth T (f i) d = snth T0 i d.
Proof. apply T_snth. Qed.

(* X10: the remaining position before the first (after the last) position of a sequence is the renamed one *)
Lemma sos_corr s : first_of s <> np + 1 -> seq_sos XL pl idx1 (map f s) = seq_sos XL0 pl idx0 s.
Proof.
  intros Hf. unfold seq_sos. rewrite (first_of_map f s (fo_0 np m)), lev_at_f. f_equal. f_equal.
  rewrite !match_rev_lastopt.
  assert (HL : lastopt (filter (fun i => i <? f (first_of s)) idx1)
               = option_map f (lastopt (filter (fun i => i <? first_of s) idx0))).
  { rewrite idx1_split, idx0_split, !filter_app, !filter_lt_f.
    destruct (filter (fun i => i <? first_of s) B0) as [|y FB] eqn:EB.
    - (* nothing after the pair lies before the sequence: it begins at or before the initiator *)
      cbn [B0 filter] in EB. destruct (Nat.ltb_spec (np + 1) (first_of s)) as [H|H]; [discriminate EB|].
      rewrite (filter_none _ RC) by (intros x Hx; apply RC_range in Hx; apply Nat.ltb_ge; rewrite f_small; lia).
      cbn [map]. rewrite !app_nil_r. apply lastopt_map.
    - rewrite !app_assoc. cbn [map]. rewrite !lastopt_app_cons, lastopt_map. destruct (lastopt FB); reflexivity. }
  rewrite HL. destruct (lastopt (filter (fun i => i <? first_of s) idx0)); cbn [option_map]; [apply lev_at_f|reflexivity].
Qed.

Lemma eos_corr s : last_of s <> np -> seq_eos T XL pl idx1 (map f s) = seq_eos T0 XL0 pl idx0 s.
Proof.
  intros Hl. unfold seq_eos. rewrite (last_of_map f s (fo_0 np m)), lev_at_f, T_f. f_equal. f_equal.
  destruct (matching_outside prefix suffix c ini Hini Hbal (last_of s) Hl) as [Hm _].
  fold np m f T T0 in Hm. rewrite Hm.
  assert (Hnone : match option_map f (matching_pdi T0 (last_of s)) with None => true | Some _ => false end
                  = match matching_pdi T0 (last_of s) with None => true | Some _ => false end).
  { destruct (matching_pdi T0 (last_of s)); reflexivity. }
  rewrite Hnone. destruct (_ && _); [reflexivity|].
  rewrite !match_hd_error.
  assert (HL : hd_error (filter (fun i => f (last_of s) <? i) idx1)
               = option_map f (hd_error (filter (fun i => last_of s <? i) idx0))).
  { rewrite idx1_split, idx0_split, !filter_app, !filter_gt_f.
    destruct (filter (fun i => last_of s <? i) PN) as [|y FP] eqn:EP; [|reflexivity].
    (* nothing up to the initiator lies after the sequence: it ends at or after the PDI *)
    unfold PN in EP. rewrite filter_app in EP. apply app_eq_nil in EP as [_ EP]. cbn [filter] in EP.
    destruct (Nat.ltb_spec (last_of s) np) as [H|H]; [discriminate EP|].
    rewrite (filter_none _ RC)
      by (intros x Hx; apply RC_range in Hx; apply Nat.ltb_ge; rewrite f_big by lia; unfold q in Hx; lia).
    cbn [map app]. apply hd_error_map. }
  rewrite HL. destruct (hd_error (filter (fun i => last_of s <? i) idx0)); cbn [option_map]; [apply lev_at_f|reflexivity].
Qed.

Lemma XC_f i : nth (f i) XC ON = nth i XC0 ON.
Proof. unfold XC, XC0, f, np, m. apply T_nth; assumption. Qed.

Lemma XC_length : length XC = length T.
Proof.
  unfold XC, T. rewrite txt_length, !app_length. cbn [length]. rewrite HCP, HCC, HCS. fold np m. lia.
Qed.
Lemma XC0_length : length XC0 = length T0.
Proof.
  unfold XC0, T0. rewrite txt_length, !app_length. cbn [length]. rewrite HCP, HCS. fold np. lia.
Qed.

Lemma reported_f i : nth (f i) (reported_classes T) BN = nth i (reported_classes T0) BN.
Proof.
  rewrite !nth_reported by reflexivity. change (nth (f i) T BN) with (snth T (f i) BN). rewrite T_f.
  change (snth T0 i BN) with (nth i T0 BN). unfold rep.
  destruct (nth i T0 BN =c FSI) eqn:E; [|reflexivity]. apply ceq_eq in E.
  assert (Hfs : fsi_strong T (f i) = fsi_strong T0 i); [|rewrite Hfs; reflexivity].
  destruct (Nat.lt_trichotomy i np) as [Hlt|[->|Hgt]].
  - rewrite f_small by lia. apply fsi_prefix; [exact (lri_rli_init ini Hini)|exact Hbal|reflexivity|exact Hlt].
  - exfalso. unfold T0, txt in E. rewrite app_nth2 in E by (fold np; lia). fold np in E.
    rewrite Nat.sub_diag in E. cbn [app nth] in E. destruct Hini as [-> | ->]; discriminate.
  - destruct (Nat.eq_dec i (np + 1)) as [->|Hne].
    + exfalso. unfold T0, txt in E. rewrite app_nth2 in E by (fold np; lia). fold np in E.
      replace (np + 1 - np) with 1 in E by lia. cbn [app nth] in E. discriminate.
    + assert (Hk : i = np + 2 + (i - np - 2)) by lia. generalize dependent (i - np - 2). intros k Hk. subst i.
      rewrite f_big by lia. unfold T, T0.
      replace (np + 2 + k + m) with (length prefix + 2 + length c + k) by (fold np m; lia).
      rewrite fsi_suffix.
      replace (np + 2 + k) with (length prefix + 2 + length (@nil bclass) + k) by (cbn [length]; fold np; lia).
      rewrite fsi_suffix. reflexivity.
Qed.

Lemma cls_f i : snth (x_classes T XC) (f i) ON = snth (x_classes T0 XC0) i ON.
Proof.
  unfold snth. rewrite (x_classes_nth T XC (f i) XC_length), (x_classes_nth T0 XC0 i XC0_length).
  rewrite XC_f, reported_f. reflexivity.
Qed.

Lemma resolve_sequence_corr s : first_of s <> np + 1 -> last_of s <> np ->
  resolve_sequence T (x_classes T XC) K XL pl idx1 (map f s) =
  map (fun p => (f (fst p), snd p)) (resolve_sequence T0 (x_classes T0 XC0) K0 XL0 pl idx0 s).
Proof.
  intros Hf Hl. unfold resolve_sequence.
  rewrite (sos_corr s Hf), (eos_corr s Hl), (first_of_map f s (fo_0 np m)), lev_at_f, !map_map.
  rewrite (map_ext (fun x => snth K (f x) None) (fun i => snth K0 i None) K_f).
  rewrite (map_ext (fun x => snth T (f x) ON =c NSM) (fun i => snth T0 i ON =c NSM))
    by (intros a; rewrite T_f; reflexivity).
  rewrite (map_ext (fun x => snth (x_classes T XC) (f x) ON) (fun i => snth (x_classes T0 XC0) i ON) cls_f).
  rewrite combine_map_l, map_map. apply map_ext. intros [x y]. cbn [fst snd]. rewrite lev_at_f. reflexivity.
Qed.

Lemma resolve_sequence_keys cls0 cls brk xlev idx s p :
  In p (resolve_sequence cls0 cls brk xlev pl idx s) -> In (fst p) s.
Proof.
  unfold resolve_sequence. intros H. apply in_map_iff in H. destruct H as ([x y] & <- & H).
  cbn [fst]. apply in_combine_l in H. exact H.
Qed.

Lemma flat_map_corr SA :
  (forall s, In s SA -> first_of s <> np + 1 /\ last_of s <> np /\ s <> []) ->
  flat_map (resolve_sequence T (x_classes T XC) K XL pl idx1) (map (map f) SA) =
  map (fun p => (f (fst p), snd p)) (flat_map (resolve_sequence T0 (x_classes T0 XC0) K0 XL0 pl idx0) SA).
Proof.
  induction SA as [|s SA IH]; intros H; [reflexivity|].
  cbn [map flat_map]. rewrite map_app.
  destruct (H s (or_introl eq_refl)) as (H1 & H2 & _).
  rewrite (resolve_sequence_corr s H1 H2), IH; [reflexivity|]. intros s' Hs'. apply H. right. exact Hs'.
Qed.

(* the sequences inside the content assign nothing at a renamed position [f j] *)
Lemma assigned_corr SA SB SC j :
  (forall s x, In s SC -> In x s -> np < x < q) ->
  (forall s, In s (SA ++ SB) -> first_of s <> np + 1 /\ last_of s <> np /\ s <> []) ->
  assoc_nat (f j) (flat_map (resolve_sequence T (x_classes T XC) K XL pl idx1)
                            (map (map f) SA ++ SC ++ map (map f) SB)) =
  assoc_nat j (flat_map (resolve_sequence T0 (x_classes T0 XC0) K0 XL0 pl idx0) (SA ++ SB)).
Proof.
  intros HSC Hends. rewrite !flat_map_app, !assoc_nat_app.
  rewrite (flat_map_corr SA) by (intros s Hs; apply Hends, in_or_app; left; exact Hs).
  rewrite (flat_map_corr SB) by (intros s Hs; apply Hends, in_or_app; right; exact Hs).
  rewrite !(assoc_nat_map f) by apply fo_inj.
  rewrite (assoc_nat_notin (f j) (flat_map _ SC)); [reflexivity|].
  intros p Hp. apply in_flat_map in Hp. destruct Hp as (s & Hs & Hp).
  apply resolve_sequence_keys in Hp. specialize (HSC s _ Hs Hp).
  pose proof (fo_range np m j) as Hr. fold f in Hr. intros E. unfold q in HSC. lia.
Qed.
End Outside.

(* resolved levels: text with content c against the text with empty content *)
Lemma full_vs_empty prefix suffix c ini LP LS LC CP CS CC tl to pl bp bs b bi bq dir :
  ini = LRI \/ ini = RLI -> iso_bal 0 c = true ->
  length LP = length prefix -> length LC = length c ->
  length CP = length prefix -> length CC = length c -> length CS = length suffix ->
  length bp = length prefix -> length b = length c ->
  Forall (above tl) LC ->
  para_level (txt prefix ini c suffix) dir = pl -> para_level (txt prefix ini [] suffix) dir = pl ->
  explicit_levels (txt prefix ini c suffix) pl =
    (LP ++ [Some tl] ++ LC ++ [Some tl] ++ LS, CP ++ [ovr_class to ini] ++ CC ++ [ovr_class to PDI] ++ CS) ->
  explicit_levels (txt prefix ini [] suffix) pl =
    (LP ++ [Some tl] ++ [] ++ [Some tl] ++ LS, CP ++ [ovr_class to ini] ++ [] ++ [ovr_class to PDI] ++ CS) ->
  forall j, j <= length prefix + 1 + length suffix ->
    nth (fo (length prefix) (length c) j)
        (snd (resolve_paragraph (txt prefix ini c suffix) (bp ++ [bi] ++ b ++ [bq] ++ bs) dir)) None
    = nth j (snd (resolve_paragraph (txt prefix ini [] suffix) (bp ++ [bi] ++ [] ++ [bq] ++ bs) dir)) None.
Proof.
  intros Hini Hbal HLP HLC HCP HCC HCS Hbp Hb Habove Hpl Hpl0 Hexp Hexp0 j Hj.
  set (np := length prefix) in *. set (m := length c) in *.
  assert (Hkept : forall k, k < m -> is_removed (nth k c BN) = false -> nth k LC None <> None).
  { intros k Hk Hr.
    pose proof (x_run_level_some (txt prefix ini c suffix) pl (txt prefix ini c suffix) (x_init pl) 0 (np + 1 + k)) as Hs.
    change (x_run (txt prefix ini c suffix) pl (x_init pl) 0 (txt prefix ini c suffix))
      with (explicit_levels (txt prefix ini c suffix) pl) in Hs.
    rewrite Hexp in Hs. cbn [fst] in Hs.
    assert (E1 : nth (np + 1 + k) (txt prefix ini c suffix) BN = nth k c BN).
    { unfold txt. rewrite app_nth2 by (fold np; lia). fold np. replace (np + 1 + k - np) with (S k) by lia.
      cbn [app nth]. apply app_nth1. fold m. lia. }
    assert (E2 : nth (np + 1 + k) (LP ++ [Some tl] ++ LC ++ [Some tl] ++ LS) None = nth k LC None).
    { rewrite app_nth2 by lia. rewrite HLP. replace (np + 1 + k - np) with (S k) by lia.
      cbn [app nth]. apply app_nth1. lia. }
    rewrite E1, E2 in Hs. apply Hs; [|exact Hr]. rewrite txt_length. fold np m. lia. }
  destruct (seqs_decomp prefix suffix c ini LP LS LC tl Hini Hbal HLP HLC Habove Hkept)
    as (SA & SB & SC & HS0 & HS1 & HSC & Hends).
  fold np m in HS1, HSC, Hends.
  unfold resolve_paragraph. rewrite Hpl, Hpl0, Hexp, Hexp0. cbn [snd].
  assert (Hfj : fo np m j < length (txt prefix ini c suffix)).
  { rewrite txt_length. fold np m. unfold fo. destruct (j <=? np); lia. }
  assert (Hj0 : j < length (txt prefix ini [] suffix)).
  { rewrite txt_length. fold np. cbn [length]. lia. }
  rewrite (nth_map_seq _ _ _ None Hfj), (nth_map_seq _ _ _ None Hj0).
  unfold np, m. rewrite (T_snth prefix suffix c ini BN j). fold np m.
  destruct (is_removed (snth (txt prefix ini [] suffix) j BN)); [reflexivity|].
  rewrite HS0, HS1. subst np m.
  rewrite (assigned_corr prefix suffix c ini Hini Hbal LP LS LC CP CS CC tl to pl bp bs b bi bq
             HLP HLC HCP HCC HCS Hbp Hb SA SB SC j HSC Hends).
  rewrite (XL_f prefix c LP LS LC tl HLP HLC j). reflexivity.
Qed.

Lemma c13_full_proof : C13_full.
Proof.
  intros prefix suffix c1 c2 ini bp bs b1 b2 bi bq dir. unfold C13_spec_full, c13_hyps.
  intros (Hini & Hb1 & Hb2 & HB1 & HB2 & _ & _ & Hbp & Hbs & Hbb1 & Hbb2 & _ & Hvalid).
  change (prefix ++ [ini] ++ c1 ++ [PDI] ++ suffix) with (txt prefix ini c1 suffix) in *.
  change (prefix ++ [ini] ++ c2 ++ [PDI] ++ suffix) with (txt prefix ini c2 suffix) in *.
  pose proof (lri_rli_init ini Hini) as Hi.
  set (pl := para_level (txt prefix ini c1 suffix) dir) in *.
  assert (Hpl2 : para_level (txt prefix ini c2 suffix) dir = pl) by (symmetry; apply para_level_pair; assumption).
  assert (Hpl0 : para_level (txt prefix ini [] suffix) dir = pl)
    by (symmetry; apply para_level_pair; [assumption|assumption|reflexivity]).
  split; [rewrite !resolve_paragraph_fst; symmetry; exact Hpl2|].
  destruct (pair_shape prefix suffix c1 ini pl Hini (conj Hb1 HB1) Hvalid)
    as (LP & CP & tl & to & LS & CS & L1 & L2 & L3 & L4 & Hall).
  destruct (Hall c1 (conj Hb1 HB1)) as (LC1 & CC1 & E1 & M1 & M1' & A1).
  destruct (Hall c2 (conj Hb2 HB2)) as (LC2 & CC2 & E2 & M2 & M2' & A2).
  destruct (Hall [] (conj eq_refl (Forall_nil _))) as (LC0 & CC0 & E0 & M0 & M0' & _).
  cbn [length] in M0, M0'. apply length_zero_iff_nil in M0. apply length_zero_iff_nil in M0'. subst LC0 CC0.
  intros j Hj. unfold outside1, outside2.
  change (if j <=? length prefix then j else j + length c1) with (fo (length prefix) (length c1) j).
  change (if j <=? length prefix then j else j + length c2) with (fo (length prefix) (length c2) j).
  rewrite (full_vs_empty prefix suffix c1 ini LP LS LC1 CP CS CC1 tl to pl bp bs b1 bi bq dir
             Hini Hb1 L1 M1 L2 M1' L4 Hbp Hbb1 A1 eq_refl Hpl0 E1 E0 j Hj).
  rewrite (full_vs_empty prefix suffix c2 ini LP LS LC2 CP CS CC2 tl to pl bp bs b2 bi bq dir
             Hini Hb2 L1 M2 L2 M2' L4 Hbp Hbb2 A2 Hpl2 Hpl0 E2 E0 j Hj).
  reflexivity.
Qed.
