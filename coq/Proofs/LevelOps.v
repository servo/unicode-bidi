(* Proofs/LevelOps.v — the operations on levels of the model (level.rs; [level_*] in ModelText.v), each
   characterised for every natural argument by case analysis and linear arithmetic (C19). *)
From BidiVerif Require Import Base ConstsGen ModelText Spec.

Lemma max_depth_is_125 : max_depth = 125.
Proof. reflexivity. Qed.   (* re-checked against the regenerated ConstsGen.v on every run *)

Ltac unfold_levels :=
  unfold level_next_ltr, level_next_rtl, level_lowest_ge_rtl in *;
  unfold level_new, level_new_explicit, level_raise, level_raise_explicit, level_lower in *;
  unfold max_implicit_depth, max_explicit_depth, clear_bit0, set_bit0, is_ltr, is_rtl in *;
  rewrite ?max_depth_is_125 in *; change (125 + 1) with 126 in *.

Lemma some_inj {A} (a b : A) : Some a = Some b -> a = b.
Proof. congruence. Qed.

(* With these two facts about [n] in the context, [n / 2] and [n mod 2] are two unknowns of a linear problem:
   the parity arguments below are then linear arithmetic. *)
Lemma mod2_spec n : n = 2 * (n / 2) + n mod 2 /\ n mod 2 < 2.
Proof. split; [apply Nat.div_mod|apply Nat.mod_upper_bound]; discriminate. Qed.

Lemma even_mod2 n : Nat.even n = (n mod 2 =? 0).
Proof.
  destruct (mod2_spec n) as [Hq Hr]. destruct (Nat.eqb_spec (n mod 2) 0) as [E|E].
  - apply Nat.even_spec. exists (n / 2). lia.
  - rewrite <- Nat.negb_odd. apply Bool.negb_false_iff, Nat.odd_spec. exists (n / 2). lia.
Qed.
Lemma odd_mod2 n : Nat.odd n = (n mod 2 =? 1).
Proof.
  rewrite <- Nat.negb_even, even_mod2. destruct (mod2_spec n) as [_ Hr].
  destruct (Nat.eqb_spec (n mod 2) 0), (Nat.eqb_spec (n mod 2) 1); try reflexivity; lia.
Qed.

Lemma is_ltr_even l : is_ltr l = Nat.even l.
Proof. rewrite even_mod2. reflexivity. Qed.
Lemma is_rtl_odd l : is_rtl l = Nat.odd l.
Proof. rewrite odd_mod2. reflexivity. Qed.
Lemma ltr_rtl_exclusive l : is_ltr l = negb (is_rtl l).
Proof. rewrite is_ltr_even, is_rtl_odd. symmetry. apply Nat.negb_odd. Qed.

Lemma bounded_ok_iff n b : (exists l, (if n <=? b then Some n else None) = Some l) <-> n <= b.
Proof.
  destruct (Nat.leb_spec n b) as [H|H].
  - split; [intros _; exact H|intros _; exists n; reflexivity].
  - split; [intros [l E]; discriminate E|lia].
Qed.

Lemma new_spec n : level_new n = if n <=? 126 then Some n else None.
Proof. unfold_levels. reflexivity. Qed.
Lemma new_ok_iff n : (exists l, level_new n = Some l) <-> n <= 126.
Proof. rewrite new_spec. apply bounded_ok_iff. Qed.
Lemma new_explicit_spec n : level_new_explicit n = if n <=? 125 then Some n else None.
Proof. unfold_levels. reflexivity. Qed.
Lemma new_explicit_ok_iff n : (exists l, level_new_explicit n = Some l) <-> n <= 125.
Proof. rewrite new_explicit_spec. apply bounded_ok_iff. Qed.

(* nothing wraps: the u8 overflow (l + a > 255) fails like any other out-of-range result; [None] stands for
   the Err that leaves self untouched *)
Lemma raise_spec l a : level_raise l a = if l + a <=? 126 then Some (l + a) else None.
Proof. unfold_levels. destruct (Nat.leb_spec (l + a) 255), (Nat.leb_spec (l + a) 126); try reflexivity; lia. Qed.
Lemma raise_explicit_spec l a : level_raise_explicit l a = if l + a <=? 125 then Some (l + a) else None.
Proof. unfold_levels. destruct (Nat.leb_spec (l + a) 255), (Nat.leb_spec (l + a) 125); try reflexivity; lia. Qed.
Lemma lower_spec l a : level_lower l a = if a <=? l then Some (l - a) else None.
Proof. reflexivity. Qed.

(* [c] is the least number above [l] (at or above it, for [strict = false]) with remainder [p] modulo 2 *)
Definition least_from (strict : bool) (l p c : nat) : Prop :=
  (if strict then l < c else l <= c) /\ c mod 2 = p /\
  forall m, (if strict then l < m else l <= m) -> m mod 2 = p -> c <= m.

Lemma least_from_unique strict l p c c' : least_from strict l p c -> least_from strict l p c' -> c = c'.
Proof. intros (A1 & A2 & A3) (B1 & B2 & B3). pose proof (A3 c' B1 B2). pose proof (B3 c A1 A2). lia. Qed.

Lemma clear_bit0_least l : least_from true l 0 (clear_bit0 (l + 2)).
Proof.
  unfold clear_bit0, least_from. destruct (mod2_spec (l + 2)) as [Hq Hr].
  destruct (mod2_spec (l + 2 - (l + 2) mod 2)) as [Hq' Hr'].
  split; [lia|]. split; [lia|]. intros m Hm Em. destruct (mod2_spec m) as [Hm2 _]. lia.
Qed.

Lemma set_bit0_least l : least_from false l 1 (set_bit0 l).
Proof.
  unfold set_bit0, least_from. destruct (mod2_spec l) as [Hq Hr]. destruct (Nat.eqb_spec (l mod 2) 0) as [E|E].
  - destruct (mod2_spec (l + 1)) as [Hq' Hr'].
    split; [lia|]. split; [lia|]. intros m Hm Em. destruct (mod2_spec m) as [Hm2 _]. lia.
  - split; [apply le_n|]. split; [lia|]. intros m Hm _. exact Hm.
Qed.

Lemma bounded_least strict l p c b r : least_from strict l p c ->
  (if c <=? b then Some c else None) = Some r <-> least_from strict l p r /\ r <= b.
Proof.
  intros Hc. destruct (Nat.leb_spec c b) as [H|H]; split.
  - intros E. apply some_inj in E. subst r. split; assumption.
  - intros [Hr _]. f_equal. exact (least_from_unique _ _ _ _ _ Hc Hr).
  - discriminate.
  - intros [Hr Hb]. rewrite (least_from_unique _ _ _ _ _ Hc Hr) in H. lia.
Qed.

Lemma next_ltr_spec l r :
  level_next_ltr l = Some r <->
  (l < r /\ r mod 2 = 0 /\ r <= 125 /\ forall m, l < m -> m mod 2 = 0 -> r <= m).
Proof.
  unfold level_next_ltr. rewrite new_explicit_spec, (bounded_least true l 0 _ 125 r (clear_bit0_least l)).
  unfold least_from. tauto.
Qed.
Lemma next_ltr_fails_iff l : level_next_ltr l = None <-> 125 < l + 2 - (l + 2) mod 2.
Proof.
  unfold level_next_ltr. rewrite new_explicit_spec. unfold clear_bit0.
  destruct (Nat.leb_spec (l + 2 - (l + 2) mod 2) 125); split; intros; try discriminate; try reflexivity; lia.
Qed.

Lemma next_rtl_spec l r :
  level_next_rtl l = Some r <->
  (l < r /\ r mod 2 = 1 /\ r <= 125 /\ forall m, l < m -> m mod 2 = 1 -> r <= m).
Proof.
  unfold level_next_rtl. rewrite new_explicit_spec, (bounded_least false (l + 1) 1 _ 125 r (set_bit0_least (l + 1))).
  unfold least_from. rewrite !Nat.add_1_r. change (S l <= r) with (l < r). tauto.
Qed.

Lemma lowest_ge_rtl_spec l r :
  l <= 126 ->
  (level_lowest_ge_rtl l = Some r <-> (l <= r /\ r mod 2 = 1 /\ r <= 126 /\ forall m, l <= m -> m mod 2 = 1 -> r <= m)).
Proof.
  intros _. unfold level_lowest_ge_rtl. rewrite new_spec, (bounded_least false l 1 _ 126 r (set_bit0_least l)).
  unfold least_from. tauto.
Qed.
Lemma lowest_ge_rtl_fails_iff l : l <= 126 -> (level_lowest_ge_rtl l = None <-> l = 126).
Proof.
  intros Hl. unfold level_lowest_ge_rtl. rewrite new_spec. unfold set_bit0.
  destruct (mod2_spec l) as [Hq Hr]. destruct (Nat.eqb_spec (l mod 2) 0) as [E|E].
  - destruct (Nat.leb_spec (l + 1) 126); split; intros; try discriminate; try reflexivity; lia.
  - destruct (Nat.leb_spec l 126); split; intros; try discriminate; try reflexivity; lia.
Qed.

(* what a caller gets from a success, in the parity vocabulary of Spec.v *)
Lemma lowest_ge_rtl_odd l r : level_lowest_ge_rtl l = Some r ->
  l <= r <= l + 1 /\ r <= 126 /\ Nat.odd r = true /\ forall m, l <= m -> Nat.odd m = true -> r <= m.
Proof.
  unfold level_lowest_ge_rtl. rewrite new_spec. intros H.
  assert (Hr : l <= r <= l + 1).
  { destruct (set_bit0 l <=? 126); [|discriminate]. apply some_inj in H. subst r.
    unfold set_bit0. destruct (l mod 2 =? 0); lia. }
  apply (bounded_least false l 1 _ 126 r (set_bit0_least l)) in H. destruct H as [(_ & H2 & H3) Hb].
  split; [exact Hr|]. split; [exact Hb|]. split; [rewrite odd_mod2, H2; reflexivity|].
  intros m Hm Om. rewrite odd_mod2 in Om. apply Nat.eqb_eq in Om. exact (H3 m Hm Om).
Qed.

Lemma level_class_spec l : level_class l = if Nat.odd l then R else L.
Proof. unfold level_class. rewrite is_rtl_odd. reflexivity. Qed.

Lemma level_class_LR l : level_class l = L \/ level_class l = R.
Proof. unfold level_class. destruct (is_rtl l); auto. Qed.

Lemma level_class_dir l : level_class l = dir_of_level l.
Proof. rewrite level_class_spec. unfold dir_of_level. rewrite <- Nat.negb_even. destruct (Nat.even l); reflexivity. Qed.

Lemma has_rtl_spec ls : levels_has_rtl ls = true <-> exists l, In l ls /\ Nat.odd l = true.
Proof.
  unfold levels_has_rtl. rewrite existsb_exists. split; intros (l & Hin & H); exists l; split; auto;
    [rewrite <- is_rtl_odd | rewrite is_rtl_odd]; exact H.
Qed.
