(* Proofs/DataSource.v — two data sources that answer alike on every scalar value ([ds_ext]) give the same
   result in every model function that takes one (C12_statement, Stmts2.v): the model consults the data source
   only through its two answers ([ds_class], [ds_bracket]).  No functional extensionality is available, so the
   equality is proved function by function, in the order of the calls.  At the end, an instance: two data sources
   written differently, and a text on which to run them. *)
From Coq Require Import List.
Import ListNotations.
From BidiVerif Require Import Base ConstsGen ModelText ModelResolve ModelLine Stmts2.

Lemma bind_congr : forall (A B : Type) (e1 e2 : res A) (f1 f2 : A -> res B),
  e1 = e2 -> (forall x, f1 x = f2 x) -> bind e1 f1 = bind e2 f2.
Proof.
  intros A B e1 e2 f1 f2 He Hf. subst e2. destruct e1 as [a|s]; cbn [bind]; [apply Hf | reflexivity].
Qed.

Section Ext.
Variables d1 d2 : datasource.
Hypothesis Hext : ds_ext d1 d2.

Lemma ext_class : forall c, ds_class d1 c = ds_class d2 c.
Proof. intro c. exact (proj1 (Hext c)). Qed.
Lemma ext_bracket : forall c, ds_bracket d1 c = ds_bracket d2 c.
Proof. intro c. exact (proj2 (Hext c)). Qed.

Lemma ii_step_ext : forall e split dl st ic,
  ii_step e d1 split dl st ic = ii_step e d2 split dl st ic.
Proof.
  intros e split dl st [i c]. unfold ii_step. rewrite (ext_class c). reflexivity.
Qed.

Lemma ii_fold_ext : forall e split dl l st,
  ii_fold e d1 split dl st l = ii_fold e d2 split dl st l.
Proof.
  intros e split dl l. induction l as [|ic rest IH]; intro st; cbn [ii_fold].
  - reflexivity.
  - apply bind_congr; [apply ii_step_ext | intro st'; apply IH].
Qed.

Lemma compute_initial_info_ext : forall e text dl split,
  compute_initial_info e d1 text dl split = compute_initial_info e d2 text dl split.
Proof.
  intros e text dl split. unfold compute_initial_info.
  apply bind_congr; [apply ii_fold_ext | intro st; reflexivity].
Qed.

Lemma bd16_run_ext : forall legacy oc pc run_index start cis stack pairs,
  bd16_run d1 legacy oc pc run_index start cis stack pairs =
  bd16_run d2 legacy oc pc run_index start cis stack pairs.
Proof.
  intros legacy oc pc run_index start cis.
  induction cis as [|[i ch] rest IH]; intros stack pairs; cbn [bd16_run].
  - reflexivity.
  - apply bind_congr; [reflexivity | intro c].
    rewrite (ext_bracket ch).
    destruct (negb (c =c ON)); [apply IH |].
    apply bind_congr; [reflexivity | intro o].
    destruct (removed_by_x9 o && negb legacy); [apply IH |].
    destruct (ds_bracket d2 ch) as [[opening is_open]|]; [| apply IH].
    destruct is_open.
    + destruct (bracket_limit <=? length stack); [reflexivity | apply IH].
    + destruct (bracket_match opening stack) as [[[pos ri] below]|]; apply IH.
Qed.

Lemma bd16_runs_ext : forall e legacy text oc pc runs run_index stack pairs,
  bd16_runs e d1 legacy text oc pc run_index runs stack pairs =
  bd16_runs e d2 legacy text oc pc run_index runs stack pairs.
Proof.
  intros e legacy text oc pc runs.
  induction runs as [|[s en] rest IH]; intros run_index stack pairs; cbn [bd16_runs].
  - reflexivity.
  - apply bind_congr; [reflexivity | intro sub].
    apply bind_congr; [apply bd16_run_ext | intros [[stack' pairs'] stopped]].
    destruct (stopped && negb legacy); [reflexivity | apply IH].
Qed.

Lemma identify_bracket_pairs_gen_ext : forall e legacy text sq oc pc,
  identify_bracket_pairs_gen e d1 legacy text sq oc pc = identify_bracket_pairs_gen e d2 legacy text sq oc pc.
Proof.
  intros. unfold identify_bracket_pairs_gen.
  apply bind_congr; [apply bd16_runs_ext | intro; reflexivity].
Qed.

(* n0_pair / n0_pairs / n12_loop / resolve_weak / explicit_compute / isolating_run_sequences /
   resolve_levels / assign_levels_to_removed_chars do not take the data source at all. *)

Lemma resolve_neutral_gen_ext : forall e legacy text sq levels oc pc,
  resolve_neutral_gen e d1 legacy text sq levels oc pc = resolve_neutral_gen e d2 legacy text sq levels oc pc.
Proof.
  intros. unfold resolve_neutral_gen.
  destruct (irs_runs sq) as [|r0 rs]; [reflexivity |].
  apply bind_congr; [reflexivity | intro l0].
  apply bind_congr; [apply identify_bracket_pairs_gen_ext | intro prs; reflexivity].
Qed.

Lemma resolve_sequences_ext : forall e legacy text levels oc seqs pc,
  resolve_sequences e d1 legacy text levels oc pc seqs = resolve_sequences e d2 legacy text levels oc pc seqs.
Proof.
  intros e legacy text levels oc seqs.
  induction seqs as [|sq rest IH]; intro pc; cbn [resolve_sequences].
  - reflexivity.
  - apply bind_congr; [reflexivity | intro pc1].
    apply bind_congr; [apply resolve_neutral_gen_ext | intro pc2; apply IH].
Qed.

Lemma compute_bidi_info_for_para_gen_ext : forall e legacy pl pure iso text oc,
  compute_bidi_info_for_para_gen e d1 legacy pl pure iso text oc =
  compute_bidi_info_for_para_gen e d2 legacy pl pure iso text oc.
Proof.
  intros. unfold compute_bidi_info_for_para_gen.
  destruct ((pl =? 0) && pure); [reflexivity |].
  apply bind_congr; [reflexivity | intros [[levels pc] runs]].
  apply bind_congr; [reflexivity | intro seqs].
  apply bind_congr; [apply resolve_sequences_ext | intro pc'; reflexivity].
Qed.

Lemma bidi_paras_ext : forall e legacy text classes paras flags levels,
  bidi_paras e d1 legacy text classes paras flags levels =
  bidi_paras e d2 legacy text classes paras flags levels.
Proof.
  intros e legacy text classes paras.
  induction paras as [|p ps IH]; intros flags levels; cbn [bidi_paras].
  - reflexivity.
  - destruct flags as [|f fs]; [reflexivity |].
    apply bind_congr; [reflexivity | intro u].
    apply bind_congr; [reflexivity | intro ptext].
    apply bind_congr; [reflexivity | intro poc].
    apply bind_congr; [apply compute_bidi_info_for_para_gen_ext | intro plv; apply IH].
Qed.

Lemma bidi_info_new_gen_ext : forall e legacy text dl,
  bidi_info_new_gen e d1 legacy text dl = bidi_info_new_gen e d2 legacy text dl.
Proof.
  intros. unfold bidi_info_new_gen.
  apply bind_congr; [apply compute_initial_info_ext | intro ii].
  apply bind_congr; [apply bidi_paras_ext | intro; reflexivity].
Qed.

Lemma para_bidi_info_new_gen_ext : forall e legacy text dl,
  para_bidi_info_new_gen e d1 legacy text dl = para_bidi_info_new_gen e d2 legacy text dl.
Proof.
  intros. unfold para_bidi_info_new_gen.
  apply bind_congr; [apply compute_initial_info_ext | intro ii].
  apply bind_congr; [apply compute_bidi_info_for_para_gen_ext | intro; reflexivity].
Qed.

Lemma base_direction_from_ext : forall full cs lvl,
  base_direction_from d1 full lvl cs = base_direction_from d2 full lvl cs.
Proof.
  intros full cs. induction cs as [|c rest IH]; intro lvl; cbn [base_direction_from].
  - reflexivity.
  - rewrite (ext_class c).
    destruct (ds_class d2 c); try apply IH;
      try (destruct (lvl =? 0); [reflexivity | apply IH]);
      (destruct full; [apply IH | reflexivity]).
Qed.

Lemma get_base_direction_ext : forall e full text,
  get_base_direction e d1 full text = get_base_direction e d2 full text.
Proof. intros. unfold get_base_direction. apply base_direction_from_ext. Qed.

End Ext.

Lemma C12_main : C12_statement.
Proof.
  split.
  - intros e d1 d2 text d Hext. split; [|split; [|split]].
    + apply compute_initial_info_ext; exact Hext.
    + unfold bidi_info_new. apply bidi_info_new_gen_ext; exact Hext.
    + unfold para_bidi_info_new. apply para_bidi_info_new_gen_ext; exact Hext.
    + intro full. apply get_base_direction_ext; exact Hext.
  - intro c. split; reflexivity.
Qed.

(* the same answers written in two ways: an if-chain on N.eqb, a pattern match on the binary numeral *)
Definition ex_d1 : datasource :=
  {| ds_class := fun c => if (c =? 97)%N then R else if (c =? 10)%N then B
                          else if (c =? 40)%N || (c =? 41)%N then ON
                          else if (c =? 49)%N then EN
                          else if (c =? 60)%N then RLI else if (c =? 62)%N then PDI else L;
     ds_bracket := fun c => if (c =? 40)%N then Some (40%N, true)
                            else if (c =? 41)%N then Some (40%N, false) else None |}.
Definition ex_d2 : datasource :=
  {| ds_class := fun c => match c with
                          | 10%N => B | 40%N | 41%N => ON | 49%N => EN | 60%N => RLI | 62%N => PDI
                          | 97%N => R | _ => L end;
     ds_bracket := fun c => match c with
                            | 40%N => Some (40%N, true) | 41%N => Some (40%N, false) | _ => None end |}.
(* "b a(b)1\nb<a (1)>b" with a = R, b = L, 1 = EN, ( ) = bracket pair, < = RLI, > = PDI, \n = B *)
Definition ex_text : list N := [98; 32; 97; 40; 98; 41; 49; 10; 98; 60; 97; 32; 40; 49; 41; 62; 98]%N.

Lemma ex_ds_ext : ds_ext ex_d1 ex_d2.
Proof.
  intro c. unfold ex_d1, ex_d2; cbn [ds_class ds_bracket].
  destruct c as [|p]; [split; reflexivity|].
  repeat (destruct p as [p|p|]; try (split; reflexivity)).
Qed.
