(* Proofs/Units.v — characters and code units.  A text of [length lens] characters, character j being
   [nth j lens 0] code units long, has [total lens] units; character j starts at unit [ustart lens j] and occupies
   [units lens j]; [expand lens v] repeats v's j-th entry on the units of character j.  A unit index is written
   uniquely as [ustart lens j + t] with [t < nth j lens 0] (its coordinates), and two unit vectors are equal when
   they agree at all coordinates ([list_ext_coord]).  Index lists (ranges, runs, the iterators of an isolating run
   sequence) map to unit level by [flat_map (units lens)]. *)
From BidiVerif Require Import Base ModelText ModelResolve Judge Stmts3 Stmts5.
From BidiVerif.Proofs Require Import ListLib.

Lemma total_nil : total [] = 0.
Proof. reflexivity. Qed.
Lemma total_cons a l : total (a :: l) = a + total l.
Proof. unfold total. cbn [fold_left]. rewrite fold_add_acc. lia. Qed.
Lemma total_app a b : total (a ++ b) = total a + total b.
Proof.
  induction a as [|x a IH]; [reflexivity|].
  rewrite <- app_comm_cons, !total_cons, IH. lia.
Qed.

Lemma total_pos lens : Forall (fun n => 0 < n) lens -> lens <> [] -> 0 < total lens.
Proof.
  intros H Hne. destruct lens as [|x t]; [contradiction|].
  inversion H; subst. rewrite total_cons. lia.
Qed.

Lemma ustart_0 lens : ustart lens 0 = 0.
Proof. reflexivity. Qed.
Lemma ustart_nil j : ustart [] j = 0.
Proof. unfold ustart. rewrite firstn_nil. reflexivity. Qed.
Lemma ustart_cons a l j : ustart (a :: l) (S j) = a + ustart l j.
Proof. unfold ustart. cbn [firstn]. apply total_cons. Qed.
Lemma ustart_S lens : forall j, ustart lens (S j) = ustart lens j + nth j lens 0.
Proof.
  induction lens as [|a l IH]; intros j.
  - rewrite !ustart_nil. destruct j; reflexivity.
  - destruct j as [|j].
    + rewrite ustart_cons, !ustart_0. cbn [nth]. lia.
    + rewrite !ustart_cons, IH. cbn [nth]. lia.
Qed.

Lemma ustart_mono lens i j : i <= j -> ustart lens i <= ustart lens j.
Proof.
  induction 1 as [|j H IH]; [lia|]. rewrite ustart_S. lia.
Qed.

Lemma ustart_all lens j : length lens <= j -> ustart lens j = total lens.
Proof. intros H. unfold ustart. rewrite firstn_all2 by exact H. reflexivity. Qed.
Lemma ustart_le_total lens j : ustart lens j <= total lens.
Proof.
  destruct (Nat.le_ge_cases (length lens) j) as [H|H].
  - rewrite ustart_all by exact H. lia.
  - rewrite <- (ustart_all lens (length lens)) by lia. apply ustart_mono. exact H.
Qed.

Lemma ustart_lt lens : Forall (fun l => 0 < l) lens ->
  forall i j, i < j -> j <= length lens -> ustart lens i < ustart lens j.
Proof.
  induction 1 as [|l lens Hl Hf IH]; intros i j Hij Hj; [cbn in Hj; lia|].
  destruct j as [|j]; [lia|]. cbn [length] in Hj.
  destruct i as [|i]; rewrite ?ustart_0, !ustart_cons; [lia|].
  specialize (IH i j). lia.
Qed.

Lemma ustart_app_len LA LB : ustart (LA ++ LB) (length LA) = total LA.
Proof.
  unfold ustart. rewrite firstn_app, Nat.sub_diag, firstn_O, app_nil_r, firstn_all. reflexivity.
Qed.

Lemma ustart_firstn lens s j : j <= s -> ustart (firstn s lens) j = ustart lens j.
Proof. intros H. unfold ustart. rewrite firstn_firstn. f_equal. f_equal. lia. Qed.
Lemma ustart_add lens : forall i j, ustart lens (i + j) = ustart lens i + ustart (skipn i lens) j.
Proof.
  induction lens as [|a l IH]; intros i j.
  - rewrite skipn_nil, !ustart_nil. reflexivity.
  - destruct i as [|i]; [reflexivity|]. cbn [plus skipn]. rewrite !ustart_cons, IH. lia.
Qed.

Lemma ustart_skipn lens i n : ustart (skipn i lens) n = ustart lens (i + n) - ustart lens i.
Proof. rewrite ustart_add. lia. Qed.
Lemma lens_pos_nth lens j : Forall (fun n => 0 < n) lens -> j < length lens -> 0 < nth j lens 0.
Proof. intros P H. rewrite Forall_forall in P. apply P, nth_In, H. Qed.
(* the last clause of [text_view] (Stmts2.v) *)
Lemma chars_lens_pos e (chars : list (N * nat)) :
  Forall (fun ch => snd ch = char_len e (fst ch) /\ 0 < snd ch) chars -> Forall (fun n => 0 < n) (map snd chars).
Proof. intros H. apply Forall_map. revert H. apply Forall_impl. intros ch [_ H]. exact H. Qed.

Lemma coord_lt lens j t : t < nth j lens 0 -> j < length lens.
Proof.
  intros H. destruct (Nat.lt_ge_cases j (length lens)) as [L|L]; [exact L|].
  rewrite nth_overflow in H by exact L. lia.
Qed.

Lemma coord_lt_total lens j t : t < nth j lens 0 -> ustart lens j + t < total lens.
Proof.
  intros H. pose proof (ustart_S lens j). pose proof (ustart_le_total lens (S j)). lia.
Qed.

Lemma coord_unique lens j t j' t' :
  t < nth j lens 0 -> t' < nth j' lens 0 -> ustart lens j + t = ustart lens j' + t' -> j = j' /\ t = t'.
Proof.
  intros H H' E.
  destruct (Nat.lt_trichotomy j j') as [L|[L|L]].
  - pose proof (ustart_mono lens (S j) j' L). pose proof (ustart_S lens j). lia.
  - subst j'. split; [reflexivity|lia].
  - pose proof (ustart_mono lens (S j') j L). pose proof (ustart_S lens j'). lia.
Qed.

Lemma coord_exists lens : forall u, u < total lens ->
  exists j t, t < nth j lens 0 /\ u = ustart lens j + t.
Proof.
  induction lens as [|a l IH]; intros u H.
  - rewrite total_nil in H. lia.
  - rewrite total_cons in H. destruct (Nat.lt_ge_cases u a) as [L|L].
    + exists 0, u. rewrite ustart_0. cbn [nth]. split; [exact L|lia].
    + destruct (IH (u - a)) as (j & t & Ht & E); [lia|].
      exists (S j), t. rewrite ustart_cons. cbn [nth]. split; [exact Ht|lia].
Qed.

Lemma list_ext_coord {A} lens (l1 l2 : list A) :
  length l1 = total lens -> length l2 = total lens ->
  (forall j t, t < nth j lens 0 ->
     nth_error l1 (ustart lens j + t) = nth_error l2 (ustart lens j + t)) ->
  l1 = l2.
Proof.
  intros H1 H2 H. apply nth_error_ext. intros u.
  destruct (Nat.lt_ge_cases u (total lens)) as [L|L].
  - destruct (coord_exists lens u L) as (j & t & Ht & ->). apply H. exact Ht.
  - assert (N1 : nth_error l1 u = None) by (apply nth_error_None; lia).
    assert (N2 : nth_error l2 u = None) by (apply nth_error_None; lia).
    congruence.
Qed.

(* of [expand lens v] only the common prefix of [lens] and [v] counts *)
Lemma expand_nil_l {A} (v : list A) : expand [] v = [].
Proof. reflexivity. Qed.
Lemma expand_nil_r {A} lens : expand lens (@nil A) = [].
Proof. unfold expand. destruct lens; reflexivity. Qed.
Lemma expand_cons {A} a l (x : A) v : expand (a :: l) (x :: v) = repeat x a ++ expand l v.
Proof. reflexivity. Qed.
Lemma expand_app {A} l1 l2 (v1 v2 : list A) :
  length l1 = length v1 -> expand (l1 ++ l2) (v1 ++ v2) = expand l1 v1 ++ expand l2 v2.
Proof.
  revert v1. induction l1 as [|l l1 IH]; intros [|x v1] H; cbn [length] in H; try discriminate.
  - reflexivity.
  - rewrite <- !app_comm_cons, !expand_cons, IH by lia. rewrite app_assoc. reflexivity.
Qed.

Lemma expand_snoc {A} l1 (v1 : list A) n x : length l1 = length v1 ->
  expand (l1 ++ [n]) (v1 ++ [x]) = expand l1 v1 ++ repeat x n.
Proof. intros H. rewrite expand_app by exact H. rewrite expand_cons. cbn. rewrite app_nil_r. reflexivity. Qed.
Lemma expand_length_gen {A} lens : forall (v : list A), length (expand lens v) = ustart lens (length v).
Proof.
  induction lens as [|l lens IH]; intros [|x v]; try reflexivity.
  cbn [length]. rewrite expand_cons, app_length, repeat_length, ustart_cons, IH. reflexivity.
Qed.

Lemma expand_repeat_gen {A} (x : A) lens : forall m, expand lens (repeat x m) = repeat x (ustart lens m).
Proof.
  induction lens as [|l lens IH]; intros [|m]; try reflexivity.
  cbn [repeat]. rewrite expand_cons, IH, ustart_cons, repeat_app. reflexivity.
Qed.

Lemma firstn_expand_gen {A} lens : forall (v : list A) i,
  firstn (ustart lens i) (expand lens v) = expand (firstn i lens) (firstn i v).
Proof.
  induction lens as [|l lens IH]; intros v i.
  - rewrite ustart_nil. destruct i; reflexivity.
  - destruct v as [|x v]; [rewrite expand_nil_r, !firstn_nil, expand_nil_r; reflexivity|].
    destruct i as [|i]; [reflexivity|].
    rewrite ustart_cons, expand_cons. cbn [firstn]. rewrite expand_cons.
    rewrite firstn_app, repeat_length, firstn_all2 by (rewrite repeat_length; lia).
    replace (l + ustart lens i - l) with (ustart lens i) by lia. rewrite IH. reflexivity.
Qed.

Lemma skipn_expand_gen {A} lens : forall (v : list A) i,
  skipn (ustart lens i) (expand lens v) = expand (skipn i lens) (skipn i v).
Proof.
  induction lens as [|l lens IH]; intros v i.
  - rewrite ustart_nil. destruct i; reflexivity.
  - destruct v as [|x v]; [rewrite expand_nil_r, !skipn_nil, expand_nil_r; reflexivity|].
    destruct i as [|i]; [reflexivity|].
    rewrite ustart_cons, expand_cons. cbn [skipn].
    rewrite skipn_app, repeat_length, skipn_all2 by (rewrite repeat_length; lia).
    replace (l + ustart lens i - l) with (ustart lens i) by lia. rewrite IH. reflexivity.
Qed.

Lemma expand_nth_gen {A} lens : forall (v : list A) j t, t < nth j lens 0 ->
  nth_error (expand lens v) (ustart lens j + t) = nth_error v j.
Proof.
  induction lens as [|a l IH]; intros v j t Ht.
  - destruct j; cbn [nth] in Ht; lia.
  - destruct v as [|x v]; [rewrite expand_nil_r; destruct j; destruct (ustart (a :: l) _ + t); reflexivity|].
    rewrite expand_cons. destruct j as [|j].
    + rewrite ustart_0. cbn [nth] in Ht. cbn [Nat.add nth_error].
      rewrite nth_error_app1 by (rewrite repeat_length; exact Ht).
      apply nth_error_repeat. exact Ht.
    + rewrite ustart_cons. cbn [nth] in Ht. cbn [nth_error].
      rewrite nth_error_app2 by (rewrite repeat_length; lia).
      rewrite repeat_length. replace (a + ustart l j + t - a) with (ustart l j + t) by lia.
      apply IH; exact Ht.
Qed.

Lemma expand_nth {A} lens : forall (v : list A) j t,
  length v = length lens -> t < nth j lens 0 ->
  nth_error (expand lens v) (ustart lens j + t) = nth_error v j.
Proof. intros v j t _. apply expand_nth_gen. Qed.

Lemma expand_nth_first {A} lens (v : list A) j : length v = length lens -> 0 < nth j lens 0 ->
  nth_error (expand lens v) (ustart lens j) = nth_error v j.
Proof. intros Hl Hp. rewrite <- (Nat.add_0_r (ustart lens j)). apply expand_nth; assumption. Qed.
Lemma expand_nth_last {A} lens (v : list A) j : length v = length lens -> 0 < nth j lens 0 ->
  nth_error (expand lens v) (ustart lens (S j) - 1) = nth_error v j.
Proof.
  intros Hl Hp. rewrite ustart_S. replace (ustart lens j + nth j lens 0 - 1) with (ustart lens j + (nth j lens 0 - 1)) by lia.
  apply expand_nth; [exact Hl|lia].
Qed.

Lemma get_expand_start {A} site lens (v : list A) i x :
  Forall (fun n => 0 < n) lens -> length v = length lens ->
  get site v i = Ok x -> get site (expand lens v) (ustart lens i) = Ok x.
Proof.
  intros P E H. pose proof (get_lt _ _ _ _ H) as L. apply get_ok in H. apply get_ok.
  rewrite expand_nth_first; [exact H | exact E | apply lens_pos_nth; [exact P | lia]].
Qed.

Lemma expand_length {A} lens : forall (v : list A), length v = length lens -> length (expand lens v) = total lens.
Proof. intros v H. rewrite expand_length_gen, H. apply ustart_all. lia. Qed.

Lemma expand_repeat {A} (x : A) lens : expand lens (repeat x (length lens)) = repeat x (total lens).
Proof. rewrite expand_repeat_gen, ustart_all by lia. reflexivity. Qed.

Lemma firstn_expand {A} lens : forall (v : list A) i, length v = length lens ->
  firstn (ustart lens i) (expand lens v) = expand (firstn i lens) (firstn i v).
Proof. intros v i _. apply firstn_expand_gen. Qed.

Lemma skipn_expand {A} lens : forall (v : list A) i, length v = length lens ->
  skipn (ustart lens i) (expand lens v) = expand (skipn i lens) (skipn i v).
Proof. intros v i _. apply skipn_expand_gen. Qed.

Lemma In_expand {A} lens : forall (v : list A) x, In x (expand lens v) -> In x v.
Proof.
  induction lens as [|l lens IH]; intros [|y v] x H; try (cbn in H; contradiction).
  rewrite expand_cons in H. apply in_app_or in H as [H|H].
  - apply repeat_spec in H. subst. left; reflexivity.
  - right. apply IH. exact H.
Qed.

Lemma Forall_expand {A} (P : A -> Prop) lens v : Forall P v -> Forall P (expand lens v).
Proof. rewrite !Forall_forall. intros H x Hx. apply H. exact (In_expand lens v x Hx). Qed.
Lemma existsb_expand {A} (f : A -> bool) lens : Forall (fun n => 0 < n) lens ->
  forall v, length v = length lens -> existsb f (expand lens v) = existsb f v.
Proof.
  induction 1 as [|l lens Hl Hp IH]; intros [|x v] E; cbn [length] in E; try discriminate; [reflexivity|].
  rewrite expand_cons, existsb_app, existsb_repeat by exact Hl. cbn [existsb].
  rewrite IH by lia. reflexivity.
Qed.

Lemma uniform_expanded {A} (eqb : A -> A -> bool) (Hrefl : forall x, eqb x x = true) lens :
  forall v, length v = length lens -> uniform eqb lens (expand lens v) = true.
Proof.
  induction lens as [|l lens IH]; intros [|x v] H; cbn [length] in H; try discriminate; [reflexivity|].
  rewrite expand_cons. cbn [uniform].
  replace (firstn l (repeat x l ++ expand lens v)) with (repeat x l)
    by (rewrite <- (repeat_length x l) at 2; symmetry; apply firstn_length_app).
  replace (skipn l (repeat x l ++ expand lens v)) with (expand lens v)
    by (rewrite <- (repeat_length x l) at 1; symmetry; apply skipn_length_app).
  rewrite IH by lia.
  destruct l as [|m]; [reflexivity|]. cbn [repeat length forallb]. rewrite repeat_length, Nat.eqb_refl, Hrefl.
  cbn [andb]. rewrite Bool.andb_true_r. apply forallb_forall. intros y Hy. apply repeat_spec in Hy. subst. apply Hrefl.
Qed.

Definition units (lens : list nat) (j : nat) : list nat := seq (ustart lens j) (nth j lens 0).
Lemma in_units lens j u : In u (units lens j) <-> exists t, t < nth j lens 0 /\ u = ustart lens j + t.
Proof.
  unfold units. rewrite in_seq. split.
  - intros [H1 H2]. exists (u - ustart lens j). lia.
  - intros (t & Ht & ->). lia.
Qed.

Lemma in_units_coord lens j t j' :
  t < nth j lens 0 -> (In (ustart lens j + t) (units lens j') <-> j = j').
Proof.
  intros Ht. rewrite in_units. split.
  - intros (t' & Ht' & E). apply (coord_unique lens j t j' t' Ht Ht') in E. tauto.
  - intros <-. exists t. split; [exact Ht|reflexivity].
Qed.

Lemma in_flat_units lens idxs j t :
  t < nth j lens 0 -> (In (ustart lens j + t) (flat_map (units lens) idxs) <-> In j idxs).
Proof.
  intros Ht. rewrite in_flat_map. split.
  - intros (j' & Hj' & Hin). apply (in_units_coord lens j t j' Ht) in Hin. subst. exact Hj'.
  - intros Hin. exists j. split; [exact Hin|]. apply (in_units_coord lens j t j Ht). reflexivity.
Qed.

Lemma units_lt lens j u : In u (units lens j) -> u < total lens.
Proof. rewrite in_units. intros (t & Ht & ->). apply coord_lt_total. exact Ht. Qed.
Lemma units_cons lens j : 0 < nth j lens 0 ->
  units lens j = ustart lens j :: seq (S (ustart lens j)) (nth j lens 0 - 1).
Proof. intros H. unfold units. destruct (nth j lens 0) as [|m]; [lia|]. rewrite Nat.sub_succ, Nat.sub_0_r. reflexivity. Qed.
Lemma units_snoc lens j : 0 < nth j lens 0 ->
  units lens j = seq (ustart lens j) (nth j lens 0 - 1) ++ [ustart lens (S j) - 1].
Proof.
  intros H. unfold units. rewrite ustart_S. destruct (nth j lens 0) as [|m]; [lia|].
  rewrite Nat.sub_succ, Nat.sub_0_r, seq_S. f_equal. f_equal. lia.
Qed.

Lemma seq_units lens : forall d a,
  seq (ustart lens a) (ustart lens (a + d) - ustart lens a) = flat_map (units lens) (seq a d).
Proof.
  induction d as [|d IH]; intros a.
  - rewrite Nat.add_0_r, Nat.sub_diag. reflexivity.
  - cbn [seq flat_map]. rewrite <- IH. unfold units.
    replace (a + S d) with (S a + d) by lia.
    pose proof (ustart_S lens a) as HS. pose proof (ustart_mono lens (S a) (S a + d)) as HM.
    replace (ustart lens (S a + d) - ustart lens a)
      with (nth a lens 0 + (ustart lens (S a + d) - ustart lens (S a))) by lia.
    rewrite seq_app. rewrite <- HS. reflexivity.
Qed.

Lemma range_units lens a b : range (ustart lens a) (ustart lens b) = flat_map (units lens) (range a b).
Proof.
  unfold range. destruct (Nat.le_gt_cases a b) as [H|H].
  - rewrite <- seq_units. replace (a + (b - a)) with b by lia. reflexivity.
  - pose proof (ustart_mono lens b a). replace (b - a) with 0 by lia.
    replace (ustart lens b - ustart lens a) with 0 by lia. reflexivity.
Qed.

Lemma run_range_urun lens r : run_range (urun lens r) = flat_map (units lens) (run_range r).
Proof. unfold run_range, urun. cbn [fst snd]. apply range_units. Qed.
Lemma runs_units lens runs :
  flat_map run_range (map (urun lens) runs) = flat_map (units lens) (flat_map run_range runs).
Proof.
  rewrite flat_map_map, flat_map_flat_map. apply flat_map_ext. intros r. apply run_range_urun.
Qed.

Lemma run_in_bound k (runs : list run) j : Forall (run_in k) runs -> In j (flat_map run_range runs) -> j < k.
Proof.
  intros Hf Hj. apply in_flat_map in Hj as (r & Hr & Hj).
  rewrite Forall_forall in Hf. destruct (Hf r Hr) as [_ H]. apply in_range in Hj. lia.
Qed.

(* a backward iterator visits the units of a character from last to first *)
Definition runits (lens : list nat) (j : nat) : list nat := rev (units lens j).
Lemma iter_forwards_units lens runs p idx fw :
  iter_forwards_from runs p idx = Ok fw ->
  iter_forwards_from (map (urun lens) runs) (ustart lens p) idx = Ok (flat_map (units lens) fw).
Proof.
  unfold iter_forwards_from. rewrite map_length.
  destruct (length runs <? idx); [discriminate|].
  rewrite skipn_map. destruct (skipn idx runs) as [|r0 rest]; [discriminate|].
  intros H. inversion H. cbn [map]. f_equal.
  rewrite flat_map_app. f_equal.
  - unfold urun. cbn [snd]. apply range_units.
  - apply runs_units.
Qed.

Lemma iter_backwards_units lens runs p idx bw :
  iter_backwards_from runs p idx = Ok bw ->
  iter_backwards_from (map (urun lens) runs) (ustart lens p) idx = Ok (flat_map (runits lens) bw).
Proof.
  unfold iter_backwards_from. rewrite map_length.
  destruct (length runs <? idx); [discriminate|].
  rewrite nth_error_map. destruct (nth_error runs idx) as [cur|]; [|discriminate].
  intros H. inversion H. cbn [option_map]. f_equal.
  rewrite flat_map_app. f_equal.
  - unfold urun at 1. cbn [fst]. rewrite range_units. apply rev_flat_map.
  - rewrite firstn_map, <- map_rev, flat_map_map, flat_map_flat_map.
    apply flat_map_ext. intros r. rewrite run_range_urun. apply rev_flat_map.
Qed.

Lemma expand_units {A} lens (v : list A) j c u :
  length v = length lens -> nth_error v j = Some c -> In u (units lens j) -> nth_error (expand lens v) u = Some c.
Proof. intros Hl Hc Hu. apply in_units in Hu as (t & Ht & ->). rewrite expand_nth by assumption. exact Hc. Qed.
(* [l] lists the units of character j in any order, e.g. [units lens j] or [runits lens j] *)
Lemma lset_all_units {A} lens (v : list A) l j x :
  length v = length lens -> (forall u, In u l <-> In u (units lens j)) ->
  lset_all (expand lens v) l x = expand lens (lset v j x).
Proof.
  intros Hl Hf. apply (list_ext_coord lens).
  - rewrite lset_all_length. apply expand_length, Hl.
  - apply expand_length. rewrite lset_length. exact Hl.
  - intros j' t Ht. rewrite (expand_nth lens (lset v j x)) by (rewrite ?lset_length; assumption).
    destruct (Nat.eq_dec j' j) as [->|Hne].
    + rewrite nth_error_lset_all_in.
      * symmetry. apply nth_error_lset_eq. rewrite Hl. eapply coord_lt, Ht.
      * apply Hf, in_units. eauto.
      * rewrite expand_length by exact Hl. apply coord_lt_total, Ht.
    + rewrite nth_error_lset_all_notin by (rewrite Hf, in_units_coord by exact Ht; exact Hne).
      rewrite nth_error_lset_neq by exact Hne. apply expand_nth; assumption.
Qed.

Lemma lset_units {A} lens (v : list A) j x : length v = length lens ->
  lset_all (expand lens v) (units lens j) x = expand lens (lset v j x).
Proof. intros Hv. apply lset_all_units; [exact Hv | reflexivity]. Qed.
Lemma lset_all_expand {A} lens (f : nat -> list nat) (x : A) :
  (forall j u, In u (f j) <-> In u (units lens j)) -> forall idxs v, length v = length lens ->
  lset_all (expand lens v) (flat_map f idxs) x = expand lens (lset_all v idxs x).
Proof.
  intros Hf. induction idxs as [|j rest IH]; intros v Hl; [reflexivity|].
  cbn [flat_map lset_all]. rewrite lset_all_app, (lset_all_units lens v (f j) j x Hl (Hf j)).
  apply IH. rewrite lset_length. exact Hl.
Qed.

Lemma setnth_lset {A} (l : list A) i x : Spec.setnth l i x = lset l i x.
Proof. reflexivity. Qed.

Lemma sub_length {A} (l : list A) i j : i <= j -> j <= length l -> length (sub l i j) = j - i.
Proof. intros H1 H2. unfold sub. rewrite firstn_length, skipn_length. lia. Qed.
Lemma slice_sub {A} site (l : list A) i j : i <= j -> j <= length l -> slice site l i j = Ok (sub l i j).
Proof.
  intros H1 H2. unfold slice, sub.
  destruct (Nat.leb_spec i j); [|lia]. destruct (Nat.leb_spec j (length l)); [|lia]. reflexivity.
Qed.

Lemma Forall_sub {A} (P : A -> Prop) (l : list A) i j : Forall P l -> Forall P (sub l i j).
Proof. intros H. apply Forall_firstn, Forall_skipn, H. Qed.
Lemma sub_map {A B} (f : A -> B) (l : list A) i j : sub (map f l) i j = map f (sub l i j).
Proof. unfold sub. rewrite skipn_map, firstn_map. reflexivity. Qed.
Lemma sub_expand {A} lens (v : list A) i j : i <= j -> length v = length lens ->
  sub (expand lens v) (ustart lens i) (ustart lens j) = expand (sub lens i j) (sub v i j).
Proof.
  intros Hij _. unfold sub. rewrite skipn_expand_gen.
  replace (ustart lens j - ustart lens i) with (ustart (skipn i lens) (j - i))
    by (rewrite ustart_skipn; do 2 f_equal; lia).
  apply firstn_expand_gen.
Qed.

Lemma slice_expand_gen {A} site lens (v : list A) a b : a <= b -> b <= length v ->
  slice site (expand lens v) (ustart lens a) (ustart lens b) =
    Ok (expand (firstn (b - a) (skipn a lens)) (firstn (b - a) (skipn a v))).
Proof.
  intros Hab Hbv.
  rewrite slice_ok; [|apply ustart_mono; exact Hab | rewrite expand_length_gen; apply ustart_mono; exact Hbv].
  rewrite skipn_expand_gen. replace b with (a + (b - a)) at 1 by lia.
  rewrite ustart_add, Nat.add_comm, Nat.add_sub, firstn_expand_gen. reflexivity.
Qed.

Lemma slice_expand {A} site lens (v : list A) i j : length v = length lens -> i <= j -> j <= length lens ->
  slice site (expand lens v) (ustart lens i) (ustart lens j) = Ok (expand (sub lens i j) (sub v i j)).
Proof. intros E Hij Hj. unfold sub. apply slice_expand_gen; [exact Hij | rewrite E; exact Hj]. Qed.

Lemma starts_from_ustart lens : forall pos,
  starts_from pos lens = map (fun i => pos + ustart lens i) (seq 0 (length lens)).
Proof.
  induction lens as [|l lens IH]; intros pos; [reflexivity|].
  cbn [starts_from length seq map]. rewrite ustart_0, Nat.add_0_r. f_equal.
  rewrite IH, <- seq_shift, map_map. apply map_ext. intros i. rewrite ustart_cons. lia.
Qed.

Lemma nth_starts_from lens i : i < length lens -> nth i (starts_from 0 lens) 0 = ustart lens i.
Proof.
  intros H. rewrite starts_from_ustart. rewrite (nth_indep _ 0 (0 + ustart lens 0)) by (rewrite map_length, seq_length; exact H).
  rewrite (map_nth (fun i => 0 + ustart lens i)), seq_nth by exact H. reflexivity.
Qed.

Lemma at_starts_expand_from {A} lens : Forall (fun n => 0 < n) lens -> forall (v pre : list A),
  length v = length lens ->
  map (nth_error (pre ++ expand lens v)) (starts_from (length pre) lens) = map Some v.
Proof.
  induction 1 as [|l lens Hl Hp IH]; intros [|x v] pre E; cbn [length] in E; try discriminate; [reflexivity|].
  rewrite expand_cons. cbn [starts_from map]. f_equal.
  - rewrite nth_error_app2, Nat.sub_diag by lia. destruct l; [lia|reflexivity].
  - specialize (IH v (pre ++ repeat x l) ltac:(lia)).
    rewrite app_length, repeat_length, <- app_assoc in IH. exact IH.
Qed.

Lemma at_starts_expand {A} lens (v : list A) : Forall (fun n => 0 < n) lens -> length v = length lens ->
  at_starts lens (expand lens v) = map Some v.
Proof. intros Hp E. exact (at_starts_expand_from lens Hp v [] E). Qed.
