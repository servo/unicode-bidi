(* Proofs/CSSeqOpen.v — BD9 as a stack discipline.  [opens cls i] is the list of isolate initiators still open
   (unmatched so far) after the prefix of length [i], most recent first; it is related to Spec.matching_pdi
   ([matching_open], [pop_matching], [open_end_unmatched]).  Then the X1-X8 levels (Spec.x_step): an invariant ties
   the X stack after each prefix to [opens], and gives the levels between an initiator and the PDI that closes it
   ([pdi_levels]). *)
From BidiVerif Require Import Base Spec.
From BidiVerif.Proofs Require Import ListLib ExplicitSteps.
From Coq Require Import Sorted.

Definition ostep (O : list nat) (i : nat) (c : bclass) : list nat :=
  if is_init c then i :: O else if c =c PDI then tl O else O.
Fixpoint oscan (O : list nat) (j : nat) (l : list bclass) : list nat :=
  match l with [] => O | c :: t => oscan (ostep O j c) (S j) t end.
Definition opens (cls : list bclass) (i : nat) : list nat := oscan [] 0 (firstn i cls).

Lemma oscan_app : forall l1 O j l2,
  oscan O j (l1 ++ l2) = oscan (oscan O j l1) (j + length l1) l2.
Proof.
  induction l1 as [|c t IH]; intros O j l2; cbn [app oscan length].
  - rewrite Nat.add_0_r. reflexivity.
  - rewrite IH. f_equal. lia.
Qed.

Lemma firstn_add_skipn {A} (l : list A) a m : firstn (a + m) l = firstn a l ++ firstn m (skipn a l).
Proof.
  rewrite <- (firstn_skipn a (firstn (a + m) l)).
  rewrite firstn_firstn, firstn_skipn_comm, Nat.min_l by lia. reflexivity.
Qed.

Lemma opens_add cls j m : j <= length cls ->
  opens cls (j + m) = oscan (opens cls j) j (firstn m (skipn j cls)).
Proof.
  intros H. unfold opens. rewrite firstn_add_skipn, oscan_app, firstn_length_le by exact H. reflexivity.
Qed.

Lemma opens_S cls i : i < length cls ->
  opens cls (S i) = ostep (opens cls i) i (nth i cls BN).
Proof.
  intros H. rewrite <- Nat.add_1_r, opens_add by lia.
  rewrite (skipn_nth_error cls i _ (nth_error_nth' cls BN H)). reflexivity.
Qed.

Lemma opens_0 cls : opens cls 0 = [].
Proof. reflexivity. Qed.

Lemma opens_over cls i : length cls <= i -> opens cls i = opens cls (length cls).
Proof. intros H. unfold opens. rewrite !firstn_all2 by lia. reflexivity. Qed.

Lemma opens_wf cls : forall i, i <= length cls ->
  NoDup (opens cls i) /\ forall x, In x (opens cls i) -> x < i /\ is_init (nth x cls BN) = true.
Proof.
  induction i as [|i IH]; intros Hi.
  - rewrite opens_0. split; [constructor|]. intros x [].
  - destruct (IH ltac:(lia)) as [ND HI]. rewrite opens_S by lia. unfold ostep.
    destruct (is_init (nth i cls BN)) eqn:Ei.
    + split.
      * constructor; [|exact ND]. intros Hin. apply HI in Hin. lia.
      * intros x [<-|Hx]; [split; [lia|exact Ei]|]. apply HI in Hx. split; [lia|apply Hx].
    + destruct (nth i cls BN =c PDI).
      * destruct (opens cls i) as [|a O]; cbn [tl].
        -- split; [constructor|]. intros x [].
        -- split; [inversion ND; assumption|]. intros x Hx.
           destruct (HI x (or_intror Hx)) as [H1 H2]. split; [lia|exact H2].
      * split; [exact ND|]. intros x Hx. apply HI in Hx. split; [lia|apply Hx].
Qed.

Lemma opens_hd cls i t X : i <= length cls -> opens cls i = t :: X ->
  t < i /\ is_init (nth t cls BN) = true.
Proof. intros Hi Ho. apply (opens_wf cls i Hi). rewrite Ho. left. reflexivity. Qed.

Lemma opens_after_pdi cls p t X : p < length cls -> nth p cls BN = PDI -> opens cls p = t :: X ->
  opens cls (S p) = X.
Proof. intros Hp Hc Ho. rewrite opens_S by exact Hp. unfold ostep. rewrite Hc, Ho. reflexivity. Qed.

Lemma opens_keep cls x i : forall i', i <= i' -> i' <= length cls ->
  In x (opens cls i') -> x < i -> In x (opens cls i).
Proof.
  induction i' as [|i' IH]; intros H1 H2 Hin Hx.
  - replace i with 0 by lia. exact Hin.
  - destruct (Nat.eq_dec i (S i')) as [->|N]; [exact Hin|].
    apply IH; try lia. rewrite opens_S in Hin by lia. unfold ostep in Hin.
    destruct (is_init (nth i' cls BN)).
    + destruct Hin as [E|Hin]; [lia|exact Hin].
    + destruct (nth i' cls BN =c PDI); [|exact Hin].
      destruct (opens cls i'); [exact Hin|right; exact Hin].
Qed.

Lemma opens_closed cls l p X j : p < length cls -> nth p cls BN = PDI -> opens cls p = l :: X ->
  p < j -> j <= length cls -> ~ In l (opens cls j).
Proof.
  intros Hp Hc Ho Hj Hjk Hin.
  destruct (opens_hd cls p l X ltac:(lia) Ho) as [Hlp _].
  destruct (opens_wf cls p ltac:(lia)) as [ND _]. rewrite Ho in ND. inversion ND as [|? ? HlX _]. apply HlX.
  rewrite <- (opens_after_pdi cls p l X Hp Hc Ho).
  apply (opens_keep cls l (S p) j); try lia. exact Hin.
Qed.

(* the search for the PDI that closes t, with the initiators A opened since t: the depth is 1 + |A| *)
Lemma mp_oscan : forall l j A t B,
  match match_pdi_from l (S (length A)) j with
  | Some p => exists m, p = j + m /\ nth_error l m = Some PDI /\ oscan (A ++ t :: B) j (firstn m l) = t :: B
  | None => exists A', oscan (A ++ t :: B) j l = A' ++ t :: B
  end.
Proof.
  induction l as [|c r IH]; intros j A t B; cbn [match_pdi_from].
  - exists A. reflexivity.
  - (* a character other than the PDI looked for turns A into some A', and the search goes on *)
    assert (Hgo : forall A', ostep (A ++ t :: B) j c = A' ++ t :: B ->
      match match_pdi_from r (S (length A')) (S j) with
      | Some p => exists m, p = j + m /\ nth_error (c :: r) m = Some PDI /\
                            oscan (A ++ t :: B) j (firstn m (c :: r)) = t :: B
      | None => exists A'', oscan (A ++ t :: B) j (c :: r) = A'' ++ t :: B
      end).
    { intros A' Hstep. specialize (IH (S j) A' t B).
      destruct (match_pdi_from r (S (length A')) (S j)) as [p|].
      - destruct IH as (m & E1 & E2 & E3). exists (S m). cbn [nth_error firstn oscan]. rewrite Hstep.
        split; [lia|]. split; assumption.
      - destruct IH as [A'' E]. exists A''. cbn [oscan]. rewrite Hstep. exact E. }
    unfold ostep in Hgo. destruct (is_init c) eqn:Ei; [exact (Hgo (j :: A) eq_refl)|].
    destruct (c =c PDI) eqn:Ep; [|exact (Hgo A eq_refl)].
    destruct A as [|a A]; [|exact (Hgo A eq_refl)].
    apply ceq_eq in Ep. subst c. exists 0. split; [lia|]. split; reflexivity.
Qed.

Lemma opens_from cls l m : l < length cls -> is_init (nth l cls BN) = true ->
  opens cls (S l + m) = oscan (l :: opens cls l) (S l) (firstn m (skipn (S l) cls)).
Proof. intros Hl Hi. rewrite opens_add, opens_S by lia. unfold ostep. rewrite Hi. reflexivity. Qed.

Lemma matching_open cls l : l < length cls -> is_init (nth l cls BN) = true ->
  match matching_pdi cls l with
  | Some p => l < p /\ p < length cls /\ nth p cls BN = PDI /\ opens cls p = l :: opens cls l
  | None => In l (opens cls (length cls))
  end.
Proof.
  intros Hl Hi. unfold matching_pdi.
  pose proof (mp_oscan (skipn (S l) cls) (S l) [] l (opens cls l)) as H. cbn [length app] in H.
  destruct (match_pdi_from (skipn (S l) cls) 1 (S l)) as [p|].
  - destruct H as (m & -> & E2 & E3). rewrite nth_error_skipn in E2.
    split; [lia|]. split; [exact (nth_error_lt _ _ _ E2)|]. split; [exact (nth_error_nth _ _ _ E2)|].
    rewrite opens_from by assumption. exact E3.
  - destruct H as [A' E].
    replace (length cls) with (S l + (length cls - S l)) by lia.
    rewrite opens_from by assumption. rewrite firstn_all2 by (rewrite skipn_length; lia).
    rewrite E. apply in_or_app. right. left. reflexivity.
Qed.

Lemma matching_pdi_gt cls i j : matching_pdi cls i = Some j -> i < j.
Proof.
  unfold matching_pdi. intros H. pose proof (mp_oscan (skipn (S i) cls) (S i) [] 0 []) as M.
  cbn [length] in M. rewrite H in M. destruct M as (m & -> & _). lia.
Qed.

Lemma pop_matching cls l p X : p < length cls -> nth p cls BN = PDI -> opens cls p = l :: X ->
  matching_pdi cls l = Some p.
Proof.
  intros Hp Hc Ho.
  destruct (opens_hd cls p l X ltac:(lia) Ho) as [Hlp Hli].
  pose proof (matching_open cls l ltac:(lia) Hli) as H.
  destruct (matching_pdi cls l) as [p'|].
  - destruct H as (H1 & H2 & H3 & H4). f_equal.
    destruct (Nat.lt_trichotomy p' p) as [Hlt|[Heq|Hgt]]; [|exact Heq|]; exfalso.
    + apply (opens_closed cls l p' (opens cls l) p); try assumption; try lia. rewrite Ho. left. reflexivity.
    + apply (opens_closed cls l p X p'); try assumption; try lia. rewrite H4. left. reflexivity.
  - exfalso. apply (opens_closed cls l p X (length cls)); try assumption; lia.
Qed.

Lemma open_end_unmatched cls l : In l (opens cls (length cls)) -> matching_pdi cls l = None.
Proof.
  intros Hin. destruct (opens_wf cls (length cls) (le_n _)) as [_ HI].
  destruct (HI l Hin) as [Hl Hi]. pose proof (matching_open cls l Hl Hi) as H.
  destruct (matching_pdi cls l) as [p|]; [|reflexivity]. exfalso.
  destruct H as (H1 & H2 & H3 & H4).
  apply (opens_closed cls l p (opens cls l) (length cls)); try assumption; lia.
Qed.

Section Levels.
Variable cls0 : list bclass.
Variable pl : nat.

Notation xs_of := (xs_of cls0 pl).
Notation xl_of := (xl_of cls0 pl).
Notation toplev := (ExplicitSteps.toplev pl).

Definition xs0 : xstate := {| x_stack := [(pl, ONone, false)]; x_oi := 0; x_oe := 0; x_vi := 0 |}.
Fixpoint xstate_at (i : nat) : xstate :=
  match i with 0 => xs0 | S j => xs_of (xstate_at j) j (nth j cls0 BN) end.
Definition xlev : list (option nat) := fst (explicit_levels cls0 pl).
Definition lev (i : nat) : option nat := nth i xlev None.

Lemma x_run_nth : forall m j, j + m < length cls0 ->
  nth m (fst (x_run cls0 pl (xstate_at j) j (skipn j cls0))) None =
  xl_of (xstate_at (j + m)) (j + m) (nth (j + m) cls0 BN).
Proof.
  induction m as [|m IH]; intros j H; assert (Hj : j < length cls0) by lia;
    rewrite (skipn_nth_error cls0 j _ (nth_error_nth' cls0 BN Hj)), x_run_cons; cbn [fst nth].
  - rewrite Nat.add_0_r. reflexivity.
  - rewrite <- Nat.add_succ_comm. apply (IH (S j)). lia.
Qed.

Lemma lev_step i : i < length cls0 -> lev i = xl_of (xstate_at i) i (nth i cls0 BN).
Proof. exact (x_run_nth i 0). Qed.

(* the part of the state the invariant below speaks of: the overflow embedding count x_oe plays no role in it *)
Definition core (s : xstate) : list sentry * nat * nat := (x_stack s, x_oi s, x_vi s).

Lemma step_pdi_core s i :
  xl_of s i PDI = Some (toplev (x_stack (xs_of s i PDI))) /\
  core (xs_of s i PDI) =
    if 0 <? x_oi s then (x_stack s, x_oi s - 1, x_vi s)
    else if x_vi s =? 0 then (x_stack s, x_oi s, x_vi s)
    else (pop_isolate (x_stack s), x_oi s, x_vi s - 1).
Proof.
  destruct (step_pdi cls0 pl s i) as [Es El]. cbv zeta in Es, El. rewrite El, Es. split; [reflexivity|].
  destruct (0 <? x_oi s); [|destruct (x_vi s =? 0)]; reflexivity.
Qed.

Definition sorted (st : list sentry) : Prop := StronglySorted (fun a b => slev b < slev a) st.

(* each open initiator that was pushed sits on an isolate entry of the stack, in the same order, and
   its level is that of the top of the stack below this entry *)
Inductive match_stack : list sentry -> list nat -> Prop :=
| ms_nil st : st <> [] -> count_iso st = 0 -> match_stack st []
| ms_cons Y e S t va : count_iso Y = 0 -> siso e = true ->
    lev t = Some (toplev S) -> match_stack S va -> match_stack (Y ++ e :: S) (t :: va).

Lemma ms_nonempty st va : match_stack st va -> st <> [].
Proof. intros H. inversion H; subst; [assumption|]. destruct Y; discriminate. Qed.

Lemma ms_push st va e : match_stack st va -> siso e = false -> match_stack (e :: st) va.
Proof.
  intros H He. inversion H; subst.
  - apply ms_nil; [discriminate|]. rewrite count_iso_emb; assumption.
  - change (e :: Y ++ e0 :: S) with ((e :: Y) ++ e0 :: S). apply ms_cons; try assumption.
    rewrite count_iso_emb; assumption.
Qed.

Lemma ms_pop e S va : match_stack (e :: S) va -> siso e = false -> S <> [] -> match_stack S va.
Proof.
  intros H He HS. inversion H as [st Hne Hall|Y e0 S0 t va0 HY He0 Hl Hm Heq]; subst.
  - apply ms_nil; [exact HS|]. rewrite count_iso_emb in Hall; assumption.
  - destruct Y as [|y Y]; cbn [app] in Heq; injection Heq as E1 E2; subst.
    + congruence.
    + apply ms_cons; try assumption. rewrite count_iso_emb in HY; assumption.
Qed.

Lemma sorted_suffix Y : forall S, sorted (Y ++ S) -> sorted S.
Proof.
  induction Y as [|y Y IH]; intros S H; [exact H|].
  apply IH. cbn [app] in H. inversion H; assumption.
Qed.

Lemma sorted_cons e st : sorted st -> st <> [] -> toplev st < slev e -> sorted (e :: st).
Proof.
  intros Hs Hne Hlt. destruct st as [|a st]; [congruence|]. unfold toplev in Hlt. cbn [top_of] in Hlt.
  constructor; [exact Hs|]. constructor; [exact Hlt|].
  inversion Hs as [|? ? _ HF]; subst. eapply Forall_impl; [|exact HF]. cbn beta. intros b Hb. lia.
Qed.

Lemma toplev_app_gt Y e S : sorted (Y ++ e :: S) -> S <> [] -> toplev S < toplev (Y ++ e :: S).
Proof.
  intros Hs Hne. destruct S as [|s0 S]; [congruence|]. unfold toplev. cbn [top_of].
  destruct Y as [|y Y]; cbn [app top_of] in *; inversion Hs as [|? ? _ HF]; subst.
  - inversion HF; assumption.
  - rewrite Forall_forall in HF. apply HF. apply in_or_app. right. right. left. reflexivity.
Qed.

Lemma ms_lt st va : match_stack st va -> sorted st ->
  forall t, In t va -> exists mu, lev t = Some mu /\ mu < toplev st.
Proof.
  induction 1 as [st Hne Hall|Y e S t va HY He Hl Hm IH]; intros Hs x Hx; [destruct Hx|].
  pose proof (toplev_app_gt Y e S Hs (ms_nonempty S va Hm)) as Hgt.
  destruct Hx as [<-|Hx].
  - exists (toplev S). split; [exact Hl|exact Hgt].
  - destruct (IH (sorted_suffix [e] S (sorted_suffix Y (e :: S) Hs)) x Hx) as [mu [H1 H2]].
    exists mu. split; [exact H1|lia].
Qed.

(* [XI i (st, oi, vi) O]: the state after the prefix i (stack st, oi isolate initiators that overflowed and vi that
   were pushed still open) against the open initiators O.  O is ov ++ va: first the oi that overflowed (from the
   oldest of them on, every level is that of the top of the stack), then the vi that were pushed, matched with the
   isolate entries of the stack (after each of them every level is above its own). *)
Definition XI (i : nat) '(st, oi, vi) (O : list nat) : Prop :=
  exists ov va, O = ov ++ va /\ length ov = oi /\ length va = vi /\
    sorted st /\ match_stack st va /\
    (forall t q la, In t ov -> t <= q -> q < i -> lev q = Some la -> la = toplev st) /\
    (forall t q la mu, In t va -> t < q -> q < i -> lev q = Some la -> lev t = Some mu -> mu < la).

Lemma XI_keep i st oi vi O : XI i (st, oi, vi) O -> (forall la, lev i = Some la -> la = toplev st) ->
  XI (S i) (st, oi, vi) O.
Proof.
  intros (ov & va & HO & Hov & Hva & Hs & Hm & Hc & Hd) Hi.
  exists ov, va. repeat split; try assumption.
  - intros t q la Ht H1 H2 Hq. destruct (Nat.eq_dec q i) as [->|N]; [exact (Hi la Hq)|].
    apply (Hc t q); try assumption; lia.
  - intros t q la mu Ht H1 H2 Hq Hmu. destruct (Nat.eq_dec q i) as [->|N]; [|apply (Hd t q); try assumption; lia].
    destruct (ms_lt st va Hm Hs t Ht) as (mu' & E1 & E2). rewrite (Hi la Hq).
    replace mu with mu' by congruence. exact E2.
Qed.

(* an embedding is pushed / popped: only when no isolate has overflowed *)
Lemma XI_push i st oi vi O e : XI i (st, oi, vi) O -> oi = 0 -> siso e = false -> toplev st < slev e ->
  XI i (e :: st, oi, vi) O.
Proof.
  intros (ov & va & HO & Hov & Hva & Hs & Hm & Hc & Hd) -> He Hlt.
  apply length_zero_iff_nil in Hov as ->.
  exists [], va. repeat split; try assumption.
  - exact (sorted_cons e st Hs (ms_nonempty st va Hm) Hlt).
  - exact (ms_push st va e Hm He).
  - intros t q la [].
Qed.

Lemma XI_pop i st oi vi O e : XI i (e :: st, oi, vi) O -> oi = 0 -> siso e = false -> st <> [] ->
  XI i (st, oi, vi) O.
Proof.
  intros (ov & va & HO & Hov & Hva & Hs & Hm & Hc & Hd) -> He Hne.
  apply length_zero_iff_nil in Hov as ->.
  exists [], va. repeat split; try assumption.
  - exact (sorted_suffix [e] st Hs).
  - exact (ms_pop e st va Hm He Hne).
  - intros t q la [].
Qed.

Lemma XI_open i st oi vi O e : XI (S i) (st, oi, vi) O -> oi = 0 -> lev i = Some (toplev st) ->
  siso e = true -> toplev st < slev e -> XI (S i) (e :: st, oi, S vi) (i :: O).
Proof.
  intros (ov & va & -> & Hov & <- & Hs & Hm & Hc & Hd) -> Hi He Hlt.
  apply length_zero_iff_nil in Hov as ->.
  exists [], (i :: va). repeat split.
  - exact (sorted_cons e st Hs (ms_nonempty st va Hm) Hlt).
  - apply (ms_cons [] e st i va); try assumption. reflexivity.
  - intros t q la [].
  - intros t q la mu [<-|Ht] H1 H2; [lia|exact (Hd t q la mu Ht H1 H2)].
Qed.

Lemma XI_open_over i st oi vi O : XI (S i) (st, oi, vi) O -> lev i = Some (toplev st) ->
  XI (S i) (st, S oi, vi) (i :: O).
Proof.
  intros (ov & va & -> & <- & Hva & Hs & Hm & Hc & Hd) Hi.
  exists (i :: ov), va. repeat split; try assumption.
  intros t q la [<-|Ht] H1 H2 Hq; [|exact (Hc t q la Ht H1 H2 Hq)].
  assert (q = i) by lia. congruence.
Qed.

(* a PDI closes the most recent open initiator, if any: the counts say which kind it is *)
Lemma XI_pdi i st oi vi O : XI i (st, oi, vi) O ->
  XI i (if 0 <? oi then (st, oi - 1, vi) else if vi =? 0 then (st, oi, vi) else (pop_isolate st, oi, vi - 1))
     (tl O).
Proof.
  intros (ov & va & -> & <- & <- & Hs & Hm & Hc & Hd).
  destruct ov as [|t ov]; [destruct va as [|t va]|]; cbn [length Nat.ltb Nat.leb Nat.eqb Nat.sub app tl].
  - exists [], []. repeat split; assumption.
  - inversion Hm as [|Y e S t0 va0 HY He Hl HmS Heq]; subst. rewrite (pop_isolate_noiso Y e S HY He).
    exists [], va. rewrite Nat.sub_0_r. repeat split; try assumption.
    + exact (sorted_suffix [e] S (sorted_suffix Y (e :: S) Hs)).
    + intros t' q la [].
    + intros t' q la mu Ht'. apply Hd. right. exact Ht'.
  - exists ov, va. rewrite Nat.sub_0_r. repeat split; try assumption.
    intros t' q la Ht'. apply Hc. right. exact Ht'.
Qed.

Lemma XI_step i s O c : XI i (core s) O -> c <> B -> lev i = xl_of s i c ->
  XI (S i) (core (xs_of s i c)) (ostep O i c).
Proof.
  intros H HB Hlev. unfold ostep.
  destruct (is_init c) eqn:Ein.
  { destruct (step_init cls0 pl s i c Ein) as (E & nl & Hlt & ->). rewrite E in Hlev.
    assert (H' : XI (S i) (core s) O) by (apply XI_keep; [exact H|congruence]).
    destruct (room nl s) eqn:Er; cbn [core x_stack x_oi x_vi].
    - apply XI_open; [exact H'|exact (room_oi nl s Er)|exact Hlev|reflexivity|exact Hlt].
    - apply XI_open_over; [exact H'|exact Hlev]. }
  destruct (c =c PDI) eqn:Epdi.
  { apply ceq_eq in Epdi. subst c. destruct (step_pdi_core s i) as [E Es]. rewrite E in Hlev.
    apply XI_keep; [|congruence]. unfold core in Es |- *. rewrite Es. apply XI_pdi. exact H. }
  destruct (is_plain c) eqn:Epl.
  { destruct (step_plain cls0 pl s i c Epl) as [-> E]. apply XI_keep; [exact H|congruence]. }
  destruct (c =c BN) eqn:Ebn.
  { apply ceq_eq in Ebn. subst c. destruct (step_bn cls0 pl s i) as [-> E]. apply XI_keep; [exact H|congruence]. }
  destruct (is_emb c) eqn:Eem.
  { destruct (step_emb cls0 pl s i c Eem) as [E [(Hoi & e & He & Hlt & Est & Eoi & Evi)|(Est & Eoi & Evi)]];
      unfold core; rewrite Est, Eoi, Evi.
    - rewrite <- Hoi. apply XI_push; [|exact Hoi|exact He|exact Hlt]. apply XI_keep; [exact H|congruence].
    - apply XI_keep; [exact H|congruence]. }
  destruct c; try discriminate; try contradiction. (* the tests above leave c = PDF *)
  destruct (step_pdf cls0 pl s i) as (E & Eoi & Evi & [Est|(Hoi & e & He & Est & Hne)]);
    (apply XI_keep; [|congruence]); unfold core; rewrite Eoi, Evi.
  - rewrite Est. exact H.
  - apply (XI_pop i _ _ _ O e); try assumption. rewrite <- Est. exact H.
Qed.

Lemma XI_0 : XI 0 (core xs0) [].
Proof.
  exists [], []. cbn. repeat split; try reflexivity.
  - constructor; [constructor|constructor].
  - apply ms_nil; [discriminate|reflexivity].
  - intros t q la [].
  - intros t q la mu [].
Qed.

Lemma XI_at : forall i, i <= length cls0 -> (forall q, q < i -> nth q cls0 BN <> B) ->
  XI i (core (xstate_at i)) (opens cls0 i).
Proof.
  induction i as [|i IH]; intros Hi HB.
  - exact XI_0.
  - rewrite opens_S by lia. apply XI_step.
    + apply IH; [lia|]. intros q Hq. apply HB. lia.
    + apply HB. lia.
    + apply lev_step. lia.
Qed.

(* the first case is that of an initiator t that was pushed, the second that of one that overflowed *)
Lemma pdi_levels p t X : p < length cls0 -> (forall q, q < p -> nth q cls0 BN <> B) ->
  nth p cls0 BN = PDI -> opens cls0 p = t :: X ->
  exists la, lev p = Some la /\
    ((lev t = Some la /\ forall q nu, t < q -> q < p -> lev q = Some nu -> la < nu) \/
     (forall q nu, t <= q -> q < p -> lev q = Some nu -> nu = la)).
Proof.
  intros Hp HB Hc Ho.
  destruct (XI_at p ltac:(lia) HB) as (ov & va & HO & Hov & Hva & Hs & Hm & Hcc & Hd).
  rewrite Ho in HO. rewrite (lev_step p Hp), Hc.
  destruct (step_pdi_core (xstate_at p) p) as [-> Es]. unfold core in Es. rewrite <- Hov, <- Hva in Es.
  destruct ov as [|t' ov]; cbn [app] in HO.
  - subst va. cbn [length Nat.ltb Nat.leb Nat.eqb] in Es. injection Es as -> _ _.
    inversion Hm as [|Y e S t0 va0 HY He Hl HmS Heq]. rewrite (pop_isolate_noiso Y e S HY He).
    exists (toplev S). split; [reflexivity|].
    left. split; [exact Hl|]. intros q nu H1 H2 Hq.
    apply (Hd t q nu (toplev S)); try assumption. left; reflexivity.
  - injection HO as <- _. cbn [length Nat.ltb Nat.leb] in Es. injection Es as -> _ _.
    exists (toplev (x_stack (xstate_at p))). split; [reflexivity|].
    right. intros q nu H1 H2 Hq. apply (Hcc t q); try assumption. left; reflexivity.
Qed.

End Levels.
