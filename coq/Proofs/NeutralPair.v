(* Proofs/NeutralPair.v — N0 for one bracket pair at character level, in closed form.  The positions of
   a sequence ascend, so a pair (a, b) cuts them into  pre ++ a :: mid ++ b :: post ; the iterators of
   n0_pair return mid ++ b :: post, rev pre and post, each of its loops writes one class on a prefix of
   what it walks, and the whole step is  lset_all pc (Mset pc) d  for the class d that [n0_decide]
   reads off mid and pre, or nothing. *)
From BidiVerif Require Import Base ModelText ModelResolve Spec StageRel.
From BidiVerif.Proofs Require Import ListLib SeqIter CSNeutralBase.

(* what the NSM fix-up walks over: original NSMs and X9-removed positions *)
Definition walkable (oc : list bclass) (y : nat) : bool :=
  (nth y oc BN =c NSM) || removed_by_x9 (nth y oc BN).

Lemma walkable_removed oc z : live oc z = false -> walkable oc z = true.
Proof.
  unfold live, not_removed_by_x9, walkable. intros H. destruct (removed_by_x9 (nth z oc BN)); [|discriminate].
  apply orb_true_r.
Qed.

Lemma walkable_live oc z : live oc z = true -> walkable oc z = (nth z oc BN =c NSM).
Proof.
  unfold live, not_removed_by_x9, walkable. intros H. destruct (removed_by_x9 (nth z oc BN)); [discriminate|].
  apply orb_false_r.
Qed.

Lemma n0_nsm_eq oc x : forall l pc, (forall j, In j l -> j < length oc /\ j < length pc) ->
  n0_nsm false oc pc l x = Ok (lset_all pc (takewhile (walkable oc) l) x).
Proof.
  induction l as [|i l IH]; intros pc H; [reflexivity|]. destruct (H i (or_introl eq_refl)) as [Ho Hp].
  cbn [n0_nsm takewhile]. rewrite (get_nthd _ _ _ BN Ho), (get_nthd _ _ _ BN Hp). cbn [bind].
  unfold walkable at 1. destruct ((nth i oc BN =c NSM) || removed_by_x9 (nth i oc BN)); [|reflexivity].
  rewrite upd_lset by exact Hp. cbn [bind lset_all]. apply IH.
  intros j Hj. rewrite lset_length. apply H. right. exact Hj.
Qed.

Lemma first_char_len_U32 site (sub : list N) : 0 < length sub -> first_char_len U32 site sub = Ok 1.
Proof. destruct sub; cbn [length]; [lia | reflexivity]. Qed.

Lemma bnpre_takewhile pc l : bnpre pc l = takewhile (fun j => nth j pc BN =c BN) l.
Proof. induction l as [|j l IH]; [reflexivity|]. cbn [bnpre takewhile]. rewrite IH. reflexivity. Qed.

(* N0 on an enclosed class c: strong in the embedding direction e / in the opposite direction / in either *)
Definition sfe (e c : bclass) : bool := opt_ceq (strong_dir c) e.
Definition sfo (e c : bclass) : bool := match strong_dir c with Some d => negb (d =c e) | None => false end.
Definition hasdir (c : bclass) : bool := match strong_dir c with Some _ => true | None => false end.

Lemma scan_step e c (fe0 fn0 : bool) : e = L \/ e = R ->
  (if c =c e then (true, fn0)
   else if c =c (if e =c L then R else L) then (fe0, true)
   else if (c =c EN) || (c =c AN) then (if e =c L then (fe0, true) else (true, fn0))
   else (fe0, fn0))
  = (fe0 || sfe e c, if sfe e c then fn0 else fn0 || sfo e c).
Proof. intros [-> | ->]; destruct c, fe0, fn0; reflexivity. Qed.

(* the scan of the enclosed positions l1, stopped by the closing bracket at the head of l2 *)
Lemma n0_scan_eq oc pc e pe l2 : e = L \/ e = R ->
  match l2 with [] => True | z :: _ => pe <= z end ->
  forall l1 fn0, (forall y, In y l1 -> y < pe /\ y < length oc /\ y < length pc) ->
  exists fe fn,
    n0_scan false oc pc e (if e =c L then R else L) pe (l1 ++ l2) false fn0 = Ok (fe, fn) /\
    fe = existsb (sfe e) (at_ BN pc (filter (live oc) l1)) /\
    (fe = false -> fn = fn0 || existsb (sfo e) (at_ BN pc (filter (live oc) l1))).
Proof.
  intros He Hl2. induction l1 as [|y l1 IH]; intros fn0 H.
  - exists false, fn0. cbn [app filter at_ map existsb]. rewrite orb_false_r. split; [|auto].
    destruct l2 as [|z l2]; [reflexivity|]. cbn [n0_scan].
    destruct (Nat.leb_spec pe z); [reflexivity | lia].
  - destruct (H y (or_introl eq_refl)) as (Hy & Ho & Hp).
    assert (H' : forall z, In z l1 -> z < pe /\ z < length oc /\ z < length pc) by (intros z Hz; apply H; right; exact Hz).
    cbn [app n0_scan filter]. destruct (Nat.leb_spec pe y); [lia|].
    rewrite (get_nthd _ _ _ BN Ho). cbn [bind andb negb]. rewrite andb_true_r.
    change (live oc y) with (negb (removed_by_x9 (nth y oc BN))).
    destruct (removed_by_x9 (nth y oc BN)); cbn [negb]; [apply IH, H'|].
    rewrite (get_nthd _ _ _ BN Hp). cbn [bind at_ map existsb]. fold (at_ BN pc (filter (live oc) l1)).
    rewrite (scan_step e _ false fn0 He). cbn [orb].
    destruct (sfe e (nth y pc BN)); [exists true, fn0; split; [reflexivity|]; split; [reflexivity | discriminate]|].
    destruct (IH (fn0 || sfo e (nth y pc BN)) H') as (fe & fn & E & Hfe & Hfn).
    exists fe, fn. split; [exact E|]. split; [exact Hfe|]. intros Hf. rewrite (Hfn Hf), orb_assoc. reflexivity.
Qed.

Lemma asc_in_after l1 a l2 y : asc (l1 ++ a :: l2) -> In y (l1 ++ a :: l2) -> a < y -> In y l2.
Proof.
  intros Ha Hy Hlt. apply asc_split in Ha as (_ & _ & H1 & _).
  apply in_app_or in Hy as [Hy|[<-|Hy]]; [apply H1 in Hy; lia | lia | exact Hy].
Qed.

Lemma asc_in_before l1 a l2 y : asc (l1 ++ a :: l2) -> In y (l1 ++ a :: l2) -> y < a -> In y l1.
Proof.
  intros Ha Hy Hlt. apply asc_split in Ha as (_ & _ & _ & H2 & _).
  apply in_app_or in Hy as [Hy|[<-|Hy]]; [exact Hy | lia | apply H2 in Hy; lia].
Qed.

Section Cut.
Variable oc : list bclass.
Variables (Sq l1 l2 : list nat) (c : nat).
Hypothesis Hasc : asc Sq.
Hypothesis HSq : Sq = l1 ++ c :: l2.

Lemma cut_in : In c Sq.
Proof. rewrite HSq. apply in_or_app. right. left. reflexivity. Qed.

Lemma in_after z : In z l2 <-> In z Sq /\ c < z.
Proof.
  rewrite HSq in *. split.
  - intros H. split; [apply in_or_app; right; right; exact H|].
    destruct (asc_split _ _ _ Hasc) as (_ & _ & _ & H2 & _). apply H2, H.
  - intros [H1 H2]. eapply asc_in_after; eauto.
Qed.

Lemma in_before z : In z l1 <-> In z Sq /\ z < c.
Proof.
  rewrite HSq in *. split.
  - intros H. split; [apply in_or_app; left; exact H|].
    destruct (asc_split _ _ _ Hasc) as (_ & _ & H2 & _). apply H2, H.
  - intros [H1 H2]. eapply asc_in_before; eauto.
Qed.

Lemma asc_before : asc l1.
Proof. rewrite HSq in Hasc. apply (asc_split _ _ _ Hasc). Qed.

Lemma asc_after : asc l2.
Proof. rewrite HSq in Hasc. apply (asc_split _ _ _ Hasc). Qed.

(* the walk of the NSM fix-up from c reaches j *)
Definition walked (j : nat) : Prop :=
  In j Sq /\ c <= j /\ forall z, In z Sq -> c < z <= j -> walkable oc z = true.

Lemma walked_W j : walked j <-> j = c \/ In j (takewhile (walkable oc) l2).
Proof.
  rewrite (takewhile_asc _ _ _ asc_after), in_after. unfold walked. split.
  - intros (H1 & H2 & H3). destruct (Nat.eq_dec j c) as [->|Hne]; [left; reflexivity|].
    right. split; [split; [exact H1 | lia]|]. intros z Hz Hle. apply in_after in Hz as [Hz1 Hz2]. apply H3; [exact Hz1 | lia].
  - intros [->|[[H1 H2] H3]].
    + split; [exact cut_in|]. split; [lia|]. intros z _ Hz. lia.
    + split; [exact H1|]. split; [lia|]. intros z Hz Hr. apply H3; [apply in_after; split; [exact Hz | lia] | lia].
Qed.

End Cut.

Lemma pair_cut Sq a b : asc Sq -> In a Sq -> In b Sq -> a < b ->
  exists pre mid post, Sq = pre ++ a :: mid ++ b :: post.
Proof.
  intros Ha Hia Hib Hlt. destruct (in_split _ _ Hia) as (pre & posta & ->).
  assert (Hb : In b posta) by (eapply asc_in_after; eauto).
  destruct (in_split _ _ Hb) as (mid & post & ->). eauto.
Qed.

Section PairCut.
Variable oc : list bclass.
Variables (Sq pre mid post : list nat) (a b : nat).
Hypothesis HascS : asc Sq.
Hypothesis HSq : Sq = pre ++ a :: mid ++ b :: post.

Lemma cut_snd : Sq = (pre ++ a :: mid) ++ b :: post.
Proof. rewrite HSq, <- app_assoc. reflexivity. Qed.

Lemma cut_lt : a < b.
Proof. apply (in_after Sq pre _ a HascS HSq). apply in_or_app. right. left. reflexivity. Qed.

Definition Wa := takewhile (walkable oc) (mid ++ b :: post).
Definition Wb := takewhile (walkable oc) post.
Definition Bs (pc : list bclass) := takewhile (fun y => nth y pc BN =c BN) (rev pre).
(* the positions N0 writes for this pair, in the order of the writes *)
Definition Mset (pc : list bclass) := [a; b] ++ Bs pc ++ Wa ++ Wb.

Lemma in_Bs pc j : In j (Bs pc) <-> In j Sq /\ j < a /\ forall z, In z Sq -> j <= z < a -> nth z pc BN = BN.
Proof.
  unfold Bs. rewrite (takewhile_desc _ _ _ (asc_before Sq pre _ a HascS HSq)), (in_before Sq pre _ a HascS HSq). split.
  - intros [[H1 H2] H3]. split; [exact H1|]. split; [exact H2|]. intros z Hz Hr. apply ceq_eq.
    apply H3; [apply (in_before Sq pre _ a HascS HSq); split; [exact Hz | lia] | lia].
  - intros (H1 & H2 & H3). split; [auto|]. intros z Hz Hle. apply (in_before Sq pre _ a HascS HSq) in Hz as [Hz1 Hz2].
    apply ceq_eq. apply H3; [exact Hz1 | lia].
Qed.

Lemma Mset_incl pc : incl (Mset pc) Sq.
Proof.
  intros j Hj. unfold Mset in Hj. rewrite !in_app_iff in Hj. cbn [In] in Hj.
  destruct Hj as [[<-|[<-|[]]]|[Hj|[Hj|Hj]]].
  - apply (cut_in Sq pre _ a HSq).
  - apply (cut_in Sq _ post b cut_snd).
  - apply in_Bs in Hj. tauto.
  - apply takewhile_incl in Hj as [Hj _]. apply (in_after Sq pre _ a HascS HSq) in Hj. tauto.
  - apply takewhile_incl in Hj as [Hj _]. apply (in_after Sq _ post b HascS cut_snd) in Hj. tauto.
Qed.

End PairCut.

Section Pair.
Variable cps : list N.
Variable sq : irs.
Variable oc : list bclass.
Variable k : nat.
Hypothesis Hcps : length cps = k.
Hypothesis Hoc : length oc = k.
Variable e : bclass.
Hypothesis He : e = L \/ e = R.
Let runs := irs_runs sq.
Let Sq := seq_idx sq.
Hypothesis HascS : asc Sq.
Hypothesis HSk : forall j, In j Sq -> j < k.
Variables (pre mid post : list nat) (a b : nat).
Hypothesis HSq : Sq = pre ++ a :: mid ++ b :: post.

Definition strong_ctx (c : bclass) : bclass := match c with EN | AN => R | k => k end.

(* the class N0 gives to the pair: e if the pair encloses e; else, if it encloses the opposite
   direction, the direction of the context before the opening bracket *)
Definition n0_decide (pc : list bclass) : option bclass :=
  let cl := at_ BN pc (filter (live oc) mid) in
  if existsb (sfe e) cl then Some e
  else if existsb (sfo e) cl then
    Some (strong_ctx (opt_or (pfind (fun c => match c with L | R | EN | AN => true | _ => false end) pc (rev pre))
                             (irs_sos sq)))
  else None.

Notation Mset := (Mset oc pre mid post a b).

Lemma n0_pair_eq pc mp : length pc = k -> bp_start mp = a -> bp_end mp = b ->
  (exists r, nth_error runs (bp_start_run mp) = Some r /\ fst r <= a < snd r) ->
  (exists r, nth_error runs (bp_end_run mp) = Some r /\ fst r <= b < snd r) ->
  n0_pair U32 false iter_backwards_from cps sq oc e (if e =c L then R else L) pc mp =
  Ok (match n0_decide pc with None => pc | Some d => lset_all pc (Mset pc) d end).
Proof.
  intros Hpc Ea Eb (ra & Hna & Hra) (rb & Hnb & Hrb).
  pose proof (cut_lt Sq pre mid post a b HascS HSq) as Hlt. pose proof (cut_snd Sq pre mid post a b HSq) as HSq2.
  destruct (iter_split runs a _ ra pre (mid ++ b :: post) Hna Hra HascS HSq) as [Efa Eba].
  destruct (iter_split runs b _ rb (pre ++ a :: mid) post Hnb Hrb HascS HSq2) as [Efb _].
  pose proof (HSk a (cut_in Sq pre _ a HSq)) as Hak. pose proof (HSk b (cut_in Sq _ post b HSq2)) as Hbk.
  assert (Hbd : forall l (pc' : list bclass), length pc' = k -> incl l Sq -> forall j, In j l -> j < length oc /\ j < length pc').
  { intros l pc' Hl Hin j Hj. rewrite Hoc, Hl. split; apply HSk, Hin, Hj. }
  assert (Hpre : incl (rev pre) Sq).
  { intros j Hj. apply in_rev in Hj. apply (in_before Sq pre _ a HascS HSq) in Hj. tauto. }
  assert (Hposta : incl (mid ++ b :: post) Sq) by (intros j Hj; apply (in_after Sq pre _ a HascS HSq) in Hj; tauto).
  assert (Hpost : incl post Sq) by (intros j Hj; apply (in_after Sq _ post b HascS HSq2) in Hj; tauto).
  unfold n0_pair. cbv zeta. fold runs. rewrite Ea, Eb. cbn [t_subrange t_len].
  rewrite slice_ok by lia. cbn [bind].
  rewrite first_char_len_U32 by (rewrite firstn_length, skipn_length; lia). cbn [bind]. rewrite Efa. cbn [bind].
  destruct (n0_scan_eq oc pc e b (b :: post) He (le_n b) mid false) as (fe & fn & -> & Hfe & Hfn).
  { intros y Hy. split; [|apply (Hbd (mid ++ b :: post) pc Hpc Hposta); apply in_or_app; left; exact Hy].
    assert (Hm : In y (pre ++ a :: mid)) by (apply in_or_app; right; right; exact Hy).
    apply (in_before Sq _ post b HascS HSq2) in Hm. tauto. }
  cbn [bind orb] in *. rewrite Eba. cbn [bind].
  rewrite (fvb_pfind 357 _ pc (rev pre)) by (apply (Hbd _ pc Hpc Hpre)). cbn [bind].
  match goal with |- bind ?X _ = _ => assert (Ed : X = Ok (n0_decide pc)) end.
  { unfold n0_decide. cbv zeta. rewrite <- Hfe. destruct fe; [reflexivity|]. rewrite <- (Hfn eq_refl).
    destruct fn; reflexivity. }
  rewrite Ed. cbn [bind]. destruct (n0_decide pc) as [d|]; [|reflexivity].
  rewrite slice_ok by lia. cbn [bind].
  rewrite first_char_len_U32 by (rewrite firstn_length, skipn_length; lia). cbn [bind].
  rewrite set_range_lset_all by lia. cbn [bind].
  rewrite set_range_lset_all by (rewrite ?lset_all_length; lia). cbn [bind].
  unfold range. replace (a + 1 - a) with 1 by lia. replace (b + 1 - b) with 1 by lia. cbn [seq].
  rewrite <- lset_all_app.
  rewrite swb_bnpre; [| apply NoDup_rev, asc_NoDup, (asc_before Sq pre _ a HascS HSq)
                      | apply (Hbd _ _ (eq_trans (lset_all_length _ _ _) Hpc) Hpre)].
  (* the BNs before the opening bracket are read after the brackets were written, which are not among them *)
  cbn [bind]. rewrite (bnpre_ext pc).
  2:{ intros j Hj. apply nth_lset_all_notin. apply in_rev, (in_before Sq pre _ a HascS HSq) in Hj.
      intros [<-|[<-|[]]]; lia. }
  rewrite bnpre_takewhile. fold (Bs pre pc). rewrite <- lset_all_app.
  rewrite n0_nsm_eq by (apply (Hbd _ _ (eq_trans (lset_all_length _ _ _) Hpc) Hposta)). cbn [bind].
  rewrite <- lset_all_app, Efb. cbn [bind].
  rewrite n0_nsm_eq by (apply (Hbd _ _ (eq_trans (lset_all_length _ _ _) Hpc) Hpost)).
  rewrite <- lset_all_app, <- !app_assoc. reflexivity.
Qed.

End Pair.
