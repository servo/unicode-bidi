(* Proofs/ExplicitUnits.v — explicit::compute on the code units of a text is the expansion of
   explicit::compute on its characters: a step on character [i] of the character-level state [st] and a
   step on the units of character [i] of [Ust lens st] (same stack, counters and run level; vectors
   expanded; run boundaries mapped by [ustart]) lead to corresponding states. *)
From BidiVerif Require Import Base ModelText ModelResolve Judge Stmts Stmts2 Stmts3.
From BidiVerif.Proofs Require Import ListLib Units ExplicitStep.

Definition Ust (lens : list nat) (st : ex_state) : ex_state :=
  {| ex_stack := ex_stack st; ex_oi := ex_oi st; ex_oe := ex_oe st; ex_vi := ex_vi st;
     ex_levels := expand lens (ex_levels st); ex_pc := expand lens (ex_pc st);
     ex_run_level := ex_run_level st; ex_run_start := ustart lens (ex_run_start st);
     ex_runs := map (urun lens) (ex_runs st) |}.

Section Units.
Variable lens : list nat.
Hypothesis Hpos : Forall (fun l => 0 < l) lens.

Lemma ustart_eq0 i : i < length lens -> (ustart lens i =? 0) = (i =? 0).
Proof.
  intros H. destruct i as [|i]; [reflexivity|].
  pose proof (ustart_lt lens Hpos 0 (S i) ltac:(lia) ltac:(lia)) as Hlt. rewrite ustart_0 in Hlt.
  cbn [Nat.eqb]. apply Nat.eqb_neq. lia.
Qed.

Lemma nth_expand_start {A} (v : list A) i d :
  length v = length lens -> i < length lens -> nth (ustart lens i) (expand lens v) d = nth i v d.
Proof.
  intros Hv Hi. rewrite !nth_nth_error, expand_nth_first; [reflexivity | exact Hv | apply lens_pos_nth; [exact Hpos | exact Hi]].
Qed.

Lemma ex_next_units st i k :
  i < length lens -> length (ex_levels st) = length lens -> length (ex_pc st) = length lens ->
  ex_next (Ust lens st) (ustart lens i) (nth i lens 0) k = Ust lens (ex_next st i 1 k).
Proof.
  intros Hi Hl Hp. unfold ex_next, ctl_of.
  cbn [Ust ex_stack ex_oi ex_oe ex_vi ex_levels ex_pc ex_run_level ex_run_start ex_runs].
  rewrite !nth_expand_start, ustart_eq0 by assumption.
  fold (units lens i). rewrite !lset_units by assumption.
  destruct (i =? 0); [reflexivity|]. destruct (negb (removed_by_x9 k) && _); [|reflexivity].
  unfold Ust. cbn [ex_runs]. rewrite map_app. reflexivity.
Qed.

Lemma ex_step_units oc st i st' :
  i < length lens -> length oc = length lens -> ex_wf (length lens) st ->
  ex_step oc st (i, 1) = Ok st' ->
  ex_step (expand lens oc) (Ust lens st) (ustart lens i, nth i lens 0) = Ok (Ust lens st') /\
  ex_wf (length lens) st'.
Proof.
  intros Hi Hoc Hwf H. apply ex_step_inv in H as (k & Hk & _ & ->).
  split; [|apply ex_next_wf, Hwf]. destruct Hwf as (Hs & Hl & Hp).
  rewrite <- ex_next_units by assumption.
  pose proof (ustart_S lens i) as HS. pose proof (ustart_le_total lens (S i)) as Hle.
  apply ex_step_nf; cbn [Ust ex_stack ex_vi ex_levels ex_pc]; rewrite ?expand_length by assumption.
  - rewrite expand_nth_first; [exact Hk | exact Hoc | apply lens_pos_nth; [exact Hpos | exact Hi]].
  - exact Hs.
  - apply lens_pos_nth; [exact Hpos | exact Hi].
  - lia.
  - lia.
Qed.

Lemma ex_fold_units oc : length oc = length lens -> forall js st st',
  Forall (fun j => j < length lens) js -> ex_wf (length lens) st ->
  ex_fold oc st (map (fun i => (i, 1)) js) = Ok st' ->
  ex_fold (expand lens oc) (Ust lens st) (map (fun i => (ustart lens i, nth i lens 0)) js) = Ok (Ust lens st') /\
  ex_wf (length lens) st'.
Proof.
  intros Hoc. induction js as [|j js IH]; intros st st' Hjs Hwf H; cbn [map ex_fold] in *.
  - injection H as <-. auto.
  - apply bind_ok in H as (st1 & H1 & H). inversion Hjs as [|? ? Hj Hjs']; subst.
    destruct (ex_step_units oc st j st1 Hj Hoc Hwf H1) as [S1 W1]. rewrite S1. cbn [bind]. apply IH; assumption.
Qed.

End Units.

Lemma positions_units chars : forall pos,
  map (fun x : nat * N * nat => (fst (fst x), snd x)) (positions pos chars)
  = map (fun i => (pos + ustart (map snd chars) i, nth i (map snd chars) 0)) (seq 0 (length chars)).
Proof.
  induction chars as [|[c l] r IH]; intros pos; [reflexivity|].
  cbn [positions map length seq fst snd nth]. rewrite ustart_0, Nat.add_0_r. f_equal.
  rewrite IH, <- seq_shift, map_map. apply map_ext. intros i. rewrite ustart_cons. cbn [nth]. f_equal. lia.
Qed.

Lemma view_lens_positive e text chars : text_view e text chars -> Forall (fun l => 0 < l) (map snd chars).
Proof.
  intros (_ & _ & _ & _ & H). exact (chars_lens_pos e chars H).
Qed.

Theorem explicit_compute_units e text chars pl oc lv pc runs :
  text_view e text chars -> length oc = length chars ->
  explicit_compute U32 (map fst chars) pl oc (repeat pl (length chars)) oc = Ok (lv, pc, runs) ->
  let lens := map snd chars in
  explicit_compute e text pl (expand lens oc) (repeat pl (total lens)) (expand lens oc)
    = Ok (expand lens lv, expand lens pc, map (urun lens) runs).
Proof.
  intros Hv Hoc H lens. pose proof (view_lens_positive e text chars Hv) as Hpos. fold lens in Hpos.
  destruct Hv as (_ & Hil & _ & Htl & _).
  assert (Hk : length lens = length chars) by apply map_length.
  assert (Hoc' : length oc = length lens) by congruence.
  unfold explicit_compute in *. cbn [t_len t_indices_lengths] in H.
  rewrite map_length, Hoc, Nat.eqb_refl in H. cbn [negb] in H.
  apply bind_ok in H as (stf & Hf & H).
  rewrite Htl. fold lens. rewrite expand_length, Nat.eqb_refl by exact Hoc'. cbn [negb].
  rewrite Hil, positions_units. fold lens. cbn [Nat.add].
  rewrite <- Hk, <- (expand_repeat pl lens) in *.
  apply (ex_fold_units lens Hpos oc Hoc') in Hf as [Hf (_ & Hl & _)].
  - unfold Ust at 1 in Hf. cbn [ex_stack ex_oi ex_oe ex_vi ex_levels ex_pc ex_run_level ex_run_start ex_runs map] in Hf.
    rewrite ustart_0 in Hf. rewrite Hf. cbn [bind Ust ex_levels ex_pc ex_run_start ex_runs].
    rewrite expand_length by exact Hl. rewrite Hl in H.
    destruct (Nat.ltb_spec (ex_run_start stf) (length lens)) as [Hlt|Hge].
    + pose proof (ustart_lt lens Hpos _ _ Hlt (le_n _)) as Hu. rewrite (ustart_all lens (length lens) (le_n _)) in Hu.
      apply Nat.ltb_lt in Hu. rewrite Hu. injection H as <- <- <-.
      rewrite map_app. cbn [map]. unfold urun at 3. cbn [fst snd]. rewrite (ustart_all lens (length lens) (le_n _)). reflexivity.
    + rewrite ustart_all by exact Hge. rewrite Nat.ltb_irrefl. injection H as <- <- <-. reflexivity.
  - apply Forall_forall. intros j Hj. apply in_seq in Hj. lia.
  - split; [apply ss_bot; reflexivity|]. cbn [ex_levels ex_pc]. rewrite repeat_length. lia.
Qed.
