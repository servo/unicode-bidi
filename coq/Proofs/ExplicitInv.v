(* Proofs/ExplicitInv.v — the explicit stage (explicit::compute) never panics on a text seen through
   [text_view] and returns well-formed vectors: lengths, level range, per-character uniformity, and level
   runs tiling the paragraph on character boundaries.  The fold is followed on the character list, where a
   character is one cell ([explicit_chars]); the units of a text in any encoding inherit the result through
   [explicit_compute_units]. *)
From BidiVerif Require Import Base ModelText ModelResolve Judge Stmts2 Stmts3.
From BidiVerif.Proofs Require Import ListLib Units LevelOps ExplicitStep ExplicitUnits.

Definition set_at {A} (v : list A) (i : nat) (x : A) : list A := firstn i v ++ x :: skipn (S i) v.

Lemma set_at_lset {A} (v : list A) : forall i x, i < length v -> set_at v i x = lset v i x.
Proof.
  unfold set_at. induction v as [|a v IH]; intros [|i] x H; cbn [length] in H; try lia; [reflexivity|].
  cbn [firstn skipn app lset]. rewrite <- IH by lia. reflexivity.
Qed.

Lemma Forall_set_at {A} (P : A -> Prop) (v : list A) i x : Forall P v -> P x -> Forall P (set_at v i x).
Proof.
  intros Hv Hx. apply Forall_app. split; [apply Forall_firstn, Hv|].
  constructor; [exact Hx | apply Forall_skipn, Hv].
Qed.

Definition lvl_ok (pl l : nat) : Prop := pl <= l /\ l <= 125.

Definition lvls (pl : nat) (st : ex_state) : Prop :=
  Forall (lvl_ok pl) (map fst (ex_stack st)) /\ Forall (lvl_ok pl) (ex_levels st).

Lemma next_level_ok pl k l nl :
  lvl_ok pl l -> (if class_is_rtl k then level_next_rtl l else level_next_ltr l) = Some nl -> lvl_ok pl nl.
Proof.
  intros [H1 H2] H. unfold lvl_ok. destruct (class_is_rtl k).
  - apply next_rtl_spec in H. lia.
  - apply next_ltr_spec in H. lia.
Qed.

Lemma top_lvl_ok pl s : Forall (lvl_ok pl) (map fst (ct_stack s)) -> ct_stack s <> [] -> lvl_ok pl (fst (top s)).
Proof.
  unfold top. destruct (ct_stack s) as [|en r]; [congruence|]. intros H _. inversion H; assumption.
Qed.

Lemma Forall_pop (P : nat -> Prop) s :
  Forall P (map fst s) -> Forall P (map fst (pop_through_isolate s)).
Proof.
  induction s as [|[l st] r IH]; intros H; [exact H|]. inversion H; subst.
  destruct st; cbn [pop_through_isolate]; auto.
Qed.

Lemma ex_ctl_lvls pl s k :
  ct_stack s <> [] -> Forall (lvl_ok pl) (map fst (ct_stack s)) -> Forall (lvl_ok pl) (map fst (ct_stack (ex_ctl s k))).
Proof.
  intros Hne H. pose proof (top_lvl_ok pl s H Hne) as Htop. unfold ex_ctl.
  destruct (arm_of k); try exact H.
  - destruct (if class_is_rtl k then _ else _) as [nl|] eqn:Enl;
      [destruct ((ct_oi s =? 0) && (ct_oe s =? 0))|]; try (destruct (is_isolate_init k), (ct_oi s =? 0); exact H).
    cbn [ct_stack map fst]. constructor; [exact (next_level_ok pl k _ nl Htop Enl) | exact H].
  - destruct (0 <? ct_oi s); [exact H|]. destruct (0 <? ct_vi s); [|exact H]. apply Forall_pop, H.
  - destruct (0 <? ct_oi s); [exact H|]. destruct (0 <? ct_oe s); [exact H|].
    destruct (negb _ && _); [|exact H]. cbn [ct_stack]. destruct (ct_stack s); [exact H|]. inversion H; assumption.
Qed.

Lemma ex_next_lvls pl st i len k :
  stack_shape (ex_vi st) (ex_stack st) -> i < length (ex_levels st) -> lvls pl st -> lvls pl (ex_next st i len k).
Proof.
  intros Hs Hi [Hst Hlv].
  assert (Hne : forall s, stack_shape (ct_vi s) (ct_stack s) -> ct_stack s <> [])
    by (intros s H; destruct (stack_shape_top _ _ H) as (? & ? & ? & ->); discriminate).
  change (stack_shape (ct_vi (ctl_of st)) (ct_stack (ctl_of st))) in Hs.
  pose proof (ex_ctl_lvls pl (ctl_of st) k (Hne _ Hs) Hst) as Hst'.
  unfold ex_next. destruct (if i =? 0 then _ else _) as [[rl rs] runs]. split; cbn [ex_stack ex_levels]; [exact Hst'|].
  apply Forall_lset_all; [exact Hlv|]. unfold ex_lvl. destruct (arm_of k);
    try (apply top_lvl_ok; [exact Hst' | apply Hne, ex_ctl_shape, Hs]).
  - destruct (is_isolate_init k); apply top_lvl_ok; auto. apply Hne, ex_ctl_shape, Hs.
  - rewrite Forall_forall in Hlv. apply Hlv, nth_In, Hi.
Qed.

Lemma tile_from_snoc runs : forall a b c, tile_from a b runs -> b < c -> tile_from a c (runs ++ [(b, c)]).
Proof.
  induction runs as [|[s en] runs IH]; intros a b c H Hbc; cbn [tile_from app] in *.
  - subst. auto.
  - destruct H as (H1 & H2 & H3). repeat split; auto.
Qed.

Lemma tile_from_le runs : forall a b, tile_from a b runs -> a <= b /\ (a = b -> runs = []).
Proof.
  induction runs as [|[s en] runs IH]; intros a b H; cbn [tile_from] in H; [split; [lia|reflexivity]|].
  destruct H as (-> & H2 & H3). apply IH in H3 as [H3 _]. split; lia.
Qed.

Lemma tile_from_run_in runs : forall a b, tile_from a b runs -> Forall (run_in b) runs.
Proof.
  induction runs as [|[s en] runs IH]; intros a b H; cbn [tile_from] in H; constructor.
  - destruct H as (_ & H2 & H3). apply tile_from_le in H3. unfold run_in. cbn [fst snd]. lia.
  - apply (IH en). tauto.
Qed.

(* before position [pos]: closed runs tile [0, run start), and the open run is not empty *)
Definition runs_ok (pos : nat) (st : ex_state) : Prop :=
  tile_from 0 (ex_run_start st) (ex_runs st) /\ (ex_run_start st < pos \/ pos = 0 /\ ex_run_start st = 0).

Lemma ex_next_runs st i len k : 0 < len -> runs_ok i st -> runs_ok (i + len) (ex_next st i len k).
Proof.
  intros Hlen [Ht Hrs]. unfold ex_next, runs_ok. destruct (Nat.eqb_spec i 0) as [->|Hi].
  - cbn [ex_run_start ex_runs]. split; [exact Ht|lia].
  - destruct (negb (removed_by_x9 k) && _); cbn [ex_run_start ex_runs].
    + split; [apply tile_from_snoc; [exact Ht|lia] | lia].
    + split; [exact Ht|lia].
Qed.

Lemma ex_fold_chars pl oc : forall m pos st,
  pos + m = length oc -> ex_wf (length oc) st -> runs_ok pos st ->
  exists st', ex_fold oc st (map (fun i => (i, 1)) (seq pos m)) = Ok st' /\
    ex_wf (length oc) st' /\ runs_ok (pos + m) st' /\ (lvls pl st -> lvls pl st').
Proof.
  induction m as [|m IH]; intros pos st Hm Hwf Hr.
  - exists st. rewrite Nat.add_0_r. cbn [seq map ex_fold]. auto.
  - cbn [seq map ex_fold]. pose proof Hwf as (Hs & Hl & Hp).
    destruct (nth_error oc pos) as [k|] eqn:Hk; [|apply nth_error_None in Hk; lia].
    rewrite (ex_step_nf oc st pos 1 k Hk Hs) by lia. cbn [bind].
    destruct (IH (S pos) (ex_next st pos 1 k)) as (st' & Hf & Hwf' & Hr' & Hlv'); [lia | apply ex_next_wf, Hwf | |].
    { rewrite <- Nat.add_1_r. apply ex_next_runs; [lia|exact Hr]. }
    exists st'. rewrite Nat.add_succ_r. split; [exact Hf|]. split; [exact Hwf'|]. split; [exact Hr'|].
    intros H. apply Hlv', ex_next_lvls; [exact Hs | lia | exact H].
Qed.

Theorem explicit_chars cps pl oc : length oc = length cps ->
  exists lv pc runs,
    explicit_compute U32 cps pl oc (repeat pl (length cps)) oc = Ok (lv, pc, runs) /\
    length lv = length cps /\ length pc = length cps /\
    (0 < length cps -> tile_from 0 (length cps) runs) /\ (length cps = 0 -> runs = []) /\
    (pl <= 125 -> Forall (lvl_ok pl) lv).
Proof.
  intros Hoc. unfold explicit_compute. cbn [t_len t_indices_lengths]. rewrite Hoc, Nat.eqb_refl. cbn [negb].
  match goal with |- context [ex_fold oc ?s0 _] => set (st0 := s0) end.
  destruct (ex_fold_chars pl oc (length cps) 0 st0) as (st' & Hf & (_ & Hl & Hp) & [Ht Hrs] & Hlv); [lia | | |].
  { split; [apply ss_bot; reflexivity|]. cbn [st0 ex_levels ex_pc]. rewrite repeat_length. lia. }
  { split; [reflexivity | right; split; reflexivity]. }
  rewrite Hf. cbn [bind]. rewrite Hl, Hoc in *. cbn [Nat.add] in Hrs.
  assert (Hlv' : pl <= 125 -> Forall (lvl_ok pl) (ex_levels st')).
  { intros Hpl. apply Hlv. split; cbn [st0 ex_stack ex_levels map fst]; [constructor; [split; lia | constructor]|].
    apply Forall_forall. intros x Hx. apply repeat_spec in Hx. subst. split; lia. }
  do 3 eexists. split; [reflexivity|]. split; [exact Hl|]. split; [exact Hp|].
  destruct (Nat.ltb_spec (ex_run_start st') (length cps)) as [Hlt|Hge].
  - split; [intros _; apply tile_from_snoc; assumption|]. split; [lia | exact Hlv'].
  - destruct Hrs as [Hrs|[H0 Hrs]]; [lia|]. split; [lia|]. rewrite Hrs in Ht.
    split; [intros _; apply (tile_from_le _ 0 0 Ht); reflexivity | exact Hlv'].
Qed.

Lemma tile_from_urun lens runs : Forall (fun l => 0 < l) lens -> forall a b,
  tile_from a b runs -> b <= length lens -> tile_from (ustart lens a) (ustart lens b) (map (urun lens) runs).
Proof.
  intros Hpos. induction runs as [|[s en] runs IH]; intros a b H Hb; cbn [tile_from map] in *.
  - subst. reflexivity.
  - destruct H as (-> & H2 & H3). pose proof (tile_from_le _ _ _ H3) as [Hen _].
    unfold urun at 1. cbn [fst snd]. split; [reflexivity|]. split; [apply ustart_lt; [exact Hpos|exact H2|lia]|].
    apply IH; assumption.
Qed.

Lemma run_in_starts lens runs :
  Forall (run_in (length lens)) runs -> Forall (fun r => In (fst r) (starts_from 0 lens)) (map (urun lens) runs).
Proof.
  intros H. apply Forall_map. revert H. apply Forall_impl. intros [s en] [H1 H2]. cbn [urun fst snd] in *.
  rewrite starts_from_ustart. apply (in_map (fun i => 0 + ustart lens i)), in_seq. lia.
Qed.

Lemma explicit_invariants_proof : explicit_invariants_statement.
Proof.
  intros e text chars cls pl Hv Hcls Hpl lens n oc.
  pose proof (view_lens_positive e text chars Hv) as Hpos. fold lens in Hpos.
  assert (Hk : length lens = length chars) by apply map_length.
  destruct (explicit_chars (map fst chars) pl cls) as (lv & pc & runs & Hex & Hl & Hp & Ht & H0 & Hlv);
    [rewrite map_length; exact Hcls|]. rewrite map_length, <- Hk in *.
  assert (Hn : 0 < n -> 0 < length lens).
  { destruct lens; [cbn; lia | cbn [length]; lia]. }
  exists (expand lens lv), (expand lens pc), (map (urun lens) runs).
  split; [apply (explicit_compute_units e text chars pl cls lv pc runs Hv); rewrite <- Hk; assumption|].
  split; [apply expand_length, Hl|]. split; [apply expand_length, Hp|].
  split; [apply Forall_expand, Hlv; lia|].
  split; [apply uniform_expanded; [apply Nat.eqb_refl | exact Hl]|].
  split; [apply uniform_expanded; [apply ceq_refl | exact Hp]|].
  split; [|split].
  - intros H. unfold n. rewrite <- (ustart_all lens (length lens) (le_n _)).
    apply (tile_from_urun lens runs Hpos 0); [apply Ht, Hn, H | apply le_n].
  - intros H. rewrite H0; [reflexivity|]. destruct lens as [|l r]; [reflexivity|].
    pose proof (total_pos (l :: r) Hpos ltac:(discriminate)). unfold n in H. lia.
  - apply run_in_starts. destruct (Nat.eq_dec (length lens) 0) as [E|E]; [rewrite (H0 E); constructor|].
    apply (tile_from_run_in runs 0), Ht. lia.
Qed.

Print Assumptions explicit_invariants_proof.
