(* Proofs/CSRuns.v — CS_runs (BD7): the level runs found by explicit_compute at character level (U32)
   on one paragraph are the level runs of the characters X9 keeps.
   A scan over the positions that sees only a level function and which positions are live ([rstep]) returns the
   runs of Spec.level_runs_from ([pure_main]); the run bookkeeping of ex_step is that scan over the FINAL
   levels, because later steps leave the level of a position alone ([fold_runs]). *)
From BidiVerif Require Import Base ModelText ModelResolve Spec StageRel Stmts6.
From BidiVerif.Proofs Require Import ListLib CSSequencesFast ReportedClasses C13Runs.
From BidiVerif.Proofs Require Import ExplicitStep ExplicitInv ExplicitSpec ExplicitSteps.

(* StageRel.runs_bd7 under a second name; the example of Props/CSRuns.v states its result under both *)
Definition runs_bd7' (cls0 : list bclass) (xlev : list (option nat)) (oc : list bclass) (lv : list nat)
           (runs : list run) : bool :=
  runs_bd7 cls0 xlev oc lv runs.

Lemma runs_live_snoc oc runs r :
  runs_live oc (runs ++ [r]) = runs_live oc runs ++ filter nonempty [filter (live oc) (run_range r)].
Proof. unfold runs_live. rewrite map_app, filter_app. reflexivity. Qed.

Lemma range_nil a : range a a = [].
Proof. unfold range. rewrite Nat.sub_diag. reflexivity. Qed.

Lemma tl_snoc_in {X} (l : list X) x r : In r (tl (l ++ [x])) -> In r (tl l) \/ (l <> [] /\ r = x).
Proof.
  destruct l as [|a l]; cbn [app tl].
  - intros [].
  - intros H. apply in_app_or in H as [H|[H|[]]]; [left; exact H | right; split; [discriminate | auto]].
Qed.

(* level of the open run, its start, the runs closed so far *)
Definition rstate := (nat * nat * list run)%type.

Section Pure.
Variable oc : list bclass.
Variable lf : nat -> nat.                    (* final level of a position *)
Variable xl : list (option nat).             (* the specification's levels *)
Hypothesis Hx : forall i, live oc i = true -> snth xl i None = Some (lf i).

Definition rstep (s : rstate) (i : nat) : rstate :=
  let '(rl, rs, runs) := s in
  let li := lf i in
  if i =? 0 then (li, rs, runs)
  else if live oc i && negb (li =? rl) then (li, i, runs ++ [(rs, i)])
  else (rl, rs, runs).

(* what the specification computes when it resumes from the scanner state before position p: the closed runs
   are done, the live positions of the open run [rs,p) are the current block, [rest] is still to be read *)
Definition resumed (p : nat) (s : rstate) (rest : list nat) : list (list nat) :=
  let '(rl, rs, runs) := s in
  runs_live oc runs ++ level_runs_from xl (filter (live oc) (range rs p)) (Some rl) rest.

(* the open run [rs,p): its live positions have level rl, which is the level at rs once position 0 is read *)
Definition open_ok (p rl rs : nat) : Prop :=
  rs <= p /\ (0 < p -> lf rs = rl) /\ (forall i, rs <= i < p -> live oc i = true -> lf i = rl).

(* the closed runs: one level on the live positions of each, and only the first may start at a removed position *)
Definition closed_ok (runs : list run) : Prop :=
  (forall r, In r runs -> forall i, In i (filter (live oc) (run_range r)) -> lf i = lf (fst r)) /\
  (forall r, In r (tl runs) -> live oc (fst r) = true).

Definition scan_inv (p : nat) (s : rstate) : Prop :=
  let '(rl, rs, runs) := s in
  open_ok p rl rs /\ closed_ok runs /\ (runs <> [] -> live oc rs = true).

Lemma open_ok_start p : open_ok (S p) (lf p) p.
Proof.
  split; [lia|]. split; [reflexivity|]. intros i Hi _. replace i with p by lia. reflexivity.
Qed.

Lemma open_ok_extend p rl rs :
  0 < p -> open_ok p rl rs -> (live oc p = true -> lf p = rl) -> open_ok (S p) rl rs.
Proof.
  intros Hp (O1 & O2 & O3) Hl. split; [lia|]. split; [intros _; exact (O2 Hp)|].
  intros i Hi Hli. destruct (Nat.eq_dec i p) as [->|Hne]; [exact (Hl Hli) | apply O3; [lia | exact Hli]].
Qed.

Lemma closed_ok_snoc p rl rs runs :
  0 < p -> open_ok p rl rs -> closed_ok runs -> (runs <> [] -> live oc rs = true) ->
  closed_ok (runs ++ [(rs, p)]).
Proof.
  intros Hp (_ & O2 & O3) (C1 & C2) Hrs. split.
  - intros r Hr i Hi. apply in_app_or in Hr as [Hr|[<-|[]]]; [exact (C1 r Hr i Hi)|].
    apply filter_In in Hi as [Hi Hl]. apply in_range in Hi. cbn [fst snd] in Hi |- *.
    rewrite (O3 i Hi Hl). symmetry. exact (O2 Hp).
  - intros r Hr. apply tl_snoc_in in Hr as [Hr|[Hr ->]]; [exact (C2 r Hr) | exact (Hrs Hr)].
Qed.

Lemma step_ok p s rest : scan_inv p s ->
  scan_inv (S p) (rstep s p) /\
  resumed p s ((if live oc p then [p] else []) ++ rest) = resumed (S p) (rstep s p) rest.
Proof.
  destruct s as [[rl rs] runs]. intros (HO & HC & Hrs). pose proof HO as (O1 & _).
  unfold rstep, resumed, scan_inv.
  destruct (Nat.eqb_spec p 0) as [->|Hnz].
  - assert (rs = 0) by lia. subst rs. split.
    + split; [apply open_ok_start | split; assumption].
    + rewrite (range_snoc 0 0 O1), range_nil. cbn [app filter]. f_equal.
      destruct (live oc 0) eqn:E0; cbn [app level_runs_from].
      * rewrite (Hx 0 E0). reflexivity.
      * apply lrf_nil_curl.
  - destruct (live oc p) eqn:El; cbn [andb].
    + destruct (Nat.eqb_spec (lf p) rl) as [Heq|Hne]; cbn [negb].
      * (* the open run continues *)
        split.
        { split; [apply open_ok_extend; [lia | exact HO | intros _; exact Heq] | split; assumption]. }
        rewrite (range_snoc rs p O1), filter_app. cbn [filter]. rewrite El. f_equal.
        cbn [app level_runs_from]. rewrite (Hx p El), Heq.
        destruct (filter (live oc) (range rs p)) as [|c cur]; [reflexivity|].
        rewrite Nat.eqb_refl. reflexivity.
      * (* a new run starts at p *)
        split.
        { split; [apply open_ok_start|]. split; [|intros _; exact El].
          apply (closed_ok_snoc p rl); [lia | exact HO | exact HC | exact Hrs]. }
        rewrite runs_live_snoc, <- app_assoc. f_equal. unfold run_range. cbn [fst snd].
        rewrite (range_snoc p p (le_n p)), range_nil. cbn [app filter]. rewrite El.
        cbn [app level_runs_from]. rewrite (Hx p El).
        destruct (filter (live oc) (range rs p)) as [|c cur]; [reflexivity|].
        apply Nat.eqb_neq in Hne. rewrite Hne. reflexivity.
    + (* removed position: nothing changes *)
      split.
      { split; [apply open_ok_extend; [lia | exact HO | rewrite El; discriminate] | split; assumption]. }
      rewrite (range_snoc rs p O1), filter_app. cbn [filter]. rewrite El, app_nil_r. reflexivity.
Qed.

Lemma scan_ok : forall m p s, scan_inv p s ->
  scan_inv (p + m) (fold_left rstep (seq p m) s) /\
  resumed p s (filter (live oc) (seq p m)) = resumed (p + m) (fold_left rstep (seq p m) s) [].
Proof.
  induction m as [|m IH]; intros p s HI.
  - cbn [seq fold_left filter]. rewrite Nat.add_0_r. split; [exact HI | reflexivity].
  - cbn [seq fold_left filter].
    destruct (step_ok p s (filter (live oc) (seq (S p) m)) HI) as [HI' HA].
    destruct (IH (S p) (rstep s p) HI') as [HI2 HA2].
    replace (p + S m) with (S p + m) by lia. split; [exact HI2|].
    rewrite <- HA2, <- HA. destruct (live oc p); reflexivity.
Qed.

(* the runs returned by explicit_compute from the final scanner state, for a text of n characters *)
Definition fin_runs (n : nat) (s : rstate) : list run :=
  let '(rl, rs, runs) := s in if rs <? n then runs ++ [(rs, n)] else runs.

Lemma pure_main n :
  let runs := fin_runs n (fold_left rstep (seq 0 n) (0, 0, [])) in
  runs_live oc runs = level_runs xl (filter (live oc) (seq 0 n)) /\
  (forall r, In r runs -> forall i, In i (filter (live oc) (run_range r)) -> snth xl i None = Some (lf (fst r))) /\
  (forall r, In r (tl runs) -> live oc (fst r) = true).
Proof.
  assert (I0 : scan_inv 0 (0, 0, [])).
  { split; [|split].
    - split; [lia|]. split; intros; lia.
    - split; intros r [].
    - intros H. contradiction. }
  destruct (scan_ok n 0 (0, 0, []) I0) as [HI HA]. cbn [Nat.add] in HI, HA.
  destruct (fold_left rstep (seq 0 n) (0, 0, [])) as [[rl rs] runs]. destruct HI as (HO & HC & Hrs).
  unfold resumed in HA. rewrite range_nil in HA. cbn [runs_live map filter app] in HA.
  rewrite (lrf_nil_curl xl (Some 0) None) in HA. fold (level_runs xl (filter (live oc) (seq 0 n))) in HA.
  cbn [level_runs_from] in HA. cbv zeta.
  enough (runs_live oc (fin_runs n (rl, rs, runs)) = level_runs xl (filter (live oc) (seq 0 n)) /\
          closed_ok (fin_runs n (rl, rs, runs))) as (E & C1 & C2).
  { split; [exact E|]. split; [|exact C2].
    intros r Hr i Hi. rewrite <- (C1 r Hr i Hi). apply Hx. apply filter_In in Hi. apply Hi. }
  rewrite HA. unfold fin_runs. destruct (Nat.ltb_spec rs n) as [Hlt|Hge].
  - (* the open run is closed at the end of the text *)
    split; [|apply (closed_ok_snoc n rl); [lia | exact HO | exact HC | exact Hrs]].
    rewrite runs_live_snoc. f_equal. unfold run_range. cbn [fst snd].
    destruct (filter (live oc) (range rs n)); reflexivity.
  - (* the open run is empty *)
    destruct HO as (O1 & _). replace rs with n by lia. rewrite range_nil, app_nil_r.
    split; [reflexivity | exact HC].
Qed.

End Pure.

Definition rst (st : ex_state) : rstate := (ex_run_level st, ex_run_start st, ex_runs st).

Lemma rstep_ext oc lf lf' s p : lf p = lf' p -> rstep oc lf s p = rstep oc lf' s p.
Proof. intros H. destruct s as [[rl rs] runs]. unfold rstep. rewrite H. reflexivity. Qed.

Lemma step_runs oc st p st' :
  ex_step oc st (p, 1) = Ok st' ->
  rst st' = rstep oc (fun i => nth i (ex_levels st') 0) (rst st) p.
Proof.
  intros H. apply ex_step_inv in H as (k & Hk & Hp & ->).
  assert (Elive : live oc p = negb (removed_by_x9 k)).
  { unfold live, not_removed_by_x9. rewrite (nth_error_nth _ _ BN Hk). reflexivity. }
  unfold rst, rstep. rewrite Elive, ex_next_levels. cbn [seq lset_all]. rewrite nth_lset_eq by exact Hp.
  unfold ex_next. destruct (p =? 0); [reflexivity|].
  destruct (negb (removed_by_x9 k) && _); reflexivity.
Qed.

Lemma fold_runs oc : forall m p st stf,
  ex_fold oc st (map (fun i => (i, 1)) (seq p m)) = Ok stf ->
  rst stf = fold_left (rstep oc (fun i => nth i (ex_levels stf) 0)) (seq p m) (rst st).
Proof.
  induction m as [|m IH]; intros p st stf H.
  - cbn [seq map ex_fold] in H. injection H as <-. reflexivity.
  - cbn [seq map ex_fold] in H. apply bind_ok in H. destruct H as (st1 & H1 & H).
    cbn [seq fold_left]. rewrite (IH (S p) st1 stf H). f_equal.
    rewrite (step_runs _ _ _ _ H1). apply rstep_ext.
    (* the later steps leave the level at p alone *)
    destruct (ex_fold_frame _ _ _ _ _ H p ltac:(lia)) as [E _].
    symmetry. apply nth_eq_of_nth_error. exact E.
Qed.

Lemma explicit_levels_u32 cps cls0 pl lv pc runs :
  length cls0 = length cps ->
  let oc := reported_classes cls0 in
  explicit_compute U32 cps pl oc (repeat pl (length cps)) oc = Ok (lv, pc, runs) ->
  length lv = length cps /\
  forall i, live oc i = true -> snth (fst (explicit_levels cls0 pl)) i None = Some (nth i lv 0).
Proof.
  intros Hlen oc Hex.
  assert (Hoc : length oc = length cps) by (unfold oc; rewrite reported_length; exact Hlen).
  destruct (explicit_chars cps pl oc Hoc) as (lv' & pc' & runs' & Hex' & Hlv & _).
  rewrite Hex in Hex'. injection Hex' as <- <- <-.
  pose proof (explicit_agrees_chars cps cls0 pl lv pc runs Hlen Hex) as Hag.
  destruct (explicit_levels cls0 pl) as [xlev xcls]. cbn [fst].
  split; [exact Hlv|]. intros i Hl.
  pose proof (live_lt _ _ Hl) as Hi. rewrite Hoc in Hi.
  unfold oc in Hl. rewrite live_reported in Hl. apply Bool.negb_true_iff in Hl.
  destruct (Hag i ltac:(lia)) as [Hnr _]. rewrite (nth_indep cls0 L BN) in Hnr by lia.
  destruct (Hnr Hl) as [E _]. unfold snth. rewrite <- E. apply nth_error_nth'. lia.
Qed.

Lemma cs_runs_pinned : CS_runs.
Proof.
  intros cps cls0 pl lv pc runs Hlen Hpl Hsp oc Hex.
  destruct (explicit_levels_u32 cps cls0 pl lv pc runs Hlen Hex) as [Hlv Hx].
  (* the model's runs are those of the pure scan over lv *)
  unfold explicit_compute in Hex. cbn [t_len t_indices_lengths] in Hex.
  destruct (length cps =? length oc); cbn [negb] in Hex; [|discriminate Hex].
  apply bind_ok in Hex. destruct Hex as (stf & Hf & Hex). injection Hex as Elv _ Eruns.
  rewrite Elv, Hlv in Eruns.
  apply fold_runs in Hf. rewrite Elv in Hf. unfold rst in Hf. cbn [ex_run_level ex_run_start ex_runs] in Hf.
  destruct (pure_main oc (fun i => nth i lv 0) _ Hx (length cps)) as (P1 & P2 & P3).
  rewrite <- Hf in P1, P2, P3. unfold fin_runs in P1, P2, P3. rewrite Eruns in P1, P2, P3.
  apply runs_bd7_iff. split; [|split; [intros r i Hr; exact (P2 r Hr i)|exact P3]].
  rewrite P1. f_equal. unfold remaining. rewrite Hlen. apply filter_ext. intros i. apply live_reported.
Qed.
