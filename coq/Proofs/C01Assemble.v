(* Proofs/C01Assemble.v — from "one paragraph follows UAX #9 at character level" (CS_para) to C01:
     c01_char_from  : CS_para -> CS_flags -> C01_char        (both constructors, ghost encoding U32)
     c01_final_from : C01_char -> C01_final                  (every encoding: length independence)
     c11_final_from : C01_final -> C11_final                 (levels <= 126; C01 at the limits)
   Used directly: C02 (paragraphs, paragraph levels, reported classes), C10 (on a text that is one
   paragraph ParagraphBidiInfo::new agrees with BidiInfo::new), length independence of the
   constructors, C07/C08 for the constructors. *)
From BidiVerif Require Import Base ModelText ModelResolve Spec Obs Judge Stmts Stmts2 Stmts5 Stmts6.
From BidiVerif.Proofs Require Import ListLib Units JudgeEqb.
From BidiVerif.Proofs Require Import TextView InitialInfo Pipeline TotalAssemble ExplicitSteps.
(* required only: the lemma ParaIndep.single_para would hide the definition Stmts6.single_para *)
From BidiVerif.Proofs Require ParaIndep.
From BidiVerif.Props Require Import LengthIndependence.

Section Split.
Context {A : Type}.
Variable cls : A -> bclass.

Lemma sp_concat : forall l cur, concat (split_paragraphs_from cls cur l) = cur ++ l.
Proof.
  induction l as [|x r IH]; intros cur; cbn [split_paragraphs_from].
  - destruct cur; cbn [concat]; rewrite ?app_nil_r; reflexivity.
  - destruct (cls x =c B); [cbn [concat]|]; rewrite IH, <- app_assoc; reflexivity.
Qed.

Lemma sp_nonempty : forall l cur, Forall (fun p => p <> []) (split_paragraphs_from cls cur l).
Proof.
  induction l as [|x r IH]; intros cur; cbn [split_paragraphs_from].
  - destruct cur; [constructor|]. constructor; [discriminate | constructor].
  - destruct (cls x =c B); [|apply IH]. constructor; [|apply IH]. destruct cur; discriminate.
Qed.

(* no separator except possibly as the last element *)
Definition one_para (d : A) (p : list A) : Prop := forall i, i + 1 < length p -> cls (nth i p d) <> B.

Lemma sp_one_para d : forall l cur, Forall (fun x => cls x <> B) cur ->
  Forall (one_para d) (split_paragraphs_from cls cur l).
Proof.
  induction l as [|x r IH]; intros cur Hc; cbn [split_paragraphs_from].
  - destruct cur as [|y cur']; [constructor|]. constructor; [|constructor].
    intros i Hi. rewrite Forall_forall in Hc. apply Hc. apply nth_In. lia.
  - destruct (cls x =c B) eqn:E.
    + constructor; [|apply IH; constructor].
      intros i Hi. rewrite app_length in Hi. cbn [length] in Hi.
      rewrite app_nth1 by lia. rewrite Forall_forall in Hc. apply Hc. apply nth_In. lia.
    + apply IH. apply Forall_app. split; [exact Hc|]. constructor; [|constructor].
      apply ceq_neq. exact E.
Qed.

Lemma sp_singleton d : forall l cur p, split_paragraphs_from cls cur l = [p] ->
  Forall (fun x => cls x <> B) cur -> p = cur ++ l /\ one_para d p.
Proof.
  intros l cur p H Hc. split.
  - rewrite <- (sp_concat l cur), H. cbn [concat]. rewrite app_nil_r. reflexivity.
  - pose proof (sp_one_para d l cur Hc) as HF. rewrite H in HF. exact (Forall_inv HF).
Qed.
End Split.

Lemma sp_map {A A'} (cls : A -> bclass) (cls' : A' -> bclass) (g : A -> A') :
  (forall x, cls' (g x) = cls x) ->
  forall l cur, split_paragraphs_from cls' (map g cur) (map g l)
                = map (map g) (split_paragraphs_from cls cur l).
Proof.
  intros Hg. induction l as [|x r IH]; intros cur; cbn [map split_paragraphs_from].
  - destruct cur; reflexivity.
  - rewrite Hg. destruct (cls x =c B).
    + cbn [map]. rewrite map_app. cbn [map]. f_equal. exact (IH []).
    + rewrite <- (IH (cur ++ [x])), map_app. reflexivity.
Qed.

Definition paras_of (ds : datasource) (cps : list N) : list (list N) :=
  split_paragraphs (ds_class ds) cps.

Lemma paras_of_v32 ds cps :
  split_paragraphs (fun ch : N * nat => ds_class ds (fst ch)) (v32 cps) = map v32 (paras_of ds cps).
Proof.
  unfold split_paragraphs, paras_of, v32.
  exact (sp_map (ds_class ds) (fun ch : N * nat => ds_class ds (fst ch)) (fun c => (c, 1))
                (fun x => eq_refl) cps []).
Qed.

Lemma paras_of_cls ds cps :
  split_paragraphs (fun c : bclass => c) (map (ds_class ds) cps)
  = map (map (ds_class ds)) (paras_of ds cps).
Proof.
  unfold split_paragraphs, paras_of.
  exact (sp_map (ds_class ds) (fun c : bclass => c) (ds_class ds) (fun x => eq_refl) cps []).
Qed.

Lemma paras_of_concat ds cps : concat (paras_of ds cps) = cps.
Proof. unfold paras_of, split_paragraphs. apply (sp_concat (ds_class ds) cps []). Qed.

Lemma paras_of_wf ds cps :
  Forall (fun q => q <> [] /\ single_para (map (ds_class ds) q)) (paras_of ds cps).
Proof.
  unfold paras_of, split_paragraphs.
  pose proof (sp_nonempty (ds_class ds) cps []) as H1.
  pose proof (sp_one_para (ds_class ds) 0%N cps [] (Forall_nil _)) as H2.
  rewrite Forall_forall in *. intros q Hq. split; [apply H1; exact Hq|].
  specialize (H2 q Hq). unfold single_para. intros i Hi. rewrite map_length in Hi.
  rewrite (nth_indep _ L (ds_class ds 0%N)) by (rewrite map_length; lia).
  rewrite map_nth. apply H2. exact Hi.
Qed.

Lemma fill_removed_length : forall l prev, length (fill_removed prev l) = length l.
Proof. induction l as [|[x|] l IH]; intros prev; cbn [fill_removed length]; [reflexivity| |]; rewrite IH; reflexivity. Qed.

Lemma resolve_paragraph_length cls brk d : length (snd (resolve_paragraph cls brk d)) = length cls.
Proof.
  unfold resolve_paragraph. destruct (explicit_levels cls (para_level cls d)). cbn [snd].
  rewrite map_length, seq_length. reflexivity.
Qed.

Definition sp_of (ds : datasource) (d : option nat) (pos : nat) (p : list (N * nat)) : spec_para :=
  let cls := map (fun ch => ds_class ds (fst ch)) p in
  let brk := map (fun ch => ds_bracket ds (fst ch)) p in
  {| sp_start := pos; sp_end := pos + total (map snd p); sp_lens := map snd p; sp_cls := cls;
     sp_reported := reported_classes cls; sp_level := para_level cls d;
     sp_levels := fill_removed (para_level cls d) (snd (resolve_paragraph cls brk d)) |}.

Lemma spec_paras_from_cons ds d pos p rest :
  spec_paras_from ds d pos (p :: rest) = sp_of ds d pos p :: spec_paras_from ds d (pos + total (map snd p)) rest.
Proof.
  cbn [spec_paras_from]. unfold sp_of. cbv zeta.
  rewrite <- (resolve_paragraph_fst (map (fun ch => ds_class ds (fst ch)) p)
                                    (map (fun ch => ds_bracket ds (fst ch)) p) d).
  destruct (resolve_paragraph _ _ d) as [pl lv]. reflexivity.
Qed.

(* the levels of a paragraph are a function of its characters alone, not of their lengths *)
Definition plevels (ds : datasource) (d : option nat) (q : list N) : list nat :=
  let cls := map (ds_class ds) q in
  fill_removed (para_level cls d) (snd (resolve_paragraph cls (map (ds_bracket ds) q) d)).

Lemma plevels_length ds d q : length (plevels ds d q) = length q.
Proof. unfold plevels. cbv zeta. rewrite fill_removed_length, resolve_paragraph_length, map_length. reflexivity. Qed.

Lemma sp_levels_of ds d pos p : sp_levels (sp_of ds d pos p) = plevels ds d (map fst p).
Proof. unfold sp_of, plevels. cbv zeta. cbn [sp_levels]. rewrite !map_map. reflexivity. Qed.

Lemma spec_levels_flat ds d : forall ps pos,
  flat_map sp_levels (spec_paras_from ds d pos ps) = flat_map (fun p => plevels ds d (map fst p)) ps.
Proof.
  induction ps as [|p r IH]; intros pos; [reflexivity|].
  rewrite spec_paras_from_cons. cbn [flat_map]. rewrite sp_levels_of, IH. reflexivity.
Qed.

Lemma spec_lens_flat ds d : forall ps pos,
  flat_map sp_lens (spec_paras_from ds d pos ps) = map snd (concat ps).
Proof.
  induction ps as [|p r IH]; intros pos; [reflexivity|].
  rewrite spec_paras_from_cons. cbn [flat_map concat sp_of sp_lens]. rewrite IH, map_app. reflexivity.
Qed.

Lemma flat_plevels_length ds d : forall qs : list (list N),
  length (flat_map (plevels ds d) qs) = length (concat qs).
Proof.
  induction qs as [|q r IH]; [reflexivity|]. cbn [flat_map concat].
  rewrite !app_length, plevels_length, IH. reflexivity.
Qed.

(* "the levels are the expansion of the specification's per-character levels" is what
   levels_follow_spec says, for all-positive lengths *)
Lemma lfs_expand (sps : list spec_para) (v : list nat) :
  Forall (fun n => 0 < n) (flat_map sp_lens sps) ->
  length (flat_map sp_lens sps) = length v ->
  flat_map sp_levels sps = v ->
  levels_follow_spec sps (expand (flat_map sp_lens sps) v) = true.
Proof.
  intros Hp Hl Hv. unfold levels_follow_spec. cbv zeta.
  rewrite expand_length by lia. rewrite Nat.eqb_refl. cbn [andb].
  rewrite at_starts_expand, Hv by (exact Hp || symmetry; exact Hl). apply opt_eqb2_Some.
Qed.

Lemma lfs_expand_inv (sps : list spec_para) (v : list nat) :
  Forall (fun n => 0 < n) (flat_map sp_lens sps) ->
  length (flat_map sp_lens sps) = length v ->
  levels_follow_spec sps (expand (flat_map sp_lens sps) v) = true ->
  flat_map sp_levels sps = v.
Proof.
  intros Hp Hl H. unfold levels_follow_spec in H. cbv zeta in H.
  apply andb_true_iff in H as [_ H]. rewrite at_starts_expand in H by (exact Hp || symmetry; exact Hl).
  symmetry. apply opt_eqb2_Some_inv. exact H.
Qed.

Definition flag_ok (ds : datasource) (f : para_flags) (q : list N) : Prop :=
  f_pure_ltr f = forallb pure_ltr_class (map (ds_class ds) q) /\
  f_has_isolate f = existsb is_isolate_init (map (ds_class ds) q).

Lemma v32_cls ds q : map (fun ch : N * nat => ds_class ds (fst ch)) (v32 q) = map (ds_class ds) q.
Proof. unfold v32. rewrite map_map. reflexivity. Qed.
Lemma v32_brk ds q : map (fun ch : N * nat => ds_bracket ds (fst ch)) (v32 q) = map (ds_bracket ds) q.
Proof. unfold v32. rewrite map_map. reflexivity. Qed.
Lemma v32_fst q : map fst (v32 q) = q.
Proof. unfold v32. rewrite map_map. cbn [fst]. apply map_id. Qed.

Lemma bidi_paras_follow (HP : CS_para) ds d : dir3 d -> forall cps classes,
  length classes = length cps ->
  forall qs pre acc paras flags,
    cps = pre ++ concat qs -> length acc = length pre ->
    Forall (fun q => q <> [] /\ single_para (map (ds_class ds) q)) qs ->
    paras_follow_spec (spec_paras_from ds d (length pre) (map v32 qs)) paras = true ->
    skipn (length pre) classes = flat_map (fun q => reported_classes (map (ds_class ds) q)) qs ->
    Forall2 (flag_ok ds) flags qs ->
    bidi_paras U32 ds false cps classes paras flags acc = Ok (acc ++ flat_map (plevels ds d) qs).
Proof.
  intros Hd cps classes Hcl.
  induction qs as [|q r IH]; intros pre acc paras flags Hcps Hacc Hwf Hparas Hclasses Hflags.
  - destruct paras as [|p' ps']; [|discriminate Hparas].
    cbn [bidi_paras flat_map]. rewrite app_nil_r. reflexivity.
  - cbn [map] in Hparas. rewrite spec_paras_from_cons in Hparas.
    destruct paras as [|p' ps']; [discriminate Hparas|].
    unfold paras_follow_spec in Hparas. cbn [list_eqb2] in Hparas.
    apply andb_true_iff in Hparas as [Hp Hparas].
    unfold sp_of in Hp. cbv zeta in Hp. cbn [sp_start sp_end sp_level] in Hp.
    rewrite total_v32, v32_cls in Hp. rewrite total_v32 in Hparas.
    apply andb_true_iff in Hp as [Hp Hp3]. apply andb_true_iff in Hp as [Hp1 Hp2].
    apply Nat.eqb_eq in Hp1, Hp2, Hp3.
    inversion Hflags as [|f ? fs ? [Hf1 Hf2] Hfl']; subst flags.
    destruct (Forall_inv Hwf) as [Hq1 Hq2]. pose proof (Forall_inv_tail Hwf) as Hwf'.
    cbn [concat] in Hcps. cbn [flat_map] in Hclasses.
    assert (Hskip : skipn (length (pre ++ q)) classes
                    = flat_map (fun q => reported_classes (map (ds_class ds) q)) r).
    { rewrite app_length, skipn_add, Hclasses, <- (map_length (ds_class ds) q), <- reported_length.
      apply skipn_length_app. }
    rewrite (bidi_paras_step U32 ds false cps classes p' ps' f fs acc q
               (reported_classes (map (ds_class ds) q)) (plevels ds d q)).
    + rewrite (IH (pre ++ q) (acc ++ plevels ds d q) ps' fs); try assumption.
      * cbn [flat_map]. rewrite app_assoc. reflexivity.
      * rewrite Hcps, app_assoc. reflexivity.
      * rewrite !app_length, plevels_length. lia.
      * rewrite app_length. exact Hparas.
    + rewrite Hp1. exact Hacc.
    + rewrite Hp1, Hp2. apply (slice_skipn _ _ _ (concat r)); [|rewrite Hcps, app_length; lia].
      rewrite Hcps. apply skipn_length_app.
    + rewrite Hp1, Hp2, <- (map_length (ds_class ds) q), <- reported_length.
      apply (slice_skipn _ _ _ _ _ Hclasses). rewrite Hcl, Hcps, app_length. lia.
    + rewrite Hp3. exact (HP ds q d (f_pure_ltr f) (f_has_isolate f) Hq2 Hd Hf1 Hf2).
Qed.

Lemma Forall2_map_r {A B C} (R : A -> C -> Prop) (f : B -> C) : forall l l',
  Forall2 R l (map f l') -> Forall2 (fun a b => R a (f b)) l l'.
Proof.
  induction l as [|a l IH]; intros [|b l'] H; cbn [map] in H; inversion H; subst; constructor; auto.
Qed.

Lemma spec_classes_flat ds d : forall qs pos,
  flat_map (fun s => expand (sp_lens s) (sp_reported s)) (spec_paras_from ds d pos (map v32 qs))
  = flat_map (fun q => reported_classes (map (ds_class ds) q)) qs.
Proof.
  induction qs as [|q r IH]; intros pos; [reflexivity|].
  cbn [map]. rewrite spec_paras_from_cons. cbn [flat_map]. rewrite IH. f_equal.
  unfold sp_of. cbv zeta. cbn [sp_lens sp_reported]. rewrite v32_cls.
  apply expand_ones. rewrite reported_length, map_length. reflexivity.
Qed.

Lemma concat_v32 (qs : list (list N)) : concat (map v32 qs) = v32 (concat qs).
Proof. unfold v32. rewrite concat_map. reflexivity. Qed.

Lemma v32_pos (t : list N) : Forall (fun n => 0 < n) (map snd (v32 t)).
Proof. unfold v32. rewrite map_map. cbn [snd]. apply Forall_forall. intros n Hn. apply in_map_iff in Hn as (? & <- & _). lia. Qed.

Lemma fsi_proviso_v32 ds cps : fsi_proviso U32 ds (v32 cps).
Proof.
  unfold fsi_proviso, v32. apply Forall_forall. intros ch Hin. apply in_map_iff in Hin as (c & <- & _).
  intros _. reflexivity.
Qed.

Lemma lfs_char (sps : list spec_para) (t : list N) (v : list nat) :
  flat_map sp_lens sps = map snd (v32 t) -> length v = length t ->
  flat_map sp_levels sps = v -> levels_follow_spec sps v = true.
Proof.
  intros Hl Hv Hs.
  pose proof (lfs_expand sps v) as H. rewrite Hl in H. rewrite (expand_ones t v Hv) in H.
  apply H; [apply v32_pos | rewrite map_length; unfold v32; rewrite map_length; lia | exact Hs].
Qed.

Definition case32 (ds : datasource) (cps : list N) (d : option nat) : tcase :=
  {| tc_enc := U32; tc_ds := ds; tc_text := cps; tc_dir := d; tc_lines := [] |}.

Lemma spec_text_32 ds cps d :
  spec_text (case32 ds cps d) = spec_paras_from ds d 0 (map v32 (paras_of ds cps)).
Proof.
  unfold spec_text, case_chars, case32. cbn [tc_enc tc_ds tc_text tc_dir].
  change (map (fun cp : N => (cp, 1)) cps) with (v32 cps). rewrite paras_of_v32. reflexivity.
Qed.

Lemma spec_paras_length ds d : forall ps pos, length (spec_paras_from ds d pos ps) = length ps.
Proof.
  induction ps as [|p r IH]; intros pos; [reflexivity|].
  rewrite spec_paras_from_cons. cbn [length]. rewrite IH. reflexivity.
Qed.

Lemma list_eqb2_length {A B} (eqb : A -> B -> bool) : forall l1 l2,
  list_eqb2 eqb l1 l2 = true -> length l1 = length l2.
Proof.
  induction l1 as [|a l1 IH]; intros [|b l2] H; cbn [list_eqb2] in H; try discriminate; [reflexivity|].
  apply andb_true_iff in H as [_ H]. cbn [length]. f_equal. apply IH. exact H.
Qed.

Lemma c01_bi (HP : CS_para) (HF : CS_flags) ds cps d : dir3 d ->
  exists b, bidi_info_new U32 ds cps d = Ok b /\
            bi_levels b = flat_map (plevels ds d) (paras_of ds cps) /\
            length (bi_paras b) = length (paras_of ds cps) /\
            levels_follow_spec (spec_text (case32 ds cps d)) (bi_levels b) = true.
Proof.
  intros Hd.
  destruct (C02_proof U32 ds cps (v32 cps) d (view32 cps) (fsi_proviso_v32 ds cps)) as (ii & Ei & Hc & Hp & Hfl).
  cbv zeta in Hc, Hp. rewrite paras_of_v32 in Hc, Hp.
  set (qs := paras_of ds cps) in *.
  assert (Hcl : in_classes ii = flat_map (fun q => reported_classes (map (ds_class ds) q)) qs).
  { unfold classes_follow_spec, cls_list_eqb in Hc. apply (list_eqb_eq ceq ceq_eq) in Hc.
    rewrite Hc. apply spec_classes_flat. }
  assert (Hlen : length (in_classes ii) = length cps).
  { destruct (initial_info_32 ds true d Hd cps) as (ii' & Ei' & Lc & _).
    rewrite Ei in Ei'. injection Ei' as <-. exact Lc. }
  assert (Hflags : Forall2 (flag_ok ds) (in_flags ii) qs).
  { destruct (HF ds cps d true ii Ei) as [H _]. specialize (H eq_refl).
    rewrite paras_of_cls in H. fold qs in H. apply Forall2_map_r in H. exact H. }
  pose proof (bidi_paras_follow HP ds d Hd cps (in_classes ii) Hlen qs [] [] (in_paras ii) (in_flags ii)
                (eq_sym (paras_of_concat ds cps)) eq_refl (paras_of_wf ds cps) Hp Hcl Hflags) as Hb.
  cbn [app] in Hb.
  eexists. split; [exact (bidi_info_new_intro U32 ds false cps d ii _ Ei Hb)|].
  cbn [bi_levels bi_paras]. split; [reflexivity|].
  split; [rewrite (list_eqb2_length _ _ _ Hp), spec_paras_length; apply map_length|].
  rewrite spec_text_32. fold qs.
  apply (lfs_char _ cps).
  - rewrite spec_lens_flat, concat_v32. unfold qs. rewrite paras_of_concat. reflexivity.
  - rewrite flat_plevels_length. unfold qs. rewrite paras_of_concat. reflexivity.
  - rewrite spec_levels_flat. rewrite flat_map_concat_map, map_map.
    rewrite <- flat_map_concat_map. apply flat_map_ext. intros q. rewrite v32_fst. reflexivity.
Qed.

Lemma app_eq_single {A} (l : list A) x p : l ++ [x] = [p] -> l = [] /\ x = p.
Proof.
  destruct l as [|y l]; cbn [app]; intros H.
  - injection H as ->. auto.
  - injection H as _ H. destruct l; discriminate H.
Qed.

Lemma spec_single_32 ds cps d : cps <> [] ->
  spec_single (case32 ds cps d) = spec_paras_from ds d 0 [v32 cps].
Proof. destruct cps as [|c t]; [contradiction|]. reflexivity. Qed.

(* On a text that is one paragraph ParagraphBidiInfo::new gives the levels of BidiInfo::new (C10), and
   the specification of the single paragraph is that of the text. *)
Lemma c01_pi (HP : CS_para) (HF : CS_flags) ds cps d : dir3 d ->
  is_single_paragraph (case32 ds cps d) = true ->
  exists p, para_bidi_info_new U32 ds cps d = Ok p /\
            levels_follow_spec (spec_single (case32 ds cps d)) (pb_levels p) = true.
Proof.
  intros Hd Hs.
  unfold is_single_paragraph in Hs. apply Nat.leb_le in Hs.
  rewrite spec_text_32, spec_paras_length, map_length in Hs.
  destruct (c01_bi HP HF ds cps d Hd) as (b & Eb & Hlv & Hn & _).
  destruct (ParaIndep.c10_main U32 ds d cps I (fsi_proviso_v32 ds cps) Hd C07_C08_constructors_thm b Eb)
    as [_ H10].
  destruct (H10 ltac:(lia)) as (p & Ep & _ & Elv & _).
  exists p. split; [exact Ep|]. rewrite Elv, Hlv.
  pose proof (paras_of_concat ds cps) as Hcat. pose proof (paras_of_wf ds cps) as Hwf.
  destruct (paras_of ds cps) as [|q [|q2 r]]; cbn [length] in Hs; try lia; cbn [concat] in Hcat.
  - subst cps. reflexivity.
  - rewrite app_nil_r in Hcat. subst q. destruct (Forall_inv Hwf) as [Hne _].
    cbn [flat_map]. rewrite app_nil_r, (spec_single_32 ds cps d Hne).
    apply (lfs_char _ cps).
    + rewrite spec_lens_flat. cbn [concat]. rewrite app_nil_r. reflexivity.
    + apply plevels_length.
    + rewrite spec_levels_flat. cbn [flat_map]. rewrite app_nil_r, v32_fst. reflexivity.
Qed.

Theorem c01_char_from : CS_para -> CS_flags -> C01_char.
Proof.
  intros HP HF ds cps d Hd c. split.
  - destruct (c01_bi HP HF ds cps d Hd) as (b & Eb & _ & _ & Hl). exists b. split; [exact Eb | exact Hl].
  - intros Hs. exact (c01_pi HP HF ds cps d Hd Hs).
Qed.

Definition cps_of (c : tcase) : list N := map fst (case_chars c).
Definition c32_of (c : tcase) : tcase := case32 (tc_ds c) (cps_of c) (tc_dir c).

Lemma case_chars_c32 c : case_chars (c32_of c) = v32 (cps_of c).
Proof. reflexivity. Qed.

Lemma paras_of_chars ds (chars : list (N * nat)) :
  map (map fst) (split_paragraphs (fun ch : N * nat => ds_class ds (fst ch)) chars)
  = paras_of ds (map fst chars).
Proof.
  unfold split_paragraphs, paras_of. symmetry.
  exact (sp_map (fun ch : N * nat => ds_class ds (fst ch)) (ds_class ds) fst (fun x => eq_refl) chars []).
Qed.

Lemma spec_levels_chars ds d pos (chars : list (N * nat)) :
  flat_map sp_levels (spec_paras_from ds d pos (split_paragraphs (fun ch : N * nat => ds_class ds (fst ch)) chars))
  = flat_map (plevels ds d) (paras_of ds (map fst chars)).
Proof.
  rewrite spec_levels_flat, <- paras_of_chars.
  rewrite !flat_map_concat_map, map_map. reflexivity.
Qed.

Lemma spec_text_levels c :
  flat_map sp_levels (spec_text c) = flat_map (plevels (tc_ds c) (tc_dir c)) (paras_of (tc_ds c) (cps_of c)).
Proof. unfold spec_text. apply spec_levels_chars. Qed.

Lemma spec_text_lens c : flat_map sp_lens (spec_text c) = map snd (case_chars c).
Proof.
  unfold spec_text. rewrite spec_lens_flat. unfold split_paragraphs.
  rewrite (sp_concat (fun ch : N * nat => ds_class (tc_ds c) (fst ch)) (case_chars c) []). reflexivity.
Qed.

Lemma spec_text_count c : length (spec_text c) = length (paras_of (tc_ds c) (cps_of c)).
Proof.
  unfold spec_text. rewrite spec_paras_length. unfold cps_of. rewrite <- paras_of_chars, map_length. reflexivity.
Qed.

Lemma v32_map_fst (t : list N) : map fst (v32 t) = t.
Proof. apply v32_fst. Qed.

Lemma cps_of_c32 c : cps_of (c32_of c) = cps_of c.
Proof. unfold cps_of at 1. rewrite case_chars_c32. apply v32_fst. Qed.

Lemma single_c32 c : is_single_paragraph (c32_of c) = is_single_paragraph c.
Proof.
  unfold is_single_paragraph. rewrite !spec_text_count, cps_of_c32. reflexivity.
Qed.

Lemma spec_single_lens c : flat_map sp_lens (spec_single c) = map snd (case_chars c).
Proof.
  unfold spec_single. destruct (case_chars c) as [|ch r]; [reflexivity|].
  rewrite spec_lens_flat. cbn [concat]. rewrite app_nil_r. reflexivity.
Qed.

Lemma spec_single_levels c :
  flat_map sp_levels (spec_single c)
  = match cps_of c with [] => [] | _ => plevels (tc_ds c) (tc_dir c) (cps_of c) end.
Proof.
  unfold spec_single, cps_of. destruct (case_chars c) as [|ch r]; [reflexivity|].
  rewrite spec_levels_flat. cbn [flat_map]. rewrite app_nil_r. reflexivity.
Qed.

Lemma lfs_char_inv (sps : list spec_para) (t : list N) (v : list nat) :
  flat_map sp_lens sps = map snd (v32 t) ->
  levels_follow_spec sps v = true -> length v = length t /\ flat_map sp_levels sps = v.
Proof.
  intros Hl H.
  assert (Hv : length v = length t).
  { unfold levels_follow_spec in H. cbv zeta in H. apply andb_true_iff in H as [H _].
    apply Nat.eqb_eq in H. rewrite Hl, total_v32 in H. exact H. }
  split; [exact Hv|].
  apply lfs_expand_inv.
  - rewrite Hl. apply v32_pos.
  - rewrite Hl, map_length. unfold v32. rewrite map_length. lia.
  - rewrite Hl, (expand_ones t v Hv). exact H.
Qed.

Lemma lfs_transfer (sps32 sps : list spec_para) (lens : list nat) (t : list N) (v : list nat) :
  flat_map sp_lens sps32 = map snd (v32 t) -> flat_map sp_lens sps = lens ->
  Forall (fun n => 0 < n) lens -> length lens = length t ->
  flat_map sp_levels sps = flat_map sp_levels sps32 ->
  levels_follow_spec sps32 v = true ->
  levels_follow_spec sps (expand lens v) = true.
Proof.
  intros H32 Hl Hp Hlen Hlv H.
  destruct (lfs_char_inv sps32 t v H32 H) as [Hv Hs].
  rewrite <- Hl. apply lfs_expand; rewrite ?Hl; [exact Hp | lia | rewrite Hlv; exact Hs].
Qed.

Lemma obs_bi c : to_bi (model_obs false c) = bidi_info_new (tc_enc c) (tc_ds c) (tc_text c) (tc_dir c).
Proof. reflexivity. Qed.
Lemma obs_pi c : to_pi (model_obs false c) = para_bidi_info_new (tc_enc c) (tc_ds c) (tc_text c) (tc_dir c).
Proof. reflexivity. Qed.

Theorem c01_final_from : C01_char -> C01_final.
Proof.
  intros HC c (_ & Hv & Hfsi & Hd & _).
  pose proof (case_chars_view c) as Hcc. rewrite Hcc in Hfsi.
  assert (Hpos : Forall (fun n => 0 < n) (map snd (case_chars c)))
    by (rewrite Hcc; apply view_lens_pos; exact Hv).
  assert (Hlen : length (map snd (case_chars c)) = length (cps_of c))
    by (unfold cps_of; rewrite !map_length; reflexivity).
  destruct (HC (tc_ds c) (cps_of c) (tc_dir c) Hd) as [(b' & Eb & Lb) Hpi]. cbv zeta in Lb, Hpi.
  fold (case32 (tc_ds c) (cps_of c) (tc_dir c)) in Lb, Hpi. fold (c32_of c) in Lb, Hpi.
  unfold cps_of in Eb, Hpi. rewrite Hcc in Eb, Hpi.
  unfold C01_judge. rewrite obs_bi, obs_pi. apply andb_true_iff. split.
  - rewrite (li_bidi_info _ _ Hv _ _ b' Hfsi Eb). cbn [okb bi_levels]. rewrite <- Hcc.
    apply (lfs_transfer (spec_text (c32_of c)) (spec_text c) _ (cps_of c)); try assumption.
    + rewrite spec_text_lens. reflexivity.
    + apply spec_text_lens.
    + rewrite !spec_text_levels, cps_of_c32. reflexivity.
  - destruct (is_single_paragraph c) eqn:Es; [|reflexivity].
    rewrite <- single_c32 in Es. destruct (Hpi Es) as (p' & Ep & Lp).
    rewrite (li_para_bidi_info _ _ Hv _ _ p' Hfsi Ep). cbn [okb pb_levels]. rewrite <- Hcc.
    apply (lfs_transfer (spec_single (c32_of c)) (spec_single c) _ (cps_of c)); try assumption.
    + rewrite spec_single_lens. reflexivity.
    + apply spec_single_lens.
    + rewrite !spec_single_levels, cps_of_c32. reflexivity.
Qed.

Lemma paras_cover ds d : forall ps pos paras,
  paras_follow_spec (spec_paras_from ds d pos ps) paras = true ->
  forall i, pos <= i < pos + total (map snd (concat ps)) ->
  exists p, In p paras /\ p_start p <= i < p_end p.
Proof.
  induction ps as [|q r IH]; intros pos paras H i Hi.
  - cbn [concat map] in Hi. rewrite total_nil in Hi. lia.
  - rewrite spec_paras_from_cons in H. unfold paras_follow_spec in H.
    destruct paras as [|p' ps']; [discriminate H|]. cbn [list_eqb2] in H.
    apply andb_true_iff in H as [Hp H].
    unfold sp_of in Hp. cbv zeta in Hp. cbn [sp_start sp_end sp_level] in Hp.
    apply andb_true_iff in Hp as [Hp _]. apply andb_true_iff in Hp as [Hp1 Hp2].
    apply Nat.eqb_eq in Hp1, Hp2.
    cbn [concat] in Hi. rewrite map_app, total_app in Hi.
    destruct (Nat.lt_ge_cases i (pos + total (map snd q))) as [Hlt|Hge].
    + exists p'. split; [left; reflexivity | lia].
    + destruct (IH _ ps' H i ltac:(lia)) as (p & Hin & Hr). exists p. split; [right; exact Hin | exact Hr].
Qed.

Theorem c11_final_from : C01_final -> C11_final.
Proof.
  intros H01 c Hvc. pose proof Hvc as (_ & Hv & Hfsi & Hd & _). rewrite case_chars_view in Hfsi.
  destruct (C07_C08_constructors_thm _ _ _ _ Hv Hfsi Hd)
    as [(b & Eb & Lb & _ & _ & _ & Bb) (p & Ep & _ & _ & _ & _ & Bp)].
  unfold C11_judge. rewrite obs_bi, obs_pi, Eb, Ep. cbn [okb].
  apply andb_true_iff. split; [apply andb_true_iff; split|].
  - (* the paragraphs tile the text (C02), and every paragraph's levels are bounded *)
    destruct (C02_proof _ _ _ _ (tc_dir c) (view_of_proved _ _ Hv) Hfsi) as (ii & Ei & _ & Hp & _).
    cbv zeta in Hp.
    apply bidi_info_new_inv in Eb as (ii0 & Ei0 & _ & Eb). rewrite Ei in Ei0. injection Ei0 as <-.
    assert (Epar : bi_paras b = in_paras ii) by (rewrite Eb; reflexivity).
    apply levels_bounded_iff in Bb. unfold bounded_prop in Bb. rewrite Epar, Forall_forall in Bb.
    apply forallb_forall. intros l Hl. apply Nat.leb_le.
    destruct (In_nth_error _ _ Hl) as (i & Hi).
    pose proof (nth_error_lt _ _ _ Hi) as Hil. rewrite Lb in Hil.
    destruct (paras_cover _ _ _ 0 (in_paras ii) Hp i) as (q & Hq & Hr).
    { unfold split_paragraphs. rewrite sp_concat. cbn [app]. lia. }
    destruct (Bb q Hq i Hr) as (l' & Hl' & _ & Hle). rewrite Hi in Hl'. injection Hl' as ->. exact Hle.
  - apply forallb_forall. intros l Hl. rewrite Forall_forall in Bp. apply Nat.leb_le. exact (proj2 (Bp l Hl)).
  - destruct (case_reaches_limits c); [|reflexivity]. apply H01. exact Hvc.
Qed.
