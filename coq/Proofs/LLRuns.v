(* Proofs/LLRuns.v — length independence of visual_runs_for_line.
   A pure fact about level vectors: on the per-unit expansion of a per-character level vector,
   with the line mapped to its unit range, the routine finds the character-level runs mapped to
   unit ranges ([urun]), with the same minimum / maximum level, and every reversal pass of rule L2
   permutes the mapped run list exactly as it permutes the character-level one (it only reads the
   level at the first unit of each run). *)
From BidiVerif Require Import Base ModelText ModelLine Judge Stmts3 Stmts5.
From BidiVerif.Proofs Require Import ListLib Units.
From BidiVerif.Proofs Require Import TextView.
Require Import Lia List Arith.
Import ListNotations.

Section Runs.
Variable lens : list nat.
Variable lv : list nat.
Hypothesis P : Forall (fun n => 0 < n) lens.
Hypothesis E : length lens = length lv.

Let V := expand lens lv.

Lemma find_runs_skip l : forall R start rl mn mx runs,
  (forall j, In j l -> nth_error V j = Some rl) ->
  find_runs V (l ++ R) start rl mn mx runs = find_runs V R start rl mn mx runs.
Proof.
  induction l as [|j l IH]; intros R start rl mn mx runs H; [reflexivity|].
  cbn [app find_runs]. rewrite (H j) by (left; reflexivity).
  rewrite Nat.eqb_refl. cbn [negb]. apply IH. intros j' Hj'. apply H. right; assumption.
Qed.

Lemma nth_error_pos i x : nth_error lv i = Some x -> 0 < nth i lens 0.
Proof.
  intros H. apply nth_error_lt in H. rewrite Forall_forall in P. apply P, nth_In. lia.
Qed.

Lemma nth_error_units i x : nth_error lv i = Some x ->
  forall j, In j (units lens i) -> nth_error V j = Some x.
Proof.
  intros H j Hj. apply in_units in Hj as (d & Hd & ->). unfold V. rewrite expand_nth by (auto; lia). exact H.
Qed.

Lemma units_cons i : 0 < nth i lens 0 ->
  units lens i = ustart lens i :: seq (S (ustart lens i)) (nth i lens 0 - 1).
Proof. unfold units. destruct (nth i lens 0) as [|m]; [lia|]. intros _. cbn [seq]. replace (S m - 1) with m by lia. reflexivity. Qed.

Lemma nth_error_start i x : nth_error lv i = Some x -> nth_error V (ustart lens i) = Some x.
Proof.
  intros H. apply (nth_error_units i x H). rewrite units_cons by (eapply nth_error_pos; exact H). left. reflexivity.
Qed.

Lemma tail_units i x : nth_error lv i = Some x ->
  forall j, In j (seq (S (ustart lens i)) (nth i lens 0 - 1)) -> nth_error V j = Some x.
Proof.
  intros H j Hj. apply (nth_error_units i x H).
  rewrite units_cons by (eapply nth_error_pos; eassumption). right; assumption.
Qed.

Lemma find_runs_expand idxs : forall s rl mn mx runs runs' s' mn' mx',
  (forall i, In i idxs -> i < length lv) ->
  find_runs lv idxs s rl mn mx runs = Ok (runs', s', mn', mx') ->
  find_runs V (flat_map (units lens) idxs) (ustart lens s) rl mn mx (map (urun lens) runs)
    = Ok (map (urun lens) runs', ustart lens s', mn', mx').
Proof.
  induction idxs as [|i rest IH]; intros s rl mn mx runs runs' s' mn' mx' Hb H.
  - cbn [find_runs flat_map] in *. injection H as <- <- <- <-. reflexivity.
  - cbn [find_runs] in H.
    assert (Hi : i < length lv) by (apply Hb; left; reflexivity).
    destruct (nth_error lv i) as [nl|] eqn:Hn; [|apply nth_error_None in Hn; lia].
    assert (Hrest : forall i', In i' rest -> i' < length lv) by (intros; apply Hb; right; assumption).
    cbn [flat_map]. rewrite units_cons by (eapply nth_error_pos; eassumption).
    cbn [app find_runs]. rewrite (nth_error_start i nl Hn).
    destruct (negb (nl =? rl)) eqn:Hne.
    + rewrite find_runs_skip by (apply tail_units; assumption).
      specialize (IH i nl (Nat.min nl mn) (Nat.max nl mx) (runs ++ [(s, i)]) runs' s' mn' mx' Hrest H).
      rewrite map_app in IH. exact IH.
    + apply Bool.negb_false_iff, Nat.eqb_eq in Hne. subst nl.
      rewrite find_runs_skip by (apply tail_units; assumption).
      apply IH; assumption.
Qed.

(* visual_runs_for_line scans from the second unit of the line: the rest of the first character, then whole
   characters *)
Lemma line_units i j : i < j -> j <= length lv ->
  range (ustart lens i + 1) (ustart lens j)
    = seq (S (ustart lens i)) (nth i lens 0 - 1) ++ flat_map (units lens) (range (i + 1) j).
Proof.
  intros Hij Hj.
  assert (Hpos : 0 < nth i lens 0) by (rewrite Forall_forall in P; apply P, nth_In; lia).
  pose proof (range_units lens i j) as R.
  rewrite (range_cons i j Hij) in R. cbn [flat_map] in R. rewrite units_cons in R by exact Hpos.
  rewrite range_cons in R by (apply ustart_lt; [exact P | exact Hij | lia]).
  injection R as R. rewrite !Nat.add_1_r. exact R.
Qed.

Lemma get_start site i x : get site lv i = Ok x -> get site V (ustart lens i) = Ok x.
Proof. apply get_expand_start; [exact P | symmetry; exact E]. Qed.

Lemma reverse_run_seqs_expand mx runs : forall acc out,
  reverse_run_seqs lv mx runs acc = Ok out ->
  reverse_run_seqs V mx (map (urun lens) runs) (map (urun lens) acc) = Ok (map (urun lens) out).
Proof.
  induction runs as [|r rest IH]; intros acc out H; cbn [reverse_run_seqs map] in *.
  - injection H as <-. reflexivity.
  - apply bind_ok in H as (l & Hl & H).
    change (fst (urun lens r)) with (ustart lens (fst r)).
    rewrite (get_start 963 _ _ Hl). cbn [bind].
    destruct (l <? mx).
    + apply bind_ok in H as (rest' & Hr & H). injection H as <-.
      pose proof (IH [] rest' Hr) as IH'. cbn [map] in IH'. rewrite IH'. cbn [bind]. rewrite map_app. reflexivity.
    + apply (IH (r :: acc) out H).
Qed.

Lemma runs_l2_loop_expand fuel : forall runs mx mn out,
  runs_l2_loop fuel lv runs mx mn = Ok out ->
  runs_l2_loop fuel V (map (urun lens) runs) mx mn = Ok (map (urun lens) out).
Proof.
  induction fuel as [|f IH]; intros runs mx mn out H; cbn [runs_l2_loop] in *; [discriminate|].
  destruct (mx <? mn).
  - injection H as <-. reflexivity.
  - apply bind_ok in H as (runs1 & H1 & H).
    pose proof (reverse_run_seqs_expand mx runs [] runs1 H1) as R1. cbn [map] in R1. rewrite R1. cbn [bind].
    destruct (level_lower mx 1) as [mx'|]; [|discriminate].
    apply IH; assumption.
Qed.

Lemma visual_runs_core_expand i j runs' :
  i < j -> j <= length lv ->
  visual_runs_core false lv (i, j) = Ok runs' ->
  visual_runs_core false V (ustart lens i, ustart lens j) = Ok (map (urun lens) runs').
Proof.
  intros Hij Hj H. unfold visual_runs_core in *.
  apply bind_ok in H as (rl & Hrl & H).
  rewrite (get_start 934 _ _ Hrl). cbn [bind].
  apply bind_ok in H as ([[[runs s] mn] mx] & Hf & H).
  rewrite line_units by lia.
  rewrite find_runs_skip by (apply tail_units; apply get_ok in Hrl; exact Hrl).
  assert (Hb : forall x, In x (range (i + 1) j) -> x < length lv).
  { intros x Hx. unfold range in Hx. apply in_seq in Hx. lia. }
  pose proof (find_runs_expand _ _ _ _ _ _ _ _ _ _ Hb Hf) as Hf'. cbn [map] in Hf'.
  rewrite Hf'. cbn [bind].
  replace (map (urun lens) runs ++ [(ustart lens s, ustart lens j)])
    with (map (urun lens) (runs ++ [(s, j)])) by (rewrite map_app; reflexivity).
  destruct (level_lowest_ge_rtl mn) as [mn'|].
  - apply runs_l2_loop_expand; assumption.
  - injection H as <-. reflexivity.
Qed.

Lemma visual_runs_for_line_expand i j runs' :
  i < j -> j <= length lv ->
  visual_runs_for_line false lv (i, j) = Ok (lv, runs') ->
  visual_runs_for_line false V (ustart lens i, ustart lens j) = Ok (V, map (urun lens) runs').
Proof.
  intros Hij Hj H. unfold visual_runs_for_line in *.
  apply bind_ok in H as (runs & Hc & H). injection H as <-.
  rewrite (visual_runs_core_expand i j runs Hij Hj Hc). reflexivity.
Qed.

End Runs.

Theorem ll_visual_runs_main : LL_visual_runs.
Proof.
  intros e text Hv lv i j runs' Hlen Hij Hj H.
  apply visual_runs_for_line_expand.
  - apply view_lens_pos; assumption.
  - rewrite map_length. symmetry. exact Hlen.
  - assumption.
  - rewrite Hlen. exact Hj.
  - exact H.
Qed.
