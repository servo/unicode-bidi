(* Proofs/Finals2.v — final-form theorem C03 (reordered_levels and reordered_levels_per_char are rule L1
   applied to the line's characters), for every valid case; [chars_in] on a range of whole characters. *)
From BidiVerif Require Import Base ModelText Spec Obs Judge Stmts2 Stmts3 Stmts5.
From BidiVerif.Proofs Require Import Units JudgeEqb.
From BidiVerif.Proofs Require Import LLLevels CharAnalysis ObsValid.

Lemma chars_in_prefix : forall (chs : list (N * nat)) pos a j,
  Forall (fun n => 0 < n) (map snd chs) ->
  a <= pos -> j <= length chs ->
  chars_in pos a (pos + ustart (map snd chs) j) chs = Some (firstn j chs).
Proof.
  induction chs as [|ch rest IH]; intros pos a j HF Ha Hj; cbn [length] in Hj.
  - assert (j = 0) by lia. subst j. cbn [map chars_in firstn]. rewrite ustart_0, Nat.add_0_r, Nat.eqb_refl.
    reflexivity.
  - cbn [map] in HF. inversion HF as [|x y Hpos HF']; subst x y.
    cbn [chars_in map]. assert (E1 : (pos <? a) = false) by (apply Nat.ltb_ge; lia). rewrite E1.
    destruct j as [|j].
    + rewrite ustart_0, Nat.add_0_r, Nat.ltb_irrefl. reflexivity.
    + rewrite ustart_cons.
      assert (E2 : (pos <? pos + (snd ch + ustart (map snd rest) j)) = true) by (apply Nat.ltb_lt; lia).
      assert (E3 : (pos + (snd ch + ustart (map snd rest) j) <? pos + snd ch) = false)
        by (apply Nat.ltb_ge; lia).
      rewrite E2, E3, Nat.add_assoc, (IH (pos + snd ch) a j HF' ltac:(lia) ltac:(lia)).
      reflexivity.
Qed.

Lemma chars_in_sub : forall (chs : list (N * nat)) pos i j,
  Forall (fun n => 0 < n) (map snd chs) ->
  i <= j -> j <= length chs ->
  chars_in pos (pos + ustart (map snd chs) i) (pos + ustart (map snd chs) j) chs = Some (sub chs i j).
Proof.
  induction chs as [|ch rest IH]; intros pos i j HF Hij Hj; cbn [length] in Hj.
  - assert (j = 0) by lia. assert (i = 0) by lia. subst i j.
    cbn [map chars_in]. rewrite ustart_0, Nat.add_0_r, Nat.eqb_refl. reflexivity.
  - destruct i as [|i].
    + rewrite ustart_0, Nat.add_0_r. unfold sub. rewrite Nat.sub_0_r. cbn [skipn].
      apply chars_in_prefix; [exact HF | lia | cbn [length]; lia].
    + destruct j as [|j]; [lia|].
      cbn [map] in HF. inversion HF as [|x y Hpos HF']; subst x y.
      cbn [chars_in map]. rewrite !ustart_cons.
      assert (E1 : (pos <? pos + (snd ch + ustart (map snd rest) i)) = true) by (apply Nat.ltb_lt; lia).
      assert (E2 : (pos + (snd ch + ustart (map snd rest) i) <? pos + snd ch) = false)
        by (apply Nat.ltb_ge; lia).
      rewrite E1, E2, !Nat.add_assoc, (IH (pos + snd ch) i j HF' ltac:(lia) ltac:(lia)).
      reflexivity.
Qed.

Lemma forallb_Some {A} (l : list A) :
  forallb (fun x : option A => match x with Some _ => true | None => false end) (map Some l) = true.
Proof. induction l as [|x t IH]; [reflexivity|]. cbn [map forallb]. exact IH. Qed.

Lemma map_dflt_Some (l : list nat) :
  map (fun x : option nat => match x with Some l => l | None => 0 end) (map Some l) = l.
Proof. rewrite map_map. apply map_id. Qed.

Section PerLine.
Variable c : tcase.
Let e := tc_enc c.
Let text := tc_text c.
Let chars := view_of e text.
Let lens := map snd chars.
Hypothesis Hvalid : valid_text e text.
Variables (cls : list bclass) (lv : list nat) (pl i j : nat).
Hypothesis C : line_ctx e (tc_ds c) text cls lv pl i j.

(* what the judges of C03 and C06 compute first for a line *)
Lemma line_chars_levels :
  let a := ustart lens i in let b := ustart lens j in
  chars_in 0 a b (case_chars c) = Some (sub chars i j) /\
  at_starts (map snd (sub chars i j)) (firstn (b - a) (skipn a (expand lens lv))) = map Some (sub lv i j) /\
  l1 pl (map (fun ch : N * nat => ds_class (tc_ds c) (fst ch)) (sub chars i j)) (sub lv i j)
    = l1 pl (sub cls i j) (sub lv i j).
Proof.
  destruct C as [Hc Hl Hij Hj _ _ Hk]. fold chars in Hc, Hl, Hj, Hk.
  pose proof (fl_lens_pos e text Hvalid) as Hpos. fold chars lens in Hpos.
  assert (Hlk : length lens = length chars) by apply map_length.
  cbv zeta. split; [|split].
  - rewrite case_chars_view. exact (chars_in_sub chars 0 i j Hpos ltac:(lia) Hj).
  - fold (sub (expand lens lv) (ustart lens i) (ustart lens j)).
    rewrite sub_expand, <- (sub_map snd chars i j) by lia. fold lens.
    apply at_starts_expand; [apply Forall_sub, Hpos | rewrite !sub_length by lia; reflexivity].
  - apply l1_kgroup. rewrite <- !sub_map, Hk, !map_map. reflexivity.
Qed.

Lemma l1_expected_line :
  l1_expected c (expand lens lv) pl (the_line e text i j) = Some (the_LV e text cls lv pl i j).
Proof.
  destruct line_chars_levels as (E1 & E2 & E3). destruct C as [Hc Hl Hij Hj _ _ _].
  unfold l1_expected, the_line. fold chars lens. rewrite E1, E2, forallb_Some, map_dflt_Some, E3.
  rewrite <- (sub_map snd chars i j). fold lens. f_equal. unfold the_LV, the_L. fold chars lens.
  apply expand_lline; unfold lens; rewrite ?map_length; assumption || lia.
Qed.

Lemma c03_line : line_l1_ok c (expand lens lv) pl (the_lo e text cls lv pl i j) = true.
Proof.
  unfold line_l1_ok. rewrite fl_line, l1_expected_line.
  rewrite (fl_rl e _ text Hvalid _ _ _ _ _ C), (fl_rlc e _ text Hvalid _ _ _ _ _ C).
  unfold okb. rewrite nat_list_eqb_refl. cbn [andb].
  rewrite case_chars_view. fold e text chars lens.
  pose proof (fl_L_length e _ text _ _ _ _ _ C) as HL. fold chars in HL.
  unfold the_LV. fold chars lens.
  rewrite at_starts_expand;
    [| exact (fl_lens_pos e text Hvalid) | rewrite HL; unfold lens; rewrite map_length; reflexivity].
  rewrite opt_eqb2_Some, HL, Nat.eqb_refl. reflexivity.
Qed.
End PerLine.

Lemma c03_final_proof : C03_final.
Proof.
  intros c Hvc. pose proof Hvc as (_ & Hv & _).
  destruct (case_lines_forall c (line_l1_ok c) Hvc) as (B & PI & EB & EP & H1 & H2).
  { intros. apply c03_line; assumption. }
  unfold C03_judge. rewrite EB, EP. cbn [okb]. rewrite H1, H2. reflexivity.
Qed.
