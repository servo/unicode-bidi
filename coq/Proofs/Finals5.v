(* Proofs/Finals5.v — final-form theorem C06 (reorder_line = the line's characters permuted by L2 of the
   per-character L1 levels, for text without unpaired surrogates), for every valid case. *)
From BidiVerif Require Import Base ModelText ModelLine Spec Obs Judge Stmts Stmts2 Stmts5.
From BidiVerif.Proofs Require Import ListLib Units JudgeEqb.
From BidiVerif.Proofs Require Import L1 LLReorderLine ObsValid Finals2.
From BidiVerif.Proofs Require Import ReorderSpec.
From Coq Require Import Permutation.

Lemma decode16_no_surr : forall t,
  forallb (fun u => negb (is_hi u || is_lo u)) t = true -> decode16 t = map (fun u => (u, 1)) t.
Proof.
  induction t as [|u r IH]; intros H; [reflexivity|].
  cbn [forallb] in H. apply andb_true_iff in H as [Hu Hr].
  apply negb_true_iff, orb_false_iff in Hu as [Hh Hl].
  cbn [decode16 map]. rewrite Hh, Hl, (IH Hr). reflexivity.
Qed.

Lemma encode_small_all : forall t, is_u16 t -> flat_map encode_utf16 t = t.
Proof.
  induction t as [|u r IH]; intros H; [reflexivity|].
  inversion H as [|a b Hu Hr]; subst a b. cbn [flat_map].
  rewrite (encode_utf16_small u Hu), (IH Hr). reflexivity.
Qed.

Lemma wf_of_unpaired_free c : tc_enc c = U8 \/ tc_enc c = U16 -> valid_text (tc_enc c) (tc_text c) ->
  unpaired_free c = true -> well_formed (tc_enc c) (tc_text c).
Proof.
  intros [He|He] Hv Hu; unfold well_formed, unpaired_free in *; rewrite He in *.
  - cbn [encode_chars view_of]. rewrite map_map. apply map_id.
  - cbn [encode_chars view_of]. cbn [valid_text] in Hv.
    apply orb_true_iff in Hu as [Hu|Hu].
    + rewrite (decode16_no_surr _ Hu), map_map. cbn [fst]. rewrite map_id.
      apply encode_small_all. exact Hv.
    + apply (list_eqb_eq N.eqb N.eqb_eq) in Hu. rewrite flat_map_map. exact Hu.
Qed.

Lemma nth_sub {A} (d : A) (l : list A) i j x : x < j - i -> nth x (sub l i j) d = nth (i + x) l d.
Proof.
  intros Hx. unfold sub. rewrite !nth_nth_error, nth_error_firstn_lt, nth_error_skipn by exact Hx. reflexivity.
Qed.

Section PerLine.
Variable c : tcase.
Let e := tc_enc c.
Let text := tc_text c.
Let chars := view_of e text.
Let lens := map snd chars.
Let cps := map fst chars.
Hypothesis Hvalid : valid_text e text.
Variables (cls : list bclass) (lv : list nat) (pl i j : nat).
Hypothesis C : line_ctx e (tc_ds c) text cls lv pl i j.
Hypothesis Hwf : well_formed e text.

Let l1v := Spec.l1 pl (sub cls i j) (sub lv i j).

Lemma reorder_expected_line :
  reorder_expected c (expand lens lv) pl (the_line e text i j)
  = Some (encode_chars e (map (fun x => fst (nth x (sub chars i j) (0%N, 0))) (Spec.l2 l1v))).
Proof.
  destruct (line_chars_levels c Hvalid cls lv pl i j C) as (E1 & E2 & E3).
  fold e text chars lens in E1, E2, E3.
  unfold reorder_expected, the_line. fold chars lens. rewrite E1, E2, map_dflt_Some, E3. reflexivity.
Qed.

Lemma c06_line : line_reorder_ok c (expand lens lv) pl (the_lo e text cls lv pl i j) = true.
Proof.
  unfold line_reorder_ok. rewrite fl_line, reorder_expected_line.
  destruct (fl_ro e _ text Hvalid _ _ _ _ _ C) as (out & Eo & _ & Ho).
  rewrite Eo, (Ho Hwf). cbn [okb]. unfold the_RO. fold chars cps l1v.
  replace (map (fun x => nth (i + x) cps 0%N) (Spec.l2 l1v))
    with (map (fun x => fst (nth x (sub chars i j) (0%N, 0))) (Spec.l2 l1v)); [apply N_list_eqb_refl|].
  (* L2 permutes the positions 0 .. j-i-1 of the line *)
  destruct C as [Hc Hl Hij Hj H126 Hpl _]. fold chars in Hc, Hl, Hj.
  assert (Hlen : length l1v = j - i) by (unfold l1v; rewrite l1_length; rewrite !sub_length by lia; reflexivity).
  apply map_ext_in. intros x Hx.
  apply (Permutation_in _ (l2_perm l1v)), in_seq in Hx. rewrite Hlen in Hx.
  rewrite nth_sub by lia. unfold cps.
  change 0%N with (fst (0%N, 0)) at 2. rewrite map_nth. reflexivity.
Qed.
End PerLine.

Lemma c06_final_proof : C06_final.
Proof.
  intros c Hvc. unfold C06_judge.
  destruct (unpaired_free c) eqn:Eu; [|reflexivity]. cbn [negb].
  pose proof Hvc as (Henc & Hv & _).
  pose proof (wf_of_unpaired_free c Henc Hv Eu) as Hwf.
  destruct (case_lines_forall c (line_reorder_ok c) Hvc) as (B & PI & EB & EP & H1 & H2).
  { intros. apply c06_line; assumption. }
  rewrite EB, EP. cbn [okb]. rewrite H1, H2. reflexivity.
Qed.
