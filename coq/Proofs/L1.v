(* Proofs/L1.v — C03: the model of reorder_levels (rule L1 on one line, per code unit, repaired code)
   computes the per-character specification Spec.l1, expanded to code units.

   [l1_lru] is a LEFT-TO-RIGHT, unit-level function that carries the open run of reset candidates
   explicitly (provisional levels [openu]); it agrees with the right-to-left specification
   l1_reset_flags/l1_apply ([l1_lru_spec]).  The model fold, followed by the final reset, computes l1_lru
   ([l1_fold_grouped]); every set_range / get is shown to be in bounds on the way.  This gives the routine
   on expansions of character-level vectors ([reorder_levels_expand]); C03 follows because a uniform
   level vector is the expansion of its values at character starts ([uniform_expand]). *)
From BidiVerif Require Import Base ModelText ModelLine Spec Judge Stmts.
From BidiVerif.Proofs Require Import ListLib Units.

Lemma set_range_app3 {A} (s : nat) (lv a b c : list A) (f t : nat) (x : A) :
  lv = a ++ b ++ c -> f = length a -> t = length a + length b ->
  set_range s lv f t x = Ok (a ++ repeat x (length b) ++ c).
Proof.
  intros -> -> ->. unfold set_range.
  assert (Hb : ((length a <=? length a + length b) && (length a + length b <=? length (a ++ b ++ c))) = true).
  { apply andb_true_iff; split; apply Nat.leb_le; rewrite ?app_length; lia. }
  rewrite Hb. f_equal.
  rewrite firstn_length_app.
  replace (length a + length b - length a) with (length b) by lia.
  f_equal. f_equal.
  rewrite app_assoc, <- app_length. apply skipn_length_app.
Qed.

Lemma get_app_cons {A} (s : nat) (lv a b : list A) (x : A) (i : nat) :
  lv = a ++ x :: b -> i = length a -> get s lv i = Ok x.
Proof.
  intros -> ->. apply get_mid.
Qed.

(* the four behaviours of a class under L1 *)

Definition kgroup (k : bclass) : nat :=
  match k with
  | B | SS => 0
  | WS | FSI | LRI | RLI | PDI => 1
  | RLE | LRE | RLO | LRO | PDF | BN => 2
  | _ => 3
  end.

Lemma kgroup_case {T} k (x0 x1 x2 x3 : T) :
  match k with
  | B | SS => x0
  | WS | FSI | LRI | RLI | PDI => x1
  | RLE | LRE | RLO | LRO | PDF | BN => x2
  | _ => x3
  end = match kgroup k with 0 => x0 | 1 => x1 | 2 => x2 | _ => x3 end.
Proof. destruct k; reflexivity. Qed.

Lemma is_removed_kgroup k : is_removed k = (kgroup k =? 2).
Proof. destruct k; reflexivity. Qed.

Lemma l1_reset_flags_cons c r :
  l1_reset_flags (c :: r) =
  match kgroup c with
  | 0 => (true :: fst (l1_reset_flags r), true)
  | 1 | 2 => (snd (l1_reset_flags r) :: fst (l1_reset_flags r), snd (l1_reset_flags r))
  | _ => (false :: fst (l1_reset_flags r), false)
  end.
Proof.
  cbn [l1_reset_flags]. destruct (l1_reset_flags r) as [fl st]. destruct c; reflexivity.
Qed.

Lemma l1_reset_flags_length cls : length (fst (l1_reset_flags cls)) = length cls.
Proof.
  induction cls as [|c r IH]; [reflexivity|].
  rewrite l1_reset_flags_cons. destruct (kgroup c) as [|[|[|g]]]; cbn [fst length]; rewrite IH; reflexivity.
Qed.

Lemma l1_apply_length pl : forall cls prev fl lev,
  length fl = length cls -> length lev = length cls ->
  length (l1_apply pl prev cls fl lev) = length cls.
Proof.
  induction cls as [|c cr IH]; intros prev [|f fr] [|l lr] H1 H2; cbn [length] in *; try discriminate;
    [reflexivity|].
  cbn [l1_apply length]. f_equal. apply IH; lia.
Qed.

Lemma l1_length pl cls lev : length lev = length cls -> length (Spec.l1 pl cls lev) = length cls.
Proof.
  intros H. unfold Spec.l1. apply l1_apply_length; [apply l1_reset_flags_length | exact H].
Qed.

Lemma l1_apply_Forall (P : nat -> Prop) pl : P pl -> forall cls flags lev prev,
  P prev -> Forall P lev -> Forall P (l1_apply pl prev cls flags lev).
Proof.
  intros Hpl. induction cls as [|c cr IH]; intros flags lev prev Hp Hl; [constructor|].
  destruct flags as [|f fr]; [constructor|]. destruct lev as [|l lr]; [constructor|].
  inversion Hl as [|x y Hx Hy]; subst x y.
  cbn [l1_apply].
  assert (Q : P (if f then pl else if is_removed c then prev else l)).
  { destruct f; [exact Hpl|]. destruct (is_removed c); assumption. }
  constructor; [exact Q|]. apply IH; assumption.
Qed.

Lemma l1_Forall (P : nat -> Prop) pl cls lev : P pl -> Forall P lev -> Forall P (l1 pl cls lev).
Proof. intros Hp Hl. unfold l1. apply l1_apply_Forall; assumption. Qed.

(* left-to-right, unit-level formulation: [openu] = provisional unit levels of the open run *)

Fixpoint l1_lru (pl prev : nat) (openu : list nat) (lens : list nat) (cls : list bclass)
         (lev : list nat) : list nat :=
  match lens, cls, lev with
  | n :: lens', k :: cls', l :: lev' =>
    match kgroup k with
    | 0 => repeat pl (length openu) ++ repeat pl n ++ l1_lru pl pl [] lens' cls' lev'
    | 1 => l1_lru pl l (openu ++ repeat l n) lens' cls' lev'
    | 2 => l1_lru pl prev (openu ++ repeat prev n) lens' cls' lev'
    | _ => openu ++ repeat l n ++ l1_lru pl l [] lens' cls' lev'
    end
  | _, _, _ => repeat pl (length openu)
  end.

Lemma l1_apply_prev_irrelevant pl cls : forall p1 p2 lev,
  snd (l1_reset_flags cls) = true ->
  l1_apply pl p1 cls (fst (l1_reset_flags cls)) lev = l1_apply pl p2 cls (fst (l1_reset_flags cls)) lev.
Proof.
  induction cls as [|k cr IH]; intros p1 p2 lev H.
  - reflexivity.
  - rewrite l1_reset_flags_cons in *.
    destruct lev as [|l lr].
    + destruct (kgroup k) as [|[|[|g]]]; reflexivity.
    + destruct (kgroup k) as [|[|[|g]]]; cbn [fst snd] in *.
      * reflexivity.
      * cbn [l1_apply]. rewrite H. reflexivity.
      * cbn [l1_apply]. rewrite H. reflexivity.
      * discriminate.
Qed.

Lemma l1_lru_spec pl cls : forall lens lev prev openu,
  length lens = length cls -> length lev = length cls ->
  l1_lru pl prev openu lens cls lev =
  (if snd (l1_reset_flags cls) then repeat pl (length openu) else openu)
  ++ expand lens (l1_apply pl prev cls (fst (l1_reset_flags cls)) lev).
Proof.
  induction cls as [|k cr IH]; intros [|n lens] [|l lev] prev openu H1 H2;
    cbn [length] in *; try discriminate.
  - cbn. rewrite app_nil_r. reflexivity.
  - injection H1 as H1. injection H2 as H2.
    rewrite l1_reset_flags_cons. cbn [l1_lru].
    pose proof (l1_apply_prev_irrelevant pl cr) as Hirr.
    destruct (kgroup k) as [|[|[|g]]] eqn:G; cbn [fst snd l1_apply]; rewrite ?is_removed_kgroup, ?G;
      cbn [Nat.eqb]; rewrite IH by assumption.
    + rewrite expand_cons.
      destruct (snd (l1_reset_flags cr)); reflexivity.
    + destruct (snd (l1_reset_flags cr)) eqn:St.
      * rewrite expand_cons, app_length, repeat_length, repeat_app, <- app_assoc.
        rewrite (Hirr l pl) by reflexivity. reflexivity.
      * rewrite expand_cons, <- app_assoc. reflexivity.
    + destruct (snd (l1_reset_flags cr)) eqn:St.
      * rewrite expand_cons, app_length, repeat_length, repeat_app, <- app_assoc.
        rewrite (Hirr prev pl) by reflexivity. reflexivity.
      * rewrite expand_cons, <- app_assoc. reflexivity.
    + rewrite expand_cons.
      destruct (snd (l1_reset_flags cr)); reflexivity.
Qed.

Lemma l1_lru_l1 pl lens cls lev :
  length lens = length cls -> length lev = length cls ->
  l1_lru pl pl [] lens cls lev = expand lens (Spec.l1 pl cls lev).
Proof.
  intros H1 H2. rewrite l1_lru_spec by assumption. unfold Spec.l1.
  destruct (snd (l1_reset_flags cls)); reflexivity.
Qed.

Section Model.
Variable e : enc.
Variable pl : nat.

Definition l1_finish (st : l1_state) : res (list nat) :=
  match l1_from st with
  | Some f => set_range 1196 (l1_levels st) f (length (l1_levels st)) pl
  | None => Ok (l1_levels st)
  end.

(* [from = None] behaves like "an empty run is open at the current position" *)
Definition from_ok (from : option nat) (done openu : list nat) : Prop :=
  from = Some (length done) \/ (from = None /\ openu = []).

(* the state after a character of group g with level l and n units: open run marker, previous level, finished
   part, open run *)
Definition grp_next (g prev : nat) (done openu : list nat) (l n : nat) : option nat * nat * list nat * list nat :=
  match g with
  | 0 => (None, pl, done ++ repeat pl (length openu) ++ repeat pl n, [])
  | 1 => (Some (length done), l, done, openu ++ repeat l n)
  | 2 => (Some (length done), prev, done, openu ++ repeat prev n)
  | _ => (None, l, done ++ openu ++ repeat l n, [])
  end.

Lemma grp_next_lru k prev done openu l n lens cls lev :
  let '(from', prev', done', openu') := grp_next (kgroup k) prev done openu l n in
  done' ++ l1_lru pl prev' openu' lens cls lev = done ++ l1_lru pl prev openu (n :: lens) (k :: cls) (l :: lev) /\
  from_ok from' done' openu' /\ length done' + length openu' = length done + length openu + n.
Proof.
  cbn [l1_lru]. unfold from_ok.
  destruct (kgroup k) as [|[|[|g]]]; cbn [grp_next]; rewrite <- ?app_assoc, ?app_length, ?repeat_length;
    cbn [length]; (split; [reflexivity | split; [auto | lia]]).
Qed.

Lemma l1_step_grouped lc done openu l n rest from prev i c k :
  get 1158 lc i = Ok k -> char_len e c = S n -> i = length done + length openu ->
  from_ok from done openu ->
  l1_step e false lc pl
          {| l1_from := from; l1_prev := prev; l1_levels := done ++ openu ++ repeat l (S n) ++ rest |}
          (i, c)
  = let '(from', prev', done', openu') := grp_next (kgroup k) prev done openu l (S n) in
    Ok {| l1_from := from'; l1_prev := prev'; l1_levels := done' ++ openu' ++ rest |}.
Proof.
  intros Hget Hlen Hi Hfrom.
  assert (Hfi : match from with Some f => Some f | None => Some i end = Some (length done)).
  { destruct Hfrom as [-> | [-> ->]]; [reflexivity|]. cbn [length] in Hi. f_equal. lia. }
  (* the writes and reads that can occur *)
  assert (Hsep : forall s, set_range s (done ++ openu ++ repeat l (S n) ++ rest) (length done) (i + S n) pl
                 = Ok (done ++ repeat pl (length openu) ++ repeat pl (S n) ++ rest)).
  { intros s. rewrite (set_range_app3 _ _ done (openu ++ repeat l (S n)) rest).
    - rewrite app_length, repeat_length, repeat_app, <- app_assoc. reflexivity.
    - rewrite <- app_assoc. reflexivity.
    - reflexivity.
    - rewrite app_length, repeat_length. lia. }
  assert (Hrem : forall s, set_range s (done ++ openu ++ repeat l (S n) ++ rest) i (i + S n) prev
                 = Ok (done ++ openu ++ repeat prev (S n) ++ rest)).
  { intros s. rewrite (set_range_app3 _ _ (done ++ openu) (repeat l (S n)) rest).
    - rewrite repeat_length, <- app_assoc. reflexivity.
    - rewrite <- app_assoc. reflexivity.
    - rewrite app_length. lia.
    - rewrite app_length, repeat_length. lia. }
  assert (Hg : forall s x, get s (done ++ openu ++ repeat x (S n) ++ rest) i = Ok x).
  { intros s x. apply (get_app_cons _ _ (done ++ openu) (repeat x n ++ rest)).
    - rewrite <- app_assoc. reflexivity.
    - rewrite app_length. lia. }
  assert (Hg0 : forall s, get s (done ++ repeat pl (length openu) ++ repeat pl (S n) ++ rest) i = Ok pl).
  { intros s. apply (get_app_cons _ _ (done ++ repeat pl (length openu)) (repeat pl n ++ rest)).
    - rewrite <- app_assoc. reflexivity.
    - rewrite app_length, repeat_length. lia. }
  unfold l1_step. rewrite Hget, Hlen. cbn [bind l1_from l1_prev l1_levels]. rewrite Hfi, kgroup_case.
  destruct (kgroup k) as [|[|[|g]]]; cbn [bind]; unfold grp_next.
  - rewrite Hsep. cbn [bind]. rewrite Hg0. rewrite <- !app_assoc. reflexivity.
  - rewrite Hg. rewrite <- !app_assoc. reflexivity.
  - rewrite Hrem. cbn [bind]. rewrite Hg. rewrite <- !app_assoc. reflexivity.
  - rewrite Hg. rewrite <- !app_assoc. reflexivity.
Qed.

Lemma l1_fold_grouped : forall chars cls lev lc lv pcls done openu from prev pos,
  Forall (fun ch => snd ch = char_len e (fst ch) /\ 0 < snd ch) chars ->
  length cls = length chars -> length lev = length chars ->
  lc = pcls ++ expand (map snd chars) cls ->
  lv = done ++ openu ++ expand (map snd chars) lev ->
  pos = length pcls -> pos = length done + length openu ->
  from_ok from done openu ->
  bind (l1_fold e false lc pl {| l1_from := from; l1_prev := prev; l1_levels := lv |}
                (map (fun x : nat * N * nat => (fst (fst x), snd (fst x))) (positions pos chars)))
       l1_finish
  = Ok (done ++ l1_lru pl prev openu (map snd chars) cls lev).
Proof.
  induction chars as [|[c len] r IH];
    intros [|k cls] [|l lev] lc lv pcls done openu from prev pos HF H1 H2 Hlc Hlv Hp1 Hp2 Hfrom;
    cbn [length] in *; try discriminate.
  - (* end of line: the open run is reset *)
    cbn [map positions l1_fold bind l1_lru]. unfold l1_finish. cbn [l1_from l1_levels].
    rewrite expand_nil_r in Hlv.
    destruct Hfrom as [-> | [-> ->]].
    + rewrite (set_range_app3 _ _ done openu []).
      * rewrite app_nil_r. reflexivity.
      * exact Hlv.
      * reflexivity.
      * subst lv. rewrite !app_length. cbn [length]. lia.
    + subst lv. reflexivity.
  - injection H1 as H1. injection H2 as H2.
    inversion HF as [|x y [Hlen Hpos] HF']; subst x y. cbn [fst snd] in Hlen, Hpos.
    destruct len as [|n]; [lia|].
    cbn [map positions l1_fold fst snd] in *.
    rewrite !expand_cons in *. subst lv.
    rewrite (l1_step_grouped lc done openu l n (expand (map snd r) lev) from prev pos c k);
      [ | subst lc; apply (get_app_cons _ _ pcls (repeat k n ++ expand (map snd r) cls));
          [reflexivity | exact Hp1]
        | symmetry; exact Hlen | exact Hp2 | exact Hfrom ].
    pose proof (grp_next_lru k prev done openu l (S n) (map snd r) cls lev) as G.
    destruct (grp_next (kgroup k) prev done openu l (S n)) as [[[from' prev'] done'] openu'].
    destruct G as (G1 & G2 & G3). cbn [bind]. rewrite <- G1.
    apply (IH cls lev lc _ (pcls ++ repeat k (S n)) done' openu' from' prev' (pos + S n)); try assumption.
    + subst lc. rewrite <- app_assoc. reflexivity.
    + reflexivity.
    + rewrite app_length, repeat_length. lia.
    + lia.
Qed.

End Model.

(* a uniform vector is the expansion of its values at the character starts *)

Definition dflt (x : option nat) : nat := match x with Some l => l | None => 0 end.

Lemma forallb_eqb_repeat x : forall blk,
  forallb (Nat.eqb x) blk = true -> blk = repeat x (length blk).
Proof.
  induction blk as [|y t IH]; intros H; [reflexivity|].
  cbn [forallb] in H. apply andb_true_iff in H as [Hy Ht].
  apply Nat.eqb_eq in Hy. subst y. cbn [length repeat]. f_equal. apply IH, Ht.
Qed.

Lemma uniform_expand_from : forall lens pre w,
  Forall (fun n => 0 < n) lens ->
  uniform Nat.eqb lens w = true ->
  w = expand lens (map dflt (map (nth_error (pre ++ w)) (starts_from (length pre) lens))).
Proof.
  induction lens as [|n lens IH]; intros pre w HF Hu.
  - cbn [uniform] in Hu. destruct w; [reflexivity | discriminate].
  - inversion HF as [|x y Hn HF']; subst x y.
    cbn [uniform] in Hu. cbn [starts_from map].
    rewrite expand_cons.
    destruct (firstn n w) as [|x blk] eqn:Efn.
    + apply andb_true_iff in Hu as [Hz _]. apply Nat.eqb_eq in Hz. lia.
    + apply andb_true_iff in Hu as [Hu Hrest]. apply andb_true_iff in Hu as [Hlen Hall].
      apply Nat.eqb_eq in Hlen. apply forallb_eqb_repeat in Hall. rewrite Hlen in Hall.
      assert (Hw : w = repeat x n ++ skipn n w).
      { rewrite <- Hall, <- Efn. symmetry. apply firstn_skipn. }
      assert (Hx : nth_error (pre ++ w) (length pre) = Some x).
      { rewrite nth_error_app2 by lia. rewrite Nat.sub_diag, Hw.
        destruct n as [|n']; [lia|]. reflexivity. }
      rewrite Hx. cbn [dflt].
      rewrite Hw at 1. f_equal.
      assert (Hpre : pre ++ w = (pre ++ repeat x n) ++ skipn n w).
      { rewrite <- app_assoc, <- Hw. reflexivity. }
      rewrite Hpre.
      replace (length pre + n) with (length (pre ++ repeat x n))
        by (rewrite app_length, repeat_length; reflexivity).
      apply IH; assumption.
Qed.

Lemma uniform_expand lens w :
  Forall (fun n => 0 < n) lens ->
  uniform Nat.eqb lens w = true ->
  w = expand lens (map dflt (at_starts lens w)).
Proof.
  intros HF Hu. unfold at_starts. exact (uniform_expand_from lens [] w HF Hu).
Qed.

Lemma reorder_levels_expand e line_text chars cls lev pl :
  line_view e line_text chars ->
  length cls = length chars -> length lev = length chars ->
  reorder_levels e false (expand (map snd chars) cls) (expand (map snd chars) lev) line_text pl
  = Ok (expand (map snd chars) (Spec.l1 pl cls lev)).
Proof.
  intros [Hidx Hch] Hcls Hlev.
  set (lens := map snd chars) in *.
  assert (Hlens : length lens = length cls).
  { unfold lens. rewrite map_length. symmetry. exact Hcls. }
  assert (Hlev' : length lev = length cls) by (rewrite Hlev; symmetry; exact Hcls).
  rewrite <- (l1_lru_l1 pl lens cls lev Hlens Hlev').
  unfold reorder_levels. rewrite Hidx.
  change (bind (l1_fold e false (expand lens cls) pl
                        {| l1_from := Some 0; l1_prev := pl; l1_levels := expand lens lev |}
                        (map (fun x : nat * N * nat => (fst (fst x), snd (fst x))) (positions 0 chars)))
               (l1_finish pl)
          = Ok ([] ++ l1_lru pl pl [] lens cls lev)).
  apply (l1_fold_grouped e pl chars cls lev (expand lens cls) (expand lens lev) [] [] [] (Some 0) pl 0);
    try reflexivity; try assumption.
  left. reflexivity.
Qed.

Lemma starts_from_length l : forall p, length (starts_from p l) = length l.
Proof. induction l as [|a l IH]; intros p; [reflexivity|]. cbn [starts_from length]. f_equal. apply IH. Qed.

(* the length hypothesis of the statement follows from uniformity and is not used *)
Lemma reorder_levels_is_L1 : C03_statement.
Proof.
  unfold C03_statement. intros e line_text chars cls line_levels pl Hv Hcls _ Hu.
  fold dflt.
  assert (Hpos : Forall (fun n => 0 < n) (map snd chars)).
  { apply Forall_map. eapply Forall_impl; [|exact (proj2 Hv)]. cbn beta. intros ch [_ H]. exact H. }
  rewrite (uniform_expand _ line_levels Hpos Hu) at 1.
  apply reorder_levels_expand; [exact Hv | exact Hcls |].
  unfold at_starts. rewrite !map_length, starts_from_length. apply map_length.
Qed.
