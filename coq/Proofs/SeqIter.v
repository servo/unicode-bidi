(* Proofs/SeqIter.v — the iterators of an isolating run sequence (prepare.rs: iter_forwards_from,
   iter_backwards_from) and the two index loops of implicit.rs that run over what they return
   ([set_while_bn], [find_value_by]), in closed form. *)
From BidiVerif Require Import Base ModelResolve.
From BidiVerif.Proofs Require Import ListLib.

Lemma iter_forwards_nth runs pos idx r : nth_error runs idx = Some r ->
  iter_forwards_from runs pos idx = Ok (range pos (snd r) ++ flat_map run_range (skipn (S idx) runs)).
Proof.
  intros E. unfold iter_forwards_from. pose proof (nth_error_lt _ _ _ E).
  destruct (Nat.ltb_spec (length runs) idx); [lia|]. rewrite (skipn_nth_error _ _ _ E). reflexivity.
Qed.

Lemma iter_backwards_nth runs pos idx r : nth_error runs idx = Some r ->
  iter_backwards_from runs pos idx =
    Ok (rev (range (fst r) pos) ++ flat_map (fun r => rev (run_range r)) (rev (firstn idx runs))).
Proof.
  intros E. unfold iter_backwards_from. pose proof (nth_error_lt _ _ _ E).
  destruct (Nat.ltb_spec (length runs) idx); [lia|]. rewrite E. reflexivity.
Qed.

Lemma iter_forwards_inv runs pos idx fw : iter_forwards_from runs pos idx = Ok fw ->
  exists r, nth_error runs idx = Some r /\ fw = range pos (snd r) ++ flat_map run_range (skipn (S idx) runs).
Proof.
  intros H. destruct (nth_error runs idx) as [r|] eqn:E.
  - exists r. rewrite (iter_forwards_nth _ _ _ _ E) in H. inversion H. auto.
  - unfold iter_forwards_from in H. apply nth_error_None in E.
    destruct (length runs <? idx); [discriminate|]. rewrite skipn_all2 in H by exact E. discriminate.
Qed.

Lemma iter_forwards_incl runs pos idx r : nth_error runs idx = Some r -> fst r <= pos ->
  incl (range pos (snd r) ++ flat_map run_range (skipn (S idx) runs)) (flat_map run_range runs).
Proof.
  intros E Hp j Hj. apply in_flat_map. apply in_app_or in Hj as [Hj|Hj].
  - exists r. split; [eapply nth_error_In; eauto|]. apply in_range in Hj. apply in_range. lia.
  - apply in_flat_map in Hj as (r' & Hr' & Hj). exists r'. split; [eapply in_skipn; eauto|assumption].
Qed.

Lemma iter_backwards_incl runs pos idx r : nth_error runs idx = Some r -> pos <= snd r ->
  incl (rev (range (fst r) pos) ++ flat_map (fun r => rev (run_range r)) (rev (firstn idx runs)))
       (flat_map run_range runs).
Proof.
  intros E Hp j Hj. apply in_flat_map. apply in_app_or in Hj as [Hj|Hj].
  - exists r. split; [eapply nth_error_In; eauto|]. apply in_rev, in_range in Hj. apply in_range. lia.
  - apply in_flat_map in Hj as (r' & Hr' & Hj). exists r'. split.
    + apply in_rev in Hr'. eapply in_firstn; eauto.
    + apply in_rev in Hj. assumption.
Qed.

(* [set_while_bn s pc l x] writes x on [bnpre pc l], the maximal prefix of l whose positions hold BN *)
Fixpoint bnpre (pc : list bclass) (l : list nat) : list nat :=
  match l with
  | [] => []
  | j :: r => if nth j pc BN =c BN then j :: bnpre pc r else []
  end.

Fixpoint bnsuf (pc : list bclass) (l : list nat) : list nat :=
  match l with
  | [] => []
  | j :: r => if nth j pc BN =c BN then bnsuf pc r else l
  end.

Lemma bnpre_suf pc l : l = bnpre pc l ++ bnsuf pc l.
Proof.
  induction l as [|j r IH]; [reflexivity|]. cbn [bnpre bnsuf].
  destruct (nth j pc BN =c BN); [cbn [app]; f_equal; exact IH | reflexivity].
Qed.

Lemma bnpre_bn pc l j : In j (bnpre pc l) -> nth j pc BN = BN.
Proof.
  induction l as [|a r IH]; [intros []|]. cbn [bnpre].
  destruct (nth a pc BN =c BN) eqn:E; [|intros []].
  intros [<-|H]; [apply ceq_eq; exact E | apply IH; exact H].
Qed.

Lemma bnpre_ext pc pc' l : (forall j, In j l -> nth j pc' BN = nth j pc BN) -> bnpre pc' l = bnpre pc l.
Proof.
  induction l as [|a r IH]; intros H; [reflexivity|]. cbn [bnpre].
  rewrite (H a (or_introl eq_refl)). rewrite IH; [reflexivity|].
  intros j Hj. apply H. right. exact Hj.
Qed.

Lemma swb_bnpre s x : forall l pc,
  NoDup l -> (forall j, In j l -> j < length pc) ->
  set_while_bn s pc l x = Ok (lset_all pc (bnpre pc l) x).
Proof.
  induction l as [|u l IH]; intros pc Hnd Hb; [reflexivity|].
  cbn [set_while_bn bnpre].
  assert (Hu : u < length pc) by (apply Hb; left; reflexivity).
  rewrite (get_some _ _ _ _ (nth_error_nth' pc BN Hu)). cbn [bind].
  destruct (nth u pc BN =c BN) eqn:E; [|reflexivity].
  rewrite upd_lset by exact Hu. cbn [bind lset_all].
  inversion Hnd as [|? ? Hni Hnd']; subst.
  rewrite IH; [| exact Hnd' | intros j Hj; rewrite lset_length; apply Hb; right; exact Hj].
  rewrite (bnpre_ext pc (lset pc u x) l); [reflexivity|].
  intros j Hj. apply nth_lset_neq. intros ->. contradiction.
Qed.

Lemma set_while_bn_length s x : forall idxs pc r, set_while_bn s pc idxs x = Ok r -> length r = length pc.
Proof.
  induction idxs as [|i rest IH]; intros pc r H; cbn [set_while_bn] in H; [inversion H; reflexivity|].
  apply bind_ok in H as (c & _ & H). destruct (c =c BN); [|inversion H; reflexivity].
  apply bind_ok in H as (pc' & Hu & H). apply upd_ok_inv in Hu as [_ ->].
  rewrite (IH _ _ H). apply lset_length.
Qed.

(* [find_value_by s p pc l] is [pfind p pc l], the first class along l that satisfies p *)
Fixpoint pfind (p : bclass -> bool) (pc : list bclass) (l : list nat) : option bclass :=
  match l with
  | [] => None
  | j :: r => if p (nth j pc BN) then Some (nth j pc BN) else pfind p pc r
  end.

Lemma fvb_pfind s p pc : forall l, (forall j, In j l -> j < length pc) ->
  find_value_by s p pc l = Ok (pfind p pc l).
Proof.
  induction l as [|j r IH]; intros Hb; [reflexivity|].
  cbn [find_value_by pfind].
  rewrite (get_some _ _ _ _ (nth_error_nth' pc BN (Hb j (or_introl eq_refl)))). cbn [bind].
  destruct (p (nth j pc BN)); [reflexivity|]. apply IH. intros j' Hj'. apply Hb. right. exact Hj'.
Qed.

Lemma pfind_ext p pc pc' l : (forall j, In j l -> nth j pc' BN = nth j pc BN) -> pfind p pc' l = pfind p pc l.
Proof.
  induction l as [|a r IH]; intros H; [reflexivity|]. cbn [pfind].
  rewrite (H a (or_introl eq_refl)). rewrite IH; [reflexivity|].
  intros j Hj. apply H. right. exact Hj.
Qed.

Lemma swb_block s x l : forall pc rest,
  NoDup l -> (forall u, In u l -> nth_error pc u = Some BN) ->
  set_while_bn s pc (l ++ rest) x = set_while_bn s (lset_all pc l x) rest x.
Proof.
  induction l as [|u l IH]; intros pc rest Hnd Hbn; [reflexivity|].
  cbn [app set_while_bn lset_all].
  assert (Hu : nth_error pc u = Some BN) by (apply Hbn; left; reflexivity).
  rewrite (get_some _ _ _ _ Hu). cbn [bind]. rewrite ceq_refl.
  rewrite upd_lset by (apply nth_error_lt in Hu; exact Hu). cbn [bind].
  inversion Hnd as [|? ? Hni Hnd']; subst.
  apply IH; [exact Hnd'|].
  intros u' Hu'. rewrite nth_error_lset_neq; [apply Hbn; right; exact Hu'|].
  intros ->. contradiction.
Qed.

Lemma swb_stop s x pc u rest c :
  nth_error pc u = Some c -> c <> BN -> set_while_bn s pc (u :: rest) x = Ok pc.
Proof.
  intros Hu Hc. cbn [set_while_bn]. rewrite (get_some _ _ _ _ Hu). cbn [bind].
  apply ceq_neq in Hc. rewrite Hc. reflexivity.
Qed.

Lemma fvb_skip {A} s (p : A -> bool) v l : forall rest,
  (forall u, In u l -> exists c, nth_error v u = Some c /\ p c = false) ->
  find_value_by s p v (l ++ rest) = find_value_by s p v rest.
Proof.
  induction l as [|u l IH]; intros rest H; [reflexivity|].
  cbn [app find_value_by]. destruct (H u) as (c & Hc & Hp); [left; reflexivity|].
  rewrite (get_some _ _ _ _ Hc). cbn [bind]. rewrite Hp. apply IH.
  intros u' Hu'. apply H. right. exact Hu'.
Qed.

Lemma fvb_hit {A} s (p : A -> bool) v u rest c :
  nth_error v u = Some c -> p c = true -> find_value_by s p v (u :: rest) = Ok (Some c).
Proof.
  intros Hc Hp. cbn [find_value_by]. rewrite (get_some _ _ _ _ Hc). cbn [bind]. rewrite Hp. reflexivity.
Qed.

