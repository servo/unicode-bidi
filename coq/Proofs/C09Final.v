(* Proofs/C09Final.v — C09 in final (judge) form: the observation of a UTF-16 case and of its UTF-8 twin
   are the two expansions [lift_obs] of ONE character-level analysis over the same character lines
   (ObsValid.model_obs_valid); the judge reads each expansion back at the character starts
   ([at_starts_expand]) and maps unit ranges back to character ranges ([char_range_urun]), which gives
   the same character-level values on both sides. *)
From BidiVerif Require Import Base ModelText ModelResolve Spec Obs Judge Stmts Stmts2 Stmts3 Stmts5.
From BidiVerif.Proofs Require Import ListLib Units JudgeEqb.
From BidiVerif.Proofs Require Import CharAnalysis ObsValid Finals5.

Lemma unit_to_char_from_ustart lens : Forall (fun n => 0 < n) lens -> forall i k pos, i <= length lens ->
  unit_to_char_from k pos lens (pos + ustart lens i) = Some (k + i).
Proof.
  induction 1 as [|l lens Hl Hp IH]; intros i k pos Hi; cbn [length] in Hi.
  - assert (i = 0) by lia. subst i. rewrite ustart_nil.
    cbn [unit_to_char_from]. rewrite !Nat.add_0_r, Nat.eqb_refl. reflexivity.
  - destruct i as [|i].
    + rewrite ustart_0. cbn [unit_to_char_from]. rewrite !Nat.add_0_r, Nat.eqb_refl. reflexivity.
    + rewrite ustart_cons. cbn [unit_to_char_from].
      destruct (Nat.eqb_spec pos (pos + (l + ustart lens i))) as [E|_]; [lia|].
      replace (pos + (l + ustart lens i)) with ((pos + l) + ustart lens i) by lia.
      rewrite IH by lia. f_equal. lia.
Qed.

Lemma ustart_min lens a : ustart lens a = ustart lens (Nat.min a (length lens)).
Proof.
  destruct (Nat.le_ge_cases a (length lens)) as [H|H]; [rewrite Nat.min_l by exact H; reflexivity|].
  rewrite Nat.min_r by exact H. rewrite !ustart_all by lia. reflexivity.
Qed.

Lemma char_range_urun lens r : Forall (fun n => 0 < n) lens ->
  char_range lens (urun lens r) = Some (Nat.min (fst r) (length lens), Nat.min (snd r) (length lens)).
Proof.
  intros Hp. unfold char_range, urun, unit_to_char. cbn [fst snd].
  rewrite (ustart_min lens (fst r)), (ustart_min lens (snd r)).
  rewrite !(unit_to_char_from_ustart lens Hp _ 0 0 (Nat.le_min_r _ _) : unit_to_char_from 0 0 lens (ustart lens _) = _).
  reflexivity.
Qed.

(* twin cases share one list of character lines; an end past the last character denotes the end of the text
   in both encodings, so the lines are clamped to the text first *)
Definition norm_lines (k : nat) (cl : list (nat * nat)) : list (nat * nat) :=
  map (fun r => (fst r, Nat.min (snd r) k)) cl.

Lemma norm_lines_urun lens cl : map (urun lens) cl = map (urun lens) (norm_lines (length lens) cl).
Proof.
  unfold norm_lines. rewrite map_map. apply map_ext. intros [a b]. unfold urun. cbn [fst snd].
  rewrite <- ustart_min. reflexivity.
Qed.

Lemma norm_lines_in lens cl : Forall (fun n => 0 < n) lens ->
  Forall (valid_line lens) (map (urun lens) cl) ->
  Forall (run_in (length lens)) (norm_lines (length lens) cl).
Proof.
  intros Hp H. unfold norm_lines. rewrite Forall_map in *.
  eapply Forall_impl; [|exact H]. intros [a b] (i & j & Hij & Hj & E1 & E2).
  unfold urun in E1, E2. cbn [fst snd] in E1, E2. unfold run_in. cbn [fst snd].
  pose proof (ustart_lt lens Hp i j Hij Hj) as Hlt.
  assert (Hab : a < b).
  { destruct (Nat.lt_ge_cases a b) as [X|X]; [exact X|]. pose proof (ustart_mono lens b a X). lia. }
  assert (Hak : a < length lens).
  { destruct (Nat.lt_ge_cases a (length lens)) as [X|X]; [exact X|].
    rewrite (ustart_all lens a X) in E1. pose proof (ustart_le_total lens b). lia. }
  split; [apply Nat.min_glb_lt; assumption | apply Nat.le_min_r].
Qed.

Section Core.
Variable ds : datasource.
Variable t16 : list N.
Variable d : option nat.
Let t8 := map fst (decode16 t16).
Let l16 := map snd (view_of U16 t16).
Let l8 := map snd (view_of U8 t8).
Hypothesis Hv16 : is_u16 t16.

Lemma core_cps8 : map fst (view_of U8 t8) = map fst (view_of U16 t16).
Proof. cbn [view_of]. rewrite map_map. apply map_id. Qed.

Lemma core_len8 : length (view_of U8 t8) = length (view_of U16 t16).
Proof. cbn [view_of]. unfold t8. rewrite !map_length. reflexivity. Qed.

Lemma core_p16 : Forall (fun n => 0 < n) l16.
Proof. exact (fl_lens_pos U16 t16 Hv16). Qed.
Lemma core_p8 : Forall (fun n => 0 < n) l8.
Proof. exact (fl_lens_pos U8 t8 I). Qed.
Lemma core_lens : length l8 = length l16.
Proof. unfold l8, l16. rewrite !map_length. exact core_len8. Qed.

Lemma core_at_starts {A} (eqb : A -> A -> bool) (Hr : forall x, eqb x x = true) (v : list A) :
  length v = length l16 ->
  list_eqb (opt_eqb eqb) (at_starts l16 (expand l16 v)) (at_starts l8 (expand l8 v)) = true.
Proof.
  intros Hl. rewrite !at_starts_expand; [| exact core_p8 | rewrite core_lens; exact Hl | exact core_p16 | exact Hl].
  apply list_eqb_refl. intros o. apply opt_eqb_refl. exact Hr.
Qed.

Lemma core_char_range a b :
  char_range l8 (ustart l8 a, ustart l8 b) = char_range l16 (ustart l16 a, ustart l16 b).
Proof.
  change (char_range l8 (urun l8 (a, b)) = char_range l16 (urun l16 (a, b))).
  rewrite !char_range_urun, core_lens by (exact core_p8 || exact core_p16). reflexivity.
Qed.

Lemma core_paras ps : list_eqb2 (para_agree l16 l8) (map (upara l16) ps) (map (upara l8) ps) = true.
Proof.
  apply list_eqb2_map. intros q _. unfold para_agree. cbn [upara p_start p_end p_level].
  rewrite core_char_range, Nat.eqb_refl, andb_true_r.
  apply opt_eqb_refl, run_eqb_refl.
Qed.

Lemma core_runs runs :
  list_eqb opt_run_eqb (map (char_range l16) (map (urun l16) runs)) (map (char_range l8) (map (urun l8) runs)) = true.
Proof.
  rewrite !map_map. unfold urun. rewrite (map_ext _ _ (fun r => core_char_range (fst r) (snd r))).
  apply list_eqb_refl. intros o. apply opt_eqb_refl, run_eqb_refl.
Qed.

Lemma core_line wf cls lv pl i j :
  (wf = true -> well_formed U16 t16) ->
  line_ctx U16 ds t16 cls lv pl i j -> line_ctx U8 ds t8 cls lv pl i j ->
  line_agree l16 l8 wf (the_lo U16 t16 cls lv pl i j) (the_lo U8 t8 cls lv pl i j) = true.
Proof.
  intros Hwf C16 C8. unfold line_agree.
  rewrite !fl_line, (fl_rl U16 _ t16 Hv16 _ _ _ _ _ C16), (fl_rlc U16 _ t16 Hv16 _ _ _ _ _ C16).
  rewrite (fl_rl U8 _ t8 I _ _ _ _ _ C8), (fl_rlc U8 _ t8 I _ _ _ _ _ C8).
  destruct (fl_vr U16 _ t16 Hv16 _ _ _ _ _ C16) as (V16 & _). destruct (fl_vr U8 _ t8 I _ _ _ _ _ C8) as (V8 & _).
  destruct (fl_ro U16 _ t16 Hv16 _ _ _ _ _ C16) as (o16 & R16 & D16 & W16).
  destruct (fl_ro U8 _ t8 I _ _ _ _ _ C8) as (o8 & R8 & D8 & _).
  rewrite V16, V8, R16, R8. cbn [res_rel snd]. fold l16 l8. unfold the_LV. fold l16 l8.
  unfold the_line. fold l16 l8.
  rewrite core_char_range, nat_list_eqb_refl, core_runs.
  rewrite (core_at_starts Nat.eqb Nat.eqb_refl) by (rewrite (fl_L_length _ _ _ _ _ _ _ _ C16); symmetry; apply map_length).
  rewrite (opt_eqb_refl run_eqb run_eqb_refl). cbn [andb].
  (* the reordered lines: o8 is the character-level result itself *)
  unfold the_RO in D8. rewrite core_cps8 in D8. fold (the_RO U16 t16 cls lv pl i j) in D8.
  cbn [view_of] in D16, D8. rewrite map_map in D8. cbn [fst] in D8. rewrite map_id in D8. subst o8.
  rewrite D16, N_list_eqb_refl. cbn [andb].
  destruct wf; [|reflexivity]. rewrite (W16 (Hwf eq_refl)). apply N_list_eqb_refl.
Qed.

Variables (b : bidi_info) (p : para_bidi_info) (cl : list (nat * nat)).
Hypothesis CA : char_an ds (map fst (view_of U16 t16)) d b p.
Hypothesis Hcl : Forall (run_in (length (view_of U16 t16))) cl.

Theorem c09_core c16 c8 :
  tc_enc c16 = U16 -> tc_text c16 = t16 -> tc_enc c8 = U8 -> tc_text c8 = t8 ->
  C09_judge c16 (lift_obs U16 ds t16 d b p cl) c8 (lift_obs U8 ds t8 d b p cl) = true.
Proof.
  intros Ee16 Et16 Ee8 Et8.
  pose proof CA as CA8. rewrite <- core_cps8 in CA8.
  pose proof Hcl as Hcl8. rewrite <- core_len8 in Hcl8.
  assert (Hk : forall v : list nat, length v = length (map fst (view_of U16 t16)) -> length v = length l16)
    by (intros v ->; unfold l16; rewrite !map_length; reflexivity).
  assert (Hkc : forall v : list bclass, length v = length (map fst (view_of U16 t16)) -> length v = length l16)
    by (intros v ->; unfold l16; rewrite !map_length; reflexivity).
  unfold C09_judge, lift_obs. cbv zeta. rewrite !case_chars_view, Ee16, Et16, Ee8, Et8. fold l16 l8.
  cbn [to_ii to_bi to_bi_has_rtl to_bi_dirs to_bi_lines to_pi to_pi_has_rtl to_pi_dir to_pi_lines to_bd to_bdf
       res_rel fst snd xbi xpi bi_classes bi_levels bi_paras pb_classes pb_levels pb_level pb_pure].
  rewrite core_cps8, N_list_eqb_refl.
  rewrite !(core_at_starts ceq ceq_refl) by (apply Hkc; apply CA).
  rewrite !(core_at_starts Nat.eqb Nat.eqb_refl) by (apply Hk; apply CA).
  rewrite !core_paras, !Bool.eqb_reflx, !dir_eqb_refl, Nat.eqb_refl.
  rewrite (list_eqb_refl dir_eqb dir_eqb_refl). cbn [andb]. rewrite !andb_true_r.
  assert (Hwf : unpaired_free c16 = true -> well_formed U16 t16).
  { intros Hu. rewrite <- Et16. rewrite <- Ee16 at 1.
    apply wf_of_unpaired_free; [right; exact Ee16 | rewrite Ee16, Et16; exact Hv16 | exact Hu]. }
  rewrite Forall_forall in Hcl, Hcl8.
  apply andb_true_iff. split; apply list_eqb2_map; intros r Hr; apply (core_line _ _ _ _ _ _ Hwf).
  - exact (bi_line_ctx _ _ _ _ _ _ CA r (Hcl r Hr)).
  - exact (bi_line_ctx _ _ _ _ _ _ CA8 r (Hcl8 r Hr)).
  - exact (pi_line_ctx _ _ _ _ _ _ CA r (Hcl r Hr)).
  - exact (pi_line_ctx _ _ _ _ _ _ CA8 r (Hcl8 r Hr)).
Qed.
End Core.

Theorem c09_final_proof : C09_final.
Proof.
  intros [e16 ds16 t16 d16 ln16] [e8 ds8 t8 d8 ln8] V16 V8 T.
  unfold twin_cases in T. cbn [tc_enc tc_ds tc_text tc_dir tc_lines] in T.
  destruct T as (-> & -> & -> & -> & -> & clines & E16 & E8).
  destruct V16 as (_ & Hv16 & Hf16 & Hd & Hl16). destruct V8 as (_ & _ & Hf8 & _ & _).
  rewrite case_chars_view in *. cbn [tc_enc tc_ds tc_text tc_dir tc_lines valid_text] in *.
  set (l16 := map snd (view_of U16 t16)) in *.
  set (l8 := map snd (view_of U8 (map fst (decode16 t16)))) in *.
  pose proof (fl_lens_pos U16 t16 Hv16) as P16. fold l16 in P16.
  assert (L16 : length l16 = length (view_of U16 t16)) by apply map_length.
  assert (L8 : length l8 = length l16) by exact (core_lens t16).
  set (cl := norm_lines (length l16) clines).
  assert (Hcl : Forall (run_in (length (view_of U16 t16))) cl).
  { rewrite <- L16. apply norm_lines_in; [exact P16 | rewrite <- E16; exact Hl16]. }
  rewrite (norm_lines_urun l16 clines) in E16. rewrite (norm_lines_urun l8 clines), L8 in E8.
  fold cl in E16, E8. subst ln16 ln8.
  destruct (char_an_exists ds16 (map fst (view_of U16 t16)) d16 Hd) as (b & p & CA).
  pose proof CA as CA8. rewrite <- (core_cps8 t16) in CA8.
  pose proof Hcl as Hcl8. rewrite <- (core_len8 t16) in Hcl8.
  subst l16 l8.
  rewrite (model_obs_valid U16 ds16 t16 d16 Hv16 b p CA cl Hf16 Hcl).
  rewrite (model_obs_valid U8 ds16 _ d16 I b p CA8 cl Hf8 Hcl8).
  apply (c09_core ds16 t16 d16 Hv16 b p cl CA Hcl); reflexivity.
Qed.

Lemma fsi_proviso_no_fsi9 e ds chars :
  forallb (fun ch => negb (ds_class ds (fst ch) =c FSI)) chars = true -> fsi_proviso e ds chars.
Proof.
  intros H. unfold fsi_proviso. apply Forall_forall. intros ch Hin Hc.
  rewrite forallb_forall in H. specialize (H ch Hin). rewrite Hc in H. discriminate H.
Qed.
