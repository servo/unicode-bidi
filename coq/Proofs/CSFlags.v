(* Proofs/CSFlags.v — CS_flags: the two flags compute_initial_info keeps for every paragraph (split mode) or
   for the whole text are those of the classes: read off [initial_chars_split] and [initial_chars_whole]. *)
From BidiVerif Require Import Base ModelText Spec Stmts6.
From BidiVerif.Proofs Require Import InitialInfo.

Lemma cs_flags_proof : CS_flags.
Proof.
  intros ds cps d split ii H cls. split; intros ->.
  - destruct (initial_chars_split ds d cps) as (ii' & E & _ & _ & Hf). rewrite E in H. injection H as <-.
    rewrite Hf. unfold split_paragraphs, cls.
    pose proof (split_paragraphs_from_map (ds_class ds) (fun c : bclass => c) cps []) as Hm.
    change (map (ds_class ds) []) with (@nil bclass) in Hm. rewrite Hm. clear.
    induction (split_paragraphs_from _ [] cps) as [|p ps IH]; cbn [map]; [constructor|].
    constructor; [split; reflexivity | exact IH].
  - destruct (initial_chars_whole ds d cps) as (ii' & E & _ & _ & Hp & Hi). rewrite E in H. injection H as <-.
    split; assumption.
Qed.
