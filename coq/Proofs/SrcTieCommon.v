(* Proofs/SrcTieCommon.v — shared vocabulary of the ties of the generic (TextSource / BidiDataSource) functions. *)
From BidiVerif Require Import Base ConstsGen TablesGen ModelText RsPrelude ModelResolve ModelLine.

(* the TextSource / BidiDataSource instances the generic functions are applied to *)
Definition ts_of (e : enc) : rs_text_source :=
  {| rs_char_len := char_len e; rs_text_len := t_len e; rs_chars := t_chars e; rs_char_indices := t_char_indices e;
     rs_indices_lengths := t_indices_lengths e |}.
Definition rs_ds_of (ds : datasource) : rs_data_source := {| rs_bidi_class := ds_class ds |}.

(* equal up to the source line recorded in a panic *)
Definition res_sim {A} (r1 r2 : res A) : Prop :=
  match r1, r2 with Ok a, Ok b => a = b | Panic _, Panic _ => True | _, _ => False end.
