(* Proofs/ExplicitSpec.v — the explicit stage of the model (explicit.rs, ModelResolve.explicit_compute)
   simulates X1-X8 of the specification (Spec.explicit_levels).  The specification state is the
   abstraction [absx] of the model's control state (stack mapped entry-wise by [conv], counters equal);
   one character of the specification is one [ex_ctl] transition, and the level and class the
   specification gives the character are what [ex_lvl] and [ex_cls] write.  Followed on the character
   list; the first unit of every character of a text in any encoding holds the same values
   ([explicit_compute_units]). *)
From BidiVerif Require Import Base ModelText ModelResolve Spec Judge Stmts2.
From BidiVerif.Proofs Require Import ListLib Units LevelOps ExplicitSteps ExplicitStep ExplicitUnits ExplicitInv.

Lemma next_rtl_odd l :
  level_next_rtl l = if next_odd l <=? 125 then Some (next_odd l) else None.
Proof.
  unfold next_odd. rewrite even_mod2. unfold_levels.
  destruct (mod2_spec l), (mod2_spec (l + 1)).
  destruct (Nat.eqb_spec (l mod 2) 0), (Nat.eqb_spec ((l + 1) mod 2) 0); try lia;
    rewrite <- ?Nat.add_assoc; reflexivity.
Qed.
Lemma next_ltr_even l :
  level_next_ltr l = if next_even l <=? 125 then Some (next_even l) else None.
Proof.
  unfold next_even. rewrite even_mod2. unfold_levels.
  destruct (mod2_spec l), (mod2_spec (l + 2)).
  destruct (Nat.eqb_spec (l mod 2) 0).
  - replace (l + 2 - (l + 2) mod 2) with (l + 2) by lia. reflexivity.
  - replace (l + 2 - (l + 2) mod 2) with (l + 1) by lia. reflexivity.
Qed.

Lemma first_strong_fuel_strong : forall fuel cls i hi c,
  first_strong_fuel fuel cls i hi = Some c -> is_strong c = true.
Proof.
  induction fuel as [|f IH]; intros cls i hi c H; cbn [first_strong_fuel] in H; [discriminate|].
  destruct (hi <=? i); [discriminate|].
  destruct (nth_error cls i) as [k|]; [|discriminate].
  destruct (is_strong k) eqn:Ek; [injection H as <-; exact Ek|].
  destruct (is_init k).
  - destruct (matching_pdi cls i) as [j|]; [|discriminate].
    destruct (hi <=? j); [discriminate|]. eapply IH; eauto.
  - eapply IH; eauto.
Qed.
Lemma fsi_strong_strong cls i c : fsi_strong cls i = Some c -> is_strong c = true.
Proof. unfold fsi_strong, first_strong. apply first_strong_fuel_strong. Qed.

Definition conv (en : nat * ostatus) : sentry :=
  (fst en, match snd en with ORTL => OvR | OLTR => OvL | _ => ONone end, ostatus_is_isolate (snd en)).
Definition absx (s : ctl) : xstate :=
  {| x_stack := map conv (ct_stack s); x_oi := ct_oi s; x_oe := ct_oe s; x_vi := ct_vi s |}.
Definition abs (st : ex_state) : xstate := absx (ctl_of st).

Lemma pop_conv : forall l, pop_isolate (map conv l) = map conv (pop_through_isolate l).
Proof. induction l as [|[lv []] r IH]; cbn; auto. Qed.

(* [Spec.x_classes] at one position: an FSI in the vector of X1-X8 stands for the reported class [k] *)
Definition pcls (xc k : bclass) : bclass := match xc with FSI => k | _ => xc end.

Lemma ovr_conv ls c : ovr_class (match ls with ORTL => OvR | OLTR => OvL | _ => ONone end) c = ov_class ls c.
Proof. destruct ls; reflexivity. Qed.
Lemma pcls_ov ls c k : c = k \/ c = FSI -> pcls (ov_class ls c) k = ov_class ls k.
Proof. intros [->| ->]; destruct ls; try reflexivity; destruct k; reflexivity. Qed.

(* both sides are evaluated; what is left is the class written, by [pcls_ov] *)
Ltac close_step :=
  cbn [top top_of ct_stack x_stack map conv hd fst snd]; rewrite ?ovr_conv;
  do 2 eexists; split; [reflexivity|]; split; intros Hr; try discriminate Hr; try split; try reflexivity;
  apply pcls_ov; auto.

(* [k] is the class reported for the character; an untouched cell holds [pl] and [k] *)
Lemma x_step_ctl cls0 pl s i c0 : stack_shape (ct_vi s) (ct_stack s) ->
  let k := rep cls0 i c0 in
  exists lv xc, x_step cls0 pl (absx s) i c0 = (absx (ex_ctl s k), lv, xc) /\
    (is_removed c0 = false -> lv = Some (ex_lvl s k pl) /\ pcls xc k = ex_cls s k k) /\
    (is_removed c0 = true -> ex_cls s k k = BN).
Proof.
  destruct s as [stack oi oe vi]. cbn [ct_vi ct_stack]. intros Hs.
  destruct (stack_shape_top _ _ Hs) as (ll & ls & rest & ->).
  assert (Hf : fsi_strong cls0 i = None \/ exists c, fsi_strong cls0 i = Some c /\ (c = L \/ c = R \/ c = AL)).
  { destruct (fsi_strong cls0 i) as [c|] eqn:Ef; [right|left; reflexivity]. exists c. split; [reflexivity|].
    apply fsi_strong_strong in Ef. destruct c; try discriminate Ef; auto. }
  destruct c0; unfold rep; cbn [ceq bclass_beq].
  (* the ninth class is FSI: by the first strong class ahead it reads FSI, LRI or RLI *)
  9: destruct Hf as [Ef|(c & Ef & [->|[->| ->]])]; rewrite Ef.
  (* [lazy] with the constants listed, because [unfold] and [cbn] are slow to check on these goals *)
  all: lazy beta iota zeta delta [x_step absx ex_lvl ex_cls ex_ctl max_depth_spec arm_of is_isolate_init class_is_rtl
            status_of is_removed ceq bclass_beq ct_stack ct_oi ct_oe ct_vi x_stack x_oi x_oe x_vi top hd fst snd];
    cbn [map conv top_of fst snd]; try rewrite Ef.
  all: rewrite ?next_rtl_odd, ?next_ltr_even, ?ovr_conv.
  (* [close_step] closes the classes that leave the state alone; an initiator, after the cases of its test
     (the new level fits, both overflow counters are 0); PDF and PDI remain *)
  all: try solve [close_step].
  all: try (destruct (_ <=? 125); destruct (oi =? 0), (oe =? 0); cbn [andb]; solve [close_step]).
  - destruct (0 <? oi); [|destruct (0 <? oe); [|destruct ls; destruct rest as [|[l2 s2] r2]]]; close_step.
  - destruct (0 <? oi); [close_step|]. destruct vi as [|v]; cbn [Nat.ltb Nat.leb Nat.eqb x_stack ct_stack]; [close_step|].
    change (conv (ll, ls) :: map conv rest) with (map conv ((ll, ls) :: rest)). rewrite pop_conv.
    apply stack_shape_pop, stack_shape_top in Hs. destruct Hs as (l2 & s2 & r2 & ->). close_step.
Qed.

Lemma fold_sim oc cls0 pl : forall cls pos st stf xlev xcls,
  ex_wf (length oc) st -> pos + length cls = length oc ->
  (forall j, j < length cls -> nth_error oc (pos + j) = Some (rep cls0 (pos + j) (nth j cls L))) ->
  (forall u, pos <= u -> u < length oc ->
     nth_error (ex_levels st) u = Some pl /\ nth_error (ex_pc st) u = nth_error oc u) ->
  ex_fold oc st (map (fun i => (i, 1)) (seq pos (length cls))) = Ok stf ->
  x_run cls0 pl (abs st) pos cls = (xlev, xcls) ->
  forall j, j < length cls ->
    (is_removed (nth j cls L) = false ->
       nth_error (ex_levels stf) (pos + j) = nth j xlev None /\
       nth_error (ex_pc stf) (pos + j) = Some (pcls (nth j xcls L) (rep cls0 (pos + j) (nth j cls L)))) /\
    (is_removed (nth j cls L) = true -> nth_error (ex_pc stf) (pos + j) = Some BN).
Proof.
  induction cls as [|c0 cls IH]; intros pos st stf xlev xcls Hwf Hlen Hoc Hun Hf Hx j Hj; [cbn in Hj; lia|].
  cbn [length] in *. cbn [seq map ex_fold] in Hf. apply bind_ok in Hf as (st1 & H1 & Hf).
  apply ex_step_inv in H1 as (k & Hk & Hp & ->).
  pose proof (Hoc 0 ltac:(lia)) as Hk'. rewrite Nat.add_0_r, Hk in Hk'. cbn [nth] in Hk'. injection Hk' as ->.
  destruct Hwf as (Hs & Hl & Hpc).
  destruct (x_step_ctl cls0 pl (ctl_of st) pos c0 Hs) as (lv & xc & Ex & Hn & Hr).
  cbn [x_run] in Hx. fold (abs st) in Ex. rewrite Ex, <- (ex_next_ctl st pos 1) in Hx. fold (abs (ex_next st pos 1 (rep cls0 pos c0))) in Hx.
  destruct (x_run cls0 pl _ (S pos) cls) as [lvs cs] eqn:Er. injection Hx as <- <-.
  destruct (Hun pos (le_n _) ltac:(lia)) as [U1 U2]. rewrite Hk in U2.
  destruct j as [|j].
  - rewrite Nat.add_0_r. cbn [nth].
    destruct (ex_fold_frame _ _ _ _ _ Hf pos (le_n _)) as [-> ->].
    rewrite ex_next_levels, ex_next_pc. cbn [seq lset_all]. rewrite !nth_error_lset_eq by lia.
    rewrite (nth_error_nth _ _ 0 U1), (nth_error_nth _ _ L U2).
    split; [intros H; destruct (Hn H) as [-> ->]; split; reflexivity | intros H; rewrite (Hr H); reflexivity].
  - cbn [nth]. rewrite Nat.add_succ_r, <- Nat.add_succ_l.
    apply (IH (S pos) (ex_next st pos 1 (rep cls0 pos c0)) stf lvs cs); try assumption; try lia.
    + apply ex_next_wf. repeat split; assumption.
    + intros j' Hj'. rewrite Nat.add_succ_l, <- Nat.add_succ_r. apply (Hoc (S j')). lia.
    + intros u Hu1 Hu2. rewrite ex_next_levels, ex_next_pc. cbn [seq lset_all].
      rewrite !nth_error_lset_neq by lia. apply Hun; lia.
Qed.

Theorem explicit_agrees_chars cps cls0 pl lv pc runs :
  length cls0 = length cps ->
  explicit_compute U32 cps pl (reported_classes cls0) (repeat pl (length cps)) (reported_classes cls0)
    = Ok (lv, pc, runs) ->
  let '(xlev, xcls) := explicit_levels cls0 pl in
  forall i, i < length cls0 ->
    (is_removed (nth i cls0 L) = false ->
       nth_error lv i = nth i xlev None /\
       nth_error pc i = Some (pcls (nth i xcls L) (nth i (reported_classes cls0) L))) /\
    (is_removed (nth i cls0 L) = true -> nth_error pc i = Some BN).
Proof.
  intros Hlen Hex. set (oc := reported_classes cls0) in *.
  assert (Hoc : length oc = length cps) by (unfold oc; rewrite reported_length; exact Hlen).
  unfold explicit_compute in Hex. cbn [t_len t_indices_lengths] in Hex.
  rewrite Hoc, Nat.eqb_refl in Hex. cbn [negb] in Hex.
  apply bind_ok in Hex as (stf & Hf & Hex). injection Hex as <- <- _.
  destruct (explicit_levels cls0 pl) as [xlev xcls] eqn:Ex. intros i Hi.
  assert (Hrep : forall j, j < length cls0 -> nth_error oc (0 + j) = Some (rep cls0 (0 + j) (nth j cls0 L))).
  { intros j Hj. unfold oc. cbn [Nat.add]. rewrite (nth_error_nth' _ L) by (rewrite reported_length; exact Hj).
    rewrite nth_reported by reflexivity. reflexivity. }
  rewrite <- Hlen in Hf.
  match type of Hf with ex_fold _ ?s0 _ = _ => set (st0 := s0) in * end.
  destruct (fold_sim oc cls0 pl cls0 0 st0 stf xlev xcls) with (j := i) as [R1 R2]; try assumption; try lia.
  - split; [apply ss_bot; reflexivity|]. cbn [st0 ex_levels ex_pc]. rewrite repeat_length. lia.
  - intros u _ Hu. cbn [st0 ex_levels ex_pc]. split; [apply nth_error_repeat; lia | reflexivity].
  - cbn [Nat.add] in R1, R2. split; [|exact R2]. intros H. destruct (R1 H) as [Q1 Q2]. split; [exact Q1|].
    rewrite Q2. specialize (Hrep i Hi). cbn [Nat.add] in Hrep. rewrite (nth_error_nth _ _ L Hrep). reflexivity.
Qed.

Lemma explicit_agrees_main : explicit_agrees_statement.
Proof.
  intros e text chars cls0 pl Hview Hlen Hpl HB lens n oc levels pc runs Hex.
  set (rc := reported_classes cls0) in *.
  assert (Hrc : length rc = length chars) by (unfold rc; rewrite reported_length; exact Hlen).
  assert (Hk : length lens = length chars) by apply map_length.
  pose proof (view_lens_positive e text chars Hview) as Hpos. fold lens in Hpos.
  destruct (explicit_chars (map fst chars) pl rc) as (lv & pcc & rs & Hc & Hl & Hp & _); [rewrite map_length; exact Hrc|].
  rewrite map_length in Hc, Hl, Hp.
  pose proof (explicit_compute_units e text chars pl rc lv pcc rs Hview Hrc Hc) as Hu.
  cbv zeta in Hu. fold lens n oc in Hu. rewrite Hex in Hu. injection Hu as -> -> _.
  pose proof (explicit_agrees_chars (map fst chars) cls0 pl lv pcc rs) as Ha.
  rewrite map_length in Ha. specialize (Ha Hlen Hc).
  destruct (explicit_levels cls0 pl) as [xlev xcls]. intros i Hi st.
  assert (Hst : forall A (v : list A), length v = length chars -> nth_error (expand lens v) st = nth_error v i).
  { intros A v Hv. unfold st. rewrite nth_starts_from by lia.
    apply expand_nth_first; [lia | apply lens_pos_nth; [exact Hpos | lia]]. }
  rewrite !Hst by assumption. destruct (Ha i Hi) as [A1 A2]. split; [|exact A2].
  intros H. destruct (A1 H) as [Q1 Q2]. split; [exact Q1|].
  rewrite Q2. unfold pcls. destruct (nth i xcls L); reflexivity.
Qed.
