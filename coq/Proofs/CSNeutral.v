(* Proofs/CSNeutral.v — CS_neutral: implicit::resolve_neutral (BD16, N0, N1, N2) computes, on the live
   positions of an isolating run sequence, exactly Spec.neutral after the fold of Spec.n0_one over
   Spec.bracket_pairs.  Assembly of CSNeutralBD16 (BD16), CSNeutralN0 (N0) and CSNeutralN12 (N1/N2). *)
From BidiVerif Require Import Base ModelText ModelResolve Spec StageRel Stmts6.
From BidiVerif.Proofs Require Import ListLib LevelOps CSNeutralBase NeutralPair CSNeutralBD16 CSNeutralN0 CSNeutralN12.

Lemma cs_neutral_proof : CS_neutral.
Proof.
  unfold CS_neutral. intros ds cps oc lv sq pc1 out Hpc1 Hoc Hlv Hwf Hal Htr H.
  set (k := length cps) in *.
  unfold resolve_neutral, resolve_neutral_gen in H.
  unfold sq_neutral_spec, sq_ecls. cbv zeta.
  destruct (irs_runs sq) as [|r0 rs] eqn:Er; [discriminate|]. rewrite <- Er in *.
  apply bind_ok in H as (l0 & El0 & H). apply get_inv in El0 as [_ El0]. specialize (El0 0). rewrite El0.
  set (e := level_class l0) in *.
  pose proof (level_class_LR l0) as He. fold e in He.
  apply bind_ok in H as (mps & Emps & H).
  apply bind_ok in H as (pc2 & En0 & H).
  destruct (bd16_sim ds cps oc pc1 sq mps Hpc1 Hoc Hwf Emps) as (Hgp & Hpok & Hbok & Hnd).
  assert (Halpha : forall x, In x (live_idx oc sq) -> alphab (nth x pc1 BN) = true).
  { intros x Hx. rewrite Forall_forall in Hal. specialize (Hal (nth x pc1 BN)).
    destruct Hal as [Hni|Hsd].
    - unfold at_. apply in_map_iff. exists x. auto.
    - unfold alphab. rewrite Hni. reflexivity.
    - unfold alphab, hasdir. destruct (strong_dir (nth x pc1 BN)); [apply orb_true_r | congruence]. }
  pose proof (Inv_init cps sq oc k eq_refl Hoc Hwf pc1 mps Hpc1 Halpha Htr Hbok) as HI.
  assert (Hlive : Forall (fun p => live oc (bp_start p) = true /\ live oc (bp_end p) = true) mps).
  { eapply Forall_impl; [|exact Hbok]. intros p [[A _] [B _]]. auto. }
  destruct (n0_pairs_sim cps sq oc k eq_refl Hoc Hwf e He mps pc1 pc2 HI Hpok Hlive Hnd En0) as [HI2 Eq2].
  destruct HI2 as (Hk2 & Halpha2 & HP2 & _).
  assert (Hsos : irs_sos sq = L \/ irs_sos sq = R) by (destruct Hwf as (_ & _ & _ & A & _); exact A).
  destruct (n12_sim sq oc k Hwf e pc2 Halpha2 HP2 _ (seq_idx sq) [] pc2 (irs_sos sq) out
              eq_refl (Nat.lt_succ_diag_r _) Hk2 (fun j _ => eq_refl)) as [Eout _].
  { left. unfold lead_of, lvcls. cbn [filter at_ map lead_after]. apply norm_LR. exact Hsos. }
  { exact H. }
  fold (live_idx oc sq) in Eout. rewrite Eout. unfold lead_of, lvcls. cbn [filter at_ map lead_after].
  fold (live_idx oc sq). unfold neutral. rewrite Eq2, <- Hgp. reflexivity.
Qed.
