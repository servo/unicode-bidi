(* Proofs/LIExplicit.v — LENGTH INDEPENDENCE of the explicit stage (explicit::compute):
   running [explicit_compute] on a text in any encoding (code-unit granularity) gives the per-unit
   expansion of running it on the character list in the ghost encoding U32: [explicit_compute_units]
   at the view of a valid text.  [expand_nil_l] (the expansion over no character is empty) is stated here as in Units.v. *)
From BidiVerif Require Import Base Judge Stmts2 Stmts3.
From BidiVerif.Proofs Require Import TextView ExplicitUnits.

Lemma expand_nil_l {A} (v : list A) : expand [] v = [].
Proof. reflexivity. Qed.

Lemma li_explicit_main : LI_explicit.
Proof.
  intros e text Hvalid pl cls lv' pc' runs' Hlen H.
  exact (explicit_compute_units e text (view_of e text) pl cls lv' pc' runs' (view_of_proved e text Hvalid) Hlen H).
Qed.

Print Assumptions li_explicit_main.
