(* Proofs/CSNeutralBD16.v — BD16: identify_bracket_pairs (model, text positions, level runs) against
   Spec.bracket_pairs (indices into the list of live characters of the sequence). *)
From BidiVerif Require Import Base ConstsGen ModelText ModelResolve Spec StageRel Stmts3 Stmts4.
From BidiVerif.Proofs Require Import ListLib TotalNeutral CSNeutralBase.
From Coq Require Import Permutation.

(* model stack entry / pair  |->  specification stack entry / pair *)
Definition fst_ (li : list nat) (en : N * nat * nat) : N * nat := (fst (fst en), lidx li (snd (fst en))).
Definition gp (li : list nat) (p : bracket_pair) : nat * nat := (lidx li (bp_start p), lidx li (bp_end p)).
Definition ends (p : bracket_pair) : list nat := [bp_start p; bp_end p].
Definition bpos (stack : list (N * nat * nat)) (pairs : list bracket_pair) : list nat :=
  map (fun en => snd (fst en)) stack ++ flat_map ends pairs.

Lemma lidx_gap li u v : u <= v -> (forall x, In x li -> ~ (u <= x < v)) -> lidx li u = lidx li v.
Proof.
  intros Huv H. unfold lidx. f_equal. apply filter_ext_in. intros x Hx. specialize (H x Hx).
  destruct (x <? u) eqn:E1, (x <? v) eqn:E2; try reflexivity.
  - apply Nat.ltb_lt in E1. apply Nat.ltb_ge in E2. lia.
  - apply Nat.ltb_ge in E1. apply Nat.ltb_lt in E2. lia.
Qed.

Lemma lidx_0 li : lidx li 0 = 0.
Proof. unfold lidx. rewrite filter_none; [reflexivity|]. intros x _. reflexivity. Qed.

Lemma bracket_match_split key : forall stack pos ri below,
  bracket_match key stack = Some (pos, ri, below) ->
  exists above k, stack = above ++ (k, pos, ri) :: below.
Proof.
  induction stack as [|[[k0 p0] r0] rest IH]; intros pos ri below H; cbn [bracket_match] in H; [discriminate|].
  destruct (k0 =? key)%N.
  - injection H as -> -> ->. exists [], k0. reflexivity.
  - destruct (IH _ _ _ H) as (above & k & ->). exists ((k0, p0, r0) :: above), k. reflexivity.
Qed.

Lemma bd16_match_map li key : forall stack,
  bd16_match key (map (fst_ li) stack) =
  match bracket_match key stack with
  | Some (pos, ri, below) => Some (lidx li pos, map (fst_ li) below)
  | None => None
  end.
Proof.
  induction stack as [|[[k0 p0] r0] rest IH]; [reflexivity|].
  cbn [map fst_ fst snd bd16_match bracket_match]. destruct (k0 =? key)%N; [reflexivity | exact IH].
Qed.

Section BD16.
Variable ds : datasource.
Variable cps : list N.
Variable oc pc : list bclass.
Variable runs : list run.
Let Sq := flat_map run_range runs.
Let li := filter (live oc) Sq.
Hypothesis Hasc : asc Sq.
Let brk (i : nat) := ds_bracket ds (nth i cps 0%N).

Lemma li_asc : asc li.
Proof. apply asc_filter. exact Hasc. Qed.

Definition bd_inv (bound : nat) (stack : list (N * nat * nat)) (pairs : list bracket_pair) : Prop :=
  NoDup (bpos stack pairs) /\
  forall x, In x (bpos stack pairs) -> x < bound /\ live oc x = true /\ nth x pc BN = ON.

Lemma bd_inv_mono b b' stack pairs : b <= b' -> bd_inv b stack pairs -> bd_inv b' stack pairs.
Proof.
  intros Hb [H1 H2]. split; [exact H1|]. intros x Hx. destruct (H2 x Hx) as (A & B & C). repeat split; auto; lia.
Qed.

Section Run.
Variable ri s en : nat.
Hypothesis Hrun : forall x, s <= x < en -> In x Sq.
Hypothesis Hen : en <= length cps.

Lemma bd16_run_sim : forall m a stack pairs stack' pairs' stopped T B,
  s + a + m <= en ->
  bd16_run ds false oc pc ri s (combine (seq a m) (firstn m (skipn (s + a) cps))) stack pairs
    = Ok (stack', pairs', stopped) ->
  let lp := filter (live oc) (seq (s + a) m) in
  bd16 (at_ BN pc lp ++ T) (map brk lp ++ B) (lidx li (s + a)) (map (fst_ li) stack) (map (gp li) pairs)
  = if stopped then map (gp li) pairs'
    else bd16 T B (lidx li (s + a + m)) (map (fst_ li) stack') (map (gp li) pairs').
Proof.
  induction m as [|m IH]; intros a stack pairs stack' pairs' stopped T B Hle H lp.
  - cbn [seq combine bd16_run] in H. injection H as <- <- <-. subst lp. cbn [seq filter at_ map app].
    rewrite Nat.add_0_r. reflexivity.
  - assert (Hcp : s + a < length cps) by lia. rewrite (skipn_nth_error _ _ _ (nth_error_nth' cps 0%N Hcp)) in H. cbn [firstn seq combine] in H.
    replace (S (s + a)) with (s + S a) in H by lia.
    cbn [bd16_run] in H.
    apply bind_ok in H as (c & Ec & H). apply get_inv in Ec as [Hlt Ec]. specialize (Ec BN).
    assert (HS : In (s + a) Sq) by (apply Hrun; lia).
    assert (Ek : lidx li (s + S a) = lidx li (s + a) + (if live oc (s + a) then 1 else 0)).
    { replace (s + S a) with (S (s + a)) by lia. rewrite (lidx_S _ _ li_asc).
      destruct (in_dec Nat.eq_dec (s + a) li) as [Hi|Hi]; [apply filter_In in Hi as [_ ->]; reflexivity|].
      destruct (live oc (s + a)) eqn:El; [exfalso; apply Hi, filter_In; auto | reflexivity]. }
    assert (Hnext : forall stack1 pairs1,
      bd16_run ds false oc pc ri s (combine (seq (S a) m) (firstn m (skipn (s + S a) cps))) stack1 pairs1
        = Ok (stack', pairs', stopped) ->
      let lp' := filter (live oc) (seq (s + S a) m) in
      bd16 (at_ BN pc lp' ++ T) (map brk lp' ++ B) (lidx li (s + S a)) (map (fst_ li) stack1) (map (gp li) pairs1)
      = if stopped then map (gp li) pairs'
        else bd16 T B (lidx li (s + a + S m)) (map (fst_ li) stack') (map (gp li) pairs')).
    { intros stack1 pairs1 H1. replace (s + a + S m) with (s + S a + m) by lia. apply IH; [lia | exact H1]. }
    subst lp. cbn [seq filter]. replace (S (s + a)) with (s + S a) by lia.
    destruct (live oc (s + a)) eqn:Elive.
    + (* a live position: the specification makes the same step *)
      cbn [at_ map app]. fold (at_ BN pc (filter (live oc) (seq (s + S a) m))).
      rewrite Ec. unfold brk at 1. cbn [bd16].
      replace (S (lidx li (s + a))) with (lidx li (s + S a)) by lia.
      destruct (c =c ON) eqn:EON; cbn [negb] in H.
      2:{ destruct (ds_bracket ds (nth (s + a) cps 0%N)) as [[key is_open]|]; apply Hnext; exact H. }
      apply bind_ok in H as (o & Eo & H). apply get_inv in Eo as [_ Eo]. specialize (Eo BN).
      unfold live, not_removed_by_x9 in Elive. rewrite Eo in Elive.
      destruct (removed_by_x9 o); [discriminate|]. cbn [andb negb] in H.
      destruct (ds_bracket ds (nth (s + a) cps 0%N)) as [[key is_open]|]; [|apply Hnext; exact H].
      destruct is_open.
      * (* the model's stack limit is ConstsGen.bracket_limit, read off the Rust source; BD16 in Spec.v has
           the literal 63 *)
        rewrite map_length. change bracket_limit with 63 in H.
        destruct (63 <=? length stack).
        -- injection H as <- <- <-. reflexivity.
        -- apply Hnext in H. exact H.
      * rewrite bd16_match_map.
        destruct (bracket_match key stack) as [[[pos ri'] below]|].
        -- apply Hnext in H. rewrite map_app in H. exact H.
        -- apply Hnext; exact H.
    + (* a removed position takes no part *)
      rewrite Nat.add_0_r in Ek. rewrite <- Ek.
      destruct (c =c ON); cbn [negb] in H; [|apply Hnext; exact H].
      apply bind_ok in H as (o & Eo & H). apply get_inv in Eo as [_ Eo]. specialize (Eo BN).
      unfold live, not_removed_by_x9 in Elive. rewrite Eo in Elive.
      destruct (removed_by_x9 o); [|discriminate]. cbn [andb negb] in H. apply Hnext; exact H.
Qed.

Lemma bd16_run_inv : forall m a stack pairs stack' pairs' stopped,
  s + a + m <= en ->
  bd16_run ds false oc pc ri s (combine (seq a m) (firstn m (skipn (s + a) cps))) stack pairs
    = Ok (stack', pairs', stopped) ->
  bd_inv (s + a) stack pairs -> bd_inv (s + a + m) stack' pairs'.
Proof.
  induction m as [|m IH]; intros a stack pairs stack' pairs' stopped Hle H Hinv.
  - cbn [seq combine bd16_run] in H. injection H as <- <- <-. rewrite Nat.add_0_r. exact Hinv.
  - assert (Hcp : s + a < length cps) by lia. rewrite (skipn_nth_error _ _ _ (nth_error_nth' cps 0%N Hcp)) in H. cbn [firstn seq combine] in H.
    replace (S (s + a)) with (s + S a) in H by lia.
    cbn [bd16_run] in H.
    apply bind_ok in H as (c & Ec & H). apply get_inv in Ec as [Hlt Ec]. specialize (Ec BN).
    assert (Hnext : forall stack1 pairs1,
      bd16_run ds false oc pc ri s (combine (seq (S a) m) (firstn m (skipn (s + S a) cps))) stack1 pairs1
        = Ok (stack', pairs', stopped) ->
      bd_inv (s + S a) stack1 pairs1 -> bd_inv (s + a + S m) stack' pairs').
    { intros stack1 pairs1 H1 H2. replace (s + a + S m) with (s + S a + m) by lia. eapply IH; eauto. lia. }
    assert (Hsame : bd_inv (s + S a) stack pairs) by (eapply bd_inv_mono; [|exact Hinv]; lia).
    destruct (c =c ON) eqn:EON; cbn [negb] in H; [|eapply Hnext; eauto].
    apply ceq_eq in EON. subst c.
    apply bind_ok in H as (o & Eo & H). apply get_inv in Eo as [_ Eo]. specialize (Eo BN).
    destruct (removed_by_x9 o) eqn:Erem; cbn [andb negb] in H; [eapply Hnext; eauto|].
    assert (Hlive : live oc (s + a) = true).
    { unfold live, not_removed_by_x9. rewrite Eo, Erem. reflexivity. }
    destruct (ds_bracket ds (nth (s + a) cps 0%N)) as [[key is_open]|]; [|eapply Hnext; eauto].
    destruct is_open.
    + destruct (bracket_limit <=? length stack).
      * injection H as <- <- <-. eapply bd_inv_mono; [|exact Hinv]. lia.
      * eapply Hnext; [exact H|]. destruct Hinv as [N1 N2]. unfold bd_inv, bpos in *. cbn [map fst snd app]. cbn [fst snd]. split.
        -- constructor; [|exact N1]. intros Hin. apply N2 in Hin. cbn [fst snd] in Hin. lia.
        -- intros x [<-|Hx]; [repeat split; auto; lia|]. destruct (N2 x Hx) as (A & B & C). repeat split; auto; lia.
    + destruct (bracket_match key stack) as [[[pos ri'] below]|] eqn:Em; [|eapply Hnext; eauto].
      eapply Hnext; [exact H|]. destruct (bracket_match_split _ _ _ _ _ Em) as (above & k0 & ->).
      destruct Hinv as [N1 N2]. unfold bd_inv, bpos in *. rewrite map_app in N1, N2. cbn [map fst snd] in N1, N2.
      rewrite <- app_assoc in N1. apply NoDup_app_r in N1. cbn [app] in N1.
      assert (N2' : forall x, In x (pos :: map (fun en0 => snd (fst en0)) below ++ flat_map ends pairs) ->
                              x < s + a /\ live oc x = true /\ nth x pc BN = ON).
      { intros x Hx. apply N2. rewrite <- app_assoc. apply in_or_app. right. exact Hx. }
      rewrite flat_map_app. cbn [flat_map ends bp_start bp_end app].
      set (Bl := map (fun en0 => snd (fst en0)) below) in *. set (P := flat_map ends pairs) in *.
      assert (Hperm : Permutation (pos :: (s + a) :: Bl ++ P) (Bl ++ P ++ [pos; s + a])).
      { rewrite app_assoc. change (pos :: (s + a) :: Bl ++ P) with ([pos; s + a] ++ (Bl ++ P)).
        apply Permutation_app_comm. }
      split.
      * eapply Permutation_NoDup; [exact Hperm|]. inversion N1 as [|x l Hnin Hnd]; subst.
        constructor.
        -- intros [E|Hin]; [|contradiction]. specialize (N2' pos (or_introl eq_refl)). lia.
        -- constructor; [|exact Hnd]. intros Hin. specialize (N2' (s + a) (or_intror Hin)). lia.
      * intros x Hx. apply (Permutation_in _ (Permutation_sym Hperm)) in Hx.
        destruct Hx as [<-|[<-|Hx]].
        -- destruct (N2' pos (or_introl eq_refl)) as (A & B & C). repeat split; auto; lia.
        -- repeat split; auto; lia.
        -- destruct (N2' x (or_intror Hx)) as (A & B & C). repeat split; auto; lia.
Qed.

End Run.

Lemma bd16_runs_sim : forall rest pre ri prev stack pairs mps,
  runs = pre ++ rest -> ri = length pre -> runs_ascending prev rest ->
  Forall (run_in (length cps)) rest ->
  (forall x, In x Sq -> prev <= x -> In x (flat_map run_range rest)) ->
  bd16_runs U32 ds false cps oc pc ri rest stack pairs = Ok mps ->
  bd_inv prev stack pairs ->
  let lr := filter (live oc) (flat_map run_range rest) in
  bd16 (at_ BN pc lr) (map brk lr) (lidx li prev) (map (fst_ li) stack) (map (gp li) pairs) = map (gp li) mps /\
  exists b st, bd_inv b st mps.
Proof.
  induction rest as [|[s en] rest IH]; intros pre ri prev stack pairs mps Hruns Hri Hasc' Hin Hrest H Hinv lr.
  - cbn [bd16_runs] in H. injection H as <-. subst lr. cbn [flat_map filter at_ map bd16]. split; [reflexivity|].
    eauto.
  - cbn [bd16_runs t_subrange t_char_indices] in H.
    cbn [runs_ascending] in Hasc'. destruct Hasc' as (Hprev & Hlt & Hasc').
    inversion Hin as [|x l [_ Hen] Hin']; subst x l. cbn [fst snd] in Hen.
    apply bind_ok in H as (sub & Esub & H). apply slice_ok_inv in Esub as (_ & _ & ->).
    apply bind_ok in H as ([[stack' pairs'] stopped] & Erun & H).
    assert (Lsub : length (firstn (en - s) (skipn s cps)) = en - s).
    { rewrite firstn_length, skipn_length. lia. }
    rewrite Lsub in Erun.
    assert (HrunS : forall x, s <= x < en -> In x Sq).
    { intros x Hx. unfold Sq. rewrite Hruns, flat_map_app. apply in_or_app. right. cbn [flat_map].
      apply in_or_app. left. apply in_run_range. cbn [fst snd]. exact Hx. }
    assert (Hgap : lidx li prev = lidx li s).
    { apply lidx_gap; [exact Hprev|]. intros x Hx Hr. apply filter_In in Hx as [Hx _].
      apply Hrest in Hx; [|lia]. cbn [flat_map] in Hx. apply in_app_or in Hx as [Hx|Hx].
      - apply in_run_range in Hx. cbn [fst snd] in Hx. lia.
      - destruct (asc_runs _ _ Hasc') as [_ Hge]. apply Hge in Hx. lia. }
    pose proof (bd16_run_inv ri s en Hen (en - s) 0 stack pairs stack' pairs' stopped) as Hinv'.
    pose proof (bd16_run_sim ri s en HrunS Hen (en - s) 0 stack pairs stack' pairs' stopped
                  (at_ BN pc (filter (live oc) (flat_map run_range rest)))
                  (map brk (filter (live oc) (flat_map run_range rest)))) as Hsim.
    rewrite !Nat.add_0_r in Hinv', Hsim. replace (s + (en - s)) with en in Hinv', Hsim by lia.
    specialize (Hinv' ltac:(lia) Erun (bd_inv_mono _ _ _ _ Hprev Hinv)).
    specialize (Hsim ltac:(lia) Erun). cbn zeta in Hsim.
    subst lr. cbn [flat_map]. rewrite filter_app, at_app, map_app.
    unfold run_range at 1 3, range. cbn [fst snd]. rewrite Hgap. rewrite Hsim.
    destruct stopped; cbn [andb negb] in H.
    + injection H as <-. split; [reflexivity | eauto].
    + eapply (IH (pre ++ [(s, en)]) (S ri) en); eauto.
      * rewrite <- app_assoc. exact Hruns.
      * rewrite app_length. cbn [length]. lia.
      * intros x Hx Hge. specialize (Hrest x Hx ltac:(lia)). cbn [flat_map] in Hrest.
        apply in_app_or in Hrest as [Hr|Hr]; [|exact Hr]. apply in_run_range in Hr. cbn [fst snd] in Hr. lia.
Qed.

Lemma insert_pair_gp p : In (bp_start p) li -> forall l,
  map (gp li) (insert_pair p l) = insert_by_fst (gp li p) (map (gp li) l).
Proof.
  intros Hp. induction l as [|q l IH]; [reflexivity|]. cbn [insert_pair map insert_by_fst].
  assert (E : (bp_start p <? bp_start q) = (fst (gp li p) <? fst (gp li q))).
  { unfold gp. cbn [fst]. destruct (bp_start p <? bp_start q) eqn:E1.
    - apply Nat.ltb_lt in E1. symmetry. apply Nat.ltb_lt. apply lidx_lt; [apply li_asc | exact Hp | exact E1].
    - apply Nat.ltb_ge in E1. symmetry. apply Nat.ltb_ge. apply lidx_mono. exact E1. }
  rewrite <- E. destruct (bp_start p <? bp_start q); [reflexivity|]. cbn [map]. rewrite IH. reflexivity.
Qed.

Lemma sort_pairs_gp l : Forall (fun p => In (bp_start p) li) l ->
  map (gp li) (sort_pairs l) = fold_left (fun acc p => insert_by_fst p acc) (map (gp li) l) [].
Proof.
  unfold sort_pairs. change (@nil (nat * nat)) with (map (gp li) []). generalize (@nil bracket_pair).
  induction l as [|p l IH]; intros acc H; [reflexivity|]. inversion H; subst. cbn [fold_left map].
  rewrite IH by assumption. rewrite insert_pair_gp by assumption. reflexivity.
Qed.

End BD16.

(* what N0 needs of each bracket of a pair; [pc] is the input of N0 *)
Definition bracket_pos_ok (oc pc : list bclass) (x : nat) : Prop := live oc x = true /\ nth x pc BN = ON.

Lemma bd16_sim ds cps oc pc sq mps :
  length pc = length cps -> length oc = length cps -> seq_wf (length cps) sq ->
  identify_bracket_pairs U32 ds cps sq oc pc = Ok mps ->
  let li := live_idx oc sq in
  map (gp li) mps = bracket_pairs (at_ BN pc li) (map (fun i => ds_bracket ds (nth i cps 0%N)) li) /\
  Forall (pair_ok (irs_runs sq)) mps /\
  Forall (fun p => bracket_pos_ok oc pc (bp_start p) /\ bracket_pos_ok oc pc (bp_end p)) mps /\
  NoDup (flat_map ends mps).
Proof.
  intros Hpc Hoc (Hne & Hin & Hasc & _ & _) H li.
  unfold identify_bracket_pairs, identify_bracket_pairs_gen in H.
  apply bind_ok in H as (pairs & Ep & H). injection H as <-.
  destruct (asc_runs _ _ Hasc) as [HascS _].
  assert (Hinv0 : bd_inv oc pc 0 [] []) by (split; [constructor | intros x []]).
  destruct (bd16_runs_sim ds cps oc pc (irs_runs sq) HascS (irs_runs sq) [] 0 0 [] [] pairs
              eq_refl eq_refl Hasc Hin ltac:(auto) Ep Hinv0) as [Hsim (b & st & Hinv)].
  destruct (bd16_runs_ok ds cps oc pc (irs_runs sq) (length cps) eq_refl Hpc Hoc (irs_runs sq) [] 0 0 [] []
              eq_refl eq_refl Hasc Hin (Forall_nil _) (Forall_nil _))
    as (pairs0 & Ep0 & Hpairs).
  rewrite Ep in Ep0. injection Ep0 as <-.
  destruct Hinv as [N1 N2]. unfold bpos in N1, N2. apply NoDup_app_r in N1.
  assert (Hok : Forall (fun p => bracket_pos_ok oc pc (bp_start p) /\ bracket_pos_ok oc pc (bp_end p)) pairs).
  { apply Forall_forall. intros p Hp.
    assert (Hs : In (bp_start p) (flat_map ends pairs)) by (apply in_flat_map; exists p; split; [exact Hp | left; reflexivity]).
    assert (He : In (bp_end p) (flat_map ends pairs)) by (apply in_flat_map; exists p; split; [exact Hp | right; left; reflexivity]).
    split; unfold bracket_pos_ok.
    - destruct (N2 (bp_start p)) as (_ & A & B); [apply in_or_app; right; exact Hs | auto].
    - destruct (N2 (bp_end p)) as (_ & A & B); [apply in_or_app; right; exact He | auto]. }
  refine (conj _ (conj _ (conj _ _))).
  2:{ apply sort_pairs_Forall; exact Hpairs. }
  2:{ apply sort_pairs_Forall; exact Hok. }
  - unfold bracket_pairs. fold (seq_idx sq) in Hsim. fold (live_idx oc sq) in Hsim. rewrite lidx_0 in Hsim.
    cbn [map] in Hsim. fold li in Hsim. rewrite Hsim.
    apply sort_pairs_gp; [exact HascS|]. apply Forall_forall. intros p Hp.
    rewrite Forall_forall in Hok, Hpairs. destruct (Hok p Hp) as [[A _] _]. destruct (Hpairs p Hp) as [B _].
    apply filter_In. split; [eapply pos_ok_S; eauto | exact A].
  - eapply Permutation_NoDup; [|exact N1]. apply Permutation_flat_map. symmetry. apply sort_pairs_perm.
Qed.
