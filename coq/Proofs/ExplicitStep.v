(* Proofs/ExplicitStep.v — one step of explicit::compute in closed form.  [ex_step] works on the status
   stack and three counters (the control state, [ctl]) and writes one level and one class on every unit
   of the character it looks at.  [ex_ctl] is the control transition as a pure function of the class,
   [ex_lvl] and [ex_cls] the two values written, [ex_next] the whole successor state;
   [ex_step_nf]: under the bounds and the stack invariant the step returns [ex_next];
   [ex_step_inv]: whenever a step on a one-unit character returns, it returned [ex_next]. *)
From BidiVerif Require Import Base ModelText ModelResolve.
From BidiVerif.Proofs Require Import ListLib.

(* [stack_shape vi s]: non-empty, bottom entry not an isolate entry, exactly [vi] isolate entries:
   what keeps `stack.last().unwrap()` and the pop at a matching PDI from panicking *)
Inductive stack_shape : nat -> list (nat * ostatus) -> Prop :=
| ss_bot l s : ostatus_is_isolate s = false -> stack_shape 0 [(l, s)]
| ss_iso vi l st : stack_shape vi st -> stack_shape (S vi) ((l, OIsolate) :: st)
| ss_non vi l s st : ostatus_is_isolate s = false -> stack_shape vi st -> stack_shape vi ((l, s) :: st).

Lemma stack_shape_top vi s : stack_shape vi s -> exists l st r, s = (l, st) :: r.
Proof. intros H; inversion H; subst; eauto. Qed.

Lemma stack_shape_pop vi s : stack_shape (S vi) s -> stack_shape vi (pop_through_isolate s).
Proof.
  intros H. remember (S vi) as w eqn:E. revert vi E.
  induction H as [l s Hs | w l st Hst IH | w l s st Hs Hst IH]; intros vi E.
  - discriminate.
  - injection E as ->. exact Hst.
  - destruct s; cbn [ostatus_is_isolate] in Hs; try discriminate; cbn [pop_through_isolate]; apply IH; exact E.
Qed.

Lemma stack_shape_tl vi l s r :
  stack_shape vi ((l, s) :: r) -> ostatus_is_isolate s = false -> 2 <= length ((l, s) :: r) -> stack_shape vi r.
Proof.
  intros H Hs Hlen. inversion H; subst.
  - cbn [length] in Hlen. lia.
  - discriminate.
  - assumption.
Qed.

Definition status_of (k : bclass) : ostatus :=
  match k with RLO => ORTL | LRO => OLTR | RLI | LRI | FSI => OIsolate | _ => ONeutral end.
Definition ov_class (s : ostatus) (c : bclass) : bclass :=
  match s with ORTL => R | OLTR => L | _ => c end.

Record ctl := { ct_stack : list (nat * ostatus); ct_oi : nat; ct_oe : nat; ct_vi : nat }.
Definition ctl_of (st : ex_state) : ctl :=
  {| ct_stack := ex_stack st; ct_oi := ex_oi st; ct_oe := ex_oe st; ct_vi := ex_vi st |}.
Definition top (s : ctl) : nat * ostatus := hd (0, ONeutral) (ct_stack s).

(* the arms of `match original_classes[i]` in explicit.rs *)
Inductive arm := AInit | APdi | APdf | AB | AOther.
Definition arm_of (k : bclass) : arm :=
  match k with
  | RLE | LRE | RLO | LRO | RLI | LRI | FSI => AInit
  | PDI => APdi
  | PDF => APdf
  | B => AB
  | _ => AOther
  end.
Lemma match_arm {T} (k : bclass) (a p f b o : T) :
  match k with
  | RLE | LRE | RLO | LRO | RLI | LRI | FSI => a
  | PDI => p
  | PDF => f
  | B => b
  | _ => o
  end = match arm_of k with AInit => a | APdi => p | APdf => f | AB => b | AOther => o end.
Proof. destruct k; reflexivity. Qed.

(* X2-X5c push when the next level exists and nothing has overflowed, and count an overflow otherwise;
   X6a and X7 undo that *)
Definition ex_ctl (s : ctl) (k : bclass) : ctl :=
  match arm_of k with
  | AInit =>
    let overflow :=
      if is_isolate_init k
      then {| ct_stack := ct_stack s; ct_oi := S (ct_oi s); ct_oe := ct_oe s; ct_vi := ct_vi s |}
      else if ct_oi s =? 0
      then {| ct_stack := ct_stack s; ct_oi := ct_oi s; ct_oe := S (ct_oe s); ct_vi := ct_vi s |}
      else s in
    match (if class_is_rtl k then level_next_rtl (fst (top s)) else level_next_ltr (fst (top s))) with
    | Some nl =>
      if (ct_oi s =? 0) && (ct_oe s =? 0)
      then {| ct_stack := (nl, status_of k) :: ct_stack s; ct_oi := ct_oi s; ct_oe := ct_oe s;
              ct_vi := if is_isolate_init k then S (ct_vi s) else ct_vi s |}
      else overflow
    | None => overflow
    end
  | APdi =>
    if 0 <? ct_oi s
    then {| ct_stack := ct_stack s; ct_oi := ct_oi s - 1; ct_oe := ct_oe s; ct_vi := ct_vi s |}
    else if 0 <? ct_vi s
    then {| ct_stack := pop_through_isolate (ct_stack s); ct_oi := ct_oi s; ct_oe := 0; ct_vi := ct_vi s - 1 |}
    else s
  | APdf =>
    if 0 <? ct_oi s then s
    else if 0 <? ct_oe s
    then {| ct_stack := ct_stack s; ct_oi := ct_oi s; ct_oe := ct_oe s - 1; ct_vi := ct_vi s |}
    else if negb (ostatus_is_isolate (snd (top s))) && (2 <=? length (ct_stack s))
    then {| ct_stack := tl (ct_stack s); ct_oi := ct_oi s; ct_oe := ct_oe s; ct_vi := ct_vi s |}
    else s
  | AB | AOther => s
  end.

(* the level written at the character: an isolate initiator gets the level it was met at, every other
   class that of the new stack top; B keeps the level it had *)
Definition ex_lvl (s : ctl) (k : bclass) (old : nat) : nat :=
  match arm_of k with
  | AB => old
  | AInit => fst (top (if is_isolate_init k then s else ex_ctl s k))
  | _ => fst (top (ex_ctl s k))
  end.

Definition ex_cls (s : ctl) (k : bclass) (old : bclass) : bclass :=
  match arm_of k with
  | AInit => if is_isolate_init k then ov_class (snd (top s)) old else BN
  | APdi => ov_class (snd (top (ex_ctl s k))) old
  | APdf => BN
  | AB => old
  | AOther => if k =c BN then old else ov_class (snd (top s)) old
  end.

Definition ex_next (st : ex_state) (i len : nat) (k : bclass) : ex_state :=
  let s := ctl_of st in
  let x := ex_lvl s k (nth i (ex_levels st) 0) in
  let '(run_level, run_start, runs) :=
    if i =? 0 then (x, ex_run_start st, ex_runs st)
    else if negb (removed_by_x9 k) && negb (x =? ex_run_level st)
         then (x, i, ex_runs st ++ [(ex_run_start st, i)])
    else (ex_run_level st, ex_run_start st, ex_runs st) in
  {| ex_stack := ct_stack (ex_ctl s k); ex_oi := ct_oi (ex_ctl s k); ex_oe := ct_oe (ex_ctl s k);
     ex_vi := ct_vi (ex_ctl s k);
     ex_levels := lset_all (ex_levels st) (seq i len) x;
     ex_pc := lset_all (ex_pc st) (seq i len) (ex_cls s k (nth i (ex_pc st) L));
     ex_run_level := run_level; ex_run_start := run_start; ex_runs := runs |}.

Lemma ex_next_ctl st i len k : ctl_of (ex_next st i len k) = ex_ctl (ctl_of st) k.
Proof. unfold ex_next. destruct (if i =? 0 then _ else _) as [[rl rs] runs]. unfold ctl_of at 1. cbn. destruct (ex_ctl _ k); reflexivity. Qed.
Lemma ex_next_levels st i len k :
  ex_levels (ex_next st i len k) = lset_all (ex_levels st) (seq i len) (ex_lvl (ctl_of st) k (nth i (ex_levels st) 0)).
Proof. unfold ex_next. destruct (if i =? 0 then _ else _) as [[rl rs] runs]. reflexivity. Qed.
Lemma ex_next_pc st i len k :
  ex_pc (ex_next st i len k) = lset_all (ex_pc st) (seq i len) (ex_cls (ctl_of st) k (nth i (ex_pc st) L)).
Proof. unfold ex_next. destruct (if i =? 0 then _ else _) as [[rl rs] runs]. reflexivity. Qed.

Lemma apply_override_lset site s (pc : list bclass) i :
  i < length pc -> apply_override site s pc i = Ok (lset pc i (ov_class s (nth i pc L))).
Proof.
  intros H. destruct s; cbn [apply_override ov_class]; try (apply upd_lset; exact H);
    rewrite lset_nth; reflexivity.
Qed.

Lemma apply_override_inv site s (pc : list bclass) i pc' :
  apply_override site s pc i = Ok pc' -> pc' = lset pc i (ov_class s (nth i pc L)).
Proof.
  destruct s; cbn [apply_override ov_class]; intros H;
    try (apply upd_ok_inv in H as [_ ->]; reflexivity);
    rewrite lset_nth; congruence.
Qed.

Lemma copy_units_ok i : forall js (lv : list nat) (pc : list bclass),
  i < length lv -> i < length pc ->
  (forall j, In j js -> 0 < j /\ i + j < length lv /\ i + j < length pc) ->
  copy_units lv pc i js =
    Ok (lset_all lv (map (Nat.add i) js) (nth i lv 0), lset_all pc (map (Nat.add i) js) (nth i pc L)).
Proof.
  induction js as [|j js IH]; intros lv pc Hl Hp Hjs; cbn [copy_units map lset_all]; [reflexivity|].
  destruct (Hjs j (or_introl eq_refl)) as (Hj & Hjl & Hjp).
  rewrite (get_some _ _ _ _ (nth_error_nth' lv 0 Hl)). cbn [bind]. rewrite upd_lset by exact Hjl. cbn [bind].
  rewrite (get_some _ _ _ _ (nth_error_nth' pc L Hp)). cbn [bind]. rewrite upd_lset by exact Hjp. cbn [bind].
  rewrite IH.
  - rewrite !nth_lset_neq by lia. reflexivity.
  - rewrite lset_length. exact Hl.
  - rewrite lset_length. exact Hp.
  - intros j' Hj'. rewrite !lset_length. apply Hjs. right. exact Hj'.
Qed.

Lemma copy_units_block (lv : list nat) (pc : list bclass) i len x c :
  0 < len -> i + len <= length lv -> i + len <= length pc ->
  copy_units (lset lv i x) (lset pc i c) i (range 1 len) = Ok (lset_all lv (seq i len) x, lset_all pc (seq i len) c).
Proof.
  intros Hlen Hl Hp. rewrite copy_units_ok.
  - rewrite !nth_lset_eq by lia. unfold range. rewrite map_add_seq, Nat.add_1_r.
    destruct len as [|m]; [lia|]. cbn [Nat.sub seq lset_all]. rewrite Nat.sub_0_r. reflexivity.
  - rewrite lset_length. lia.
  - rewrite lset_length. lia.
  - intros j Hj. apply in_range in Hj. rewrite !lset_length. lia.
Qed.

(* In the two proofs below the goal holds the whole body of [ex_step]: a [bind] whose first argument is
   the class-dependent part of the step (23 cases in five arms, [match_arm]) and whose continuation is the
   part common to all classes.  [bind_eq] and [bind_ok_elim] split the first argument off without
   restating it and without rewriting inside the whole. *)
Lemma bind_eq {A B} (m : res A) (f : A -> res B) a r : m = Ok a -> f a = r -> bind m f = r.
Proof. intros -> H. exact H. Qed.
Lemma bind_ok_elim {A B} (m : res A) (f : A -> res B) (Q : B -> Prop) :
  (forall a, m = Ok a -> forall y, f a = Ok y -> Q y) -> forall y, bind m f = Ok y -> Q y.
Proof. intros H y E. apply bind_ok in E as (a & Ha & E). exact (H a Ha y E). Qed.

Lemma ex_step_nf oc st i len k :
  nth_error oc i = Some k -> stack_shape (ex_vi st) (ex_stack st) -> 0 < len ->
  i + len <= length (ex_levels st) -> i + len <= length (ex_pc st) ->
  ex_step oc st (i, len) = Ok (ex_next st i len k).
Proof.
  destruct st as [stack oi oe vi lv pc rl rs runs].
  cbn [ex_stack ex_vi ex_levels ex_pc]. intros Hk Hs Hlen Hl Hp.
  destruct (stack_shape_top _ _ Hs) as (ll & ls & rest & ->).
  lazy beta iota delta [ex_step ex_stack ex_oi ex_oe ex_vi ex_levels ex_pc ex_run_level ex_run_start ex_runs].
  apply (bind_eq _ _ k); [apply get_some, Hk|].
  set (s := {| ct_stack := (ll, ls) :: rest; ct_oi := oi; ct_oe := oe; ct_vi := vi |}).
  apply (bind_eq _ _ (ct_stack (ex_ctl s k), ct_oi (ex_ctl s k), ct_oe (ex_ctl s k), ct_vi (ex_ctl s k),
                      lset lv i (ex_lvl s k (nth i lv 0)), lset pc i (ex_cls s k (nth i pc L)))).
  { assert (Hi : i < length lv) by lia. assert (Hpi : i < length pc) by lia.
    assert (Hi' : forall x, i < length (lset lv i x)) by (intros; rewrite lset_length; exact Hi).
    rewrite match_arm. unfold ex_lvl, ex_cls, ex_ctl. subst s.
    destruct (arm_of k); cbn [top ct_stack ct_oi ct_oe ct_vi hd fst snd].
    - rewrite upd_lset by assumption. cbn [bind].
      generalize (if class_is_rtl k then level_next_rtl ll else level_next_ltr ll). intros onl.
      destruct (is_isolate_init k).
      + rewrite apply_override_lset by assumption. cbn [bind].
        destruct onl as [nl|]; [destruct ((oi =? 0) && (oe =? 0))|]; reflexivity.
      + cbn [bind]. rewrite (upd_lset 121) by assumption.
        destruct onl as [nl|]; [destruct ((oi =? 0) && (oe =? 0))|]; try destruct (oi =? 0); cbn [bind];
          rewrite ?upd_lset, ?lset_lset by auto; reflexivity.
    - destruct (0 <? oi); [|destruct (Nat.ltb_spec 0 vi) as [Hv|Hv]].
      + rewrite upd_lset, apply_override_lset by assumption. reflexivity.
      + replace vi with (S (vi - 1)) in Hs by lia. apply stack_shape_pop, stack_shape_top in Hs.
        destruct Hs as (l2 & s2 & r2 & ->). rewrite upd_lset, apply_override_lset by assumption. reflexivity.
      + rewrite upd_lset, apply_override_lset by assumption. reflexivity.
    - rewrite (upd_lset 166) by assumption.
      destruct (0 <? oi); [|destruct (0 <? oe); [|destruct ls; destruct rest as [|[l2 s2] r2]]];
        cbn [negb ostatus_is_isolate length Nat.leb andb tl]; rewrite upd_lset by assumption; reflexivity.
    - rewrite !lset_nth. reflexivity.
    - rewrite upd_lset by assumption. cbn [bind].
      destruct (k =c BN); [rewrite lset_nth | rewrite apply_override_lset by assumption]; reflexivity. }
  rewrite copy_units_block by assumption. cbn [bind].
  rewrite (get_some _ _ _ _ (nth_error_lset_all_in (seq i len) lv _ i ltac:(apply in_seq; lia) ltac:(lia))). cbn [bind].
  unfold ex_next, ctl_of. cbn [ex_stack ex_oi ex_oe ex_vi ex_levels ex_pc ex_run_level ex_run_start ex_runs]. fold s.
  destruct (i =? 0); [reflexivity|]. destruct (negb (removed_by_x9 k) && _); reflexivity.
Qed.

Lemma upd_bind_inv {A B} s (v : list A) i x (f : list A -> res B) y :
  bind (upd s v i x) f = Ok y -> i < length v /\ f (lset v i x) = Ok y.
Proof. intros H. apply bind_ok in H as (v' & H1 & H2). apply upd_ok_inv in H1 as [Hi ->]. auto. Qed.
Lemma override_bind_inv {B} site s pc i (f : list bclass -> res B) y :
  bind (apply_override site s pc i) f = Ok y -> f (lset pc i (ov_class s (nth i pc L))) = Ok y.
Proof. intros H. apply bind_ok in H as (v' & H1 & H2). apply apply_override_inv in H1 as ->. exact H2. Qed.

(* a step on a one-unit character that returns at all returned [ex_next]: no bounds are assumed, a write
   that the class does not make ([lset_nth]) and a write out of range both leave the vector as it is *)
Lemma ex_step_inv oc st i st' : ex_step oc st (i, 1) = Ok st' ->
  exists k, nth_error oc i = Some k /\ i < length (ex_levels st) /\ st' = ex_next st i 1 k.
Proof.
  destruct st as [[|[ll ls] rest] oi oe vi lv pc rl rs runs]; [discriminate|].
  lazy beta iota delta [ex_step ex_stack ex_oi ex_oe ex_vi ex_levels ex_pc ex_run_level ex_run_start ex_runs].
  revert st'. apply bind_ok_elim. intros k Hk. apply get_ok in Hk.
  apply bind_ok_elim. intros r Hm.
  pose (s := {| ct_stack := (ll, ls) :: rest; ct_oi := oi; ct_oe := oe; ct_vi := vi |}).
  assert (Hr : r = (ct_stack (ex_ctl s k), ct_oi (ex_ctl s k), ct_oe (ex_ctl s k), ct_vi (ex_ctl s k),
                    lset lv i (ex_lvl s k (nth i lv 0)), lset pc i (ex_cls s k (nth i pc L)))).
  { rewrite match_arm in Hm. unfold ex_lvl, ex_cls, ex_ctl. subst s.
    destruct (arm_of k); cbn [top ct_stack ct_oi ct_oe ct_vi hd fst snd].
    - apply upd_bind_inv in Hm as [Hi Hm]. revert Hm.
      generalize (if class_is_rtl k then level_next_rtl ll else level_next_ltr ll). intros onl Hm.
      destruct (is_isolate_init k).
      + apply override_bind_inv in Hm.
        destruct onl as [nl|]; [destruct ((oi =? 0) && (oe =? 0))|]; injection Hm as <-; reflexivity.
      + cbn [bind] in Hm. apply bind_ok in Hm as ([[[[stack' oi'] oe'] vi'] lv'] & Hx & Hm).
        apply upd_bind_inv in Hm as [_ Hm]. injection Hm as <-.
        destruct onl as [nl|]; [destruct ((oi =? 0) && (oe =? 0)); [apply upd_bind_inv in Hx as [_ Hx]|]|];
          try destruct (oi =? 0); injection Hx as <- <- <- <- <-; rewrite ?lset_lset; reflexivity.
    - destruct (0 <? oi); [|destruct (0 <? vi); [destruct (pop_through_isolate _) as [|[l2 s2] r2]; [discriminate|]|]];
        apply upd_bind_inv in Hm as [_ Hm]; apply override_bind_inv in Hm; injection Hm as <-; reflexivity.
    - destruct (0 <? oi); [|destruct (0 <? oe); [|destruct ls; destruct rest as [|[l2 s2] r2]]];
        cbn [negb ostatus_is_isolate length Nat.leb andb tl] in Hm |- *;
        apply upd_bind_inv in Hm as [_ Hm]; apply upd_bind_inv in Hm as [_ Hm]; injection Hm as <-; reflexivity.
    - injection Hm as <-. rewrite !lset_nth. reflexivity.
    - apply upd_bind_inv in Hm as [Hi Hm].
      destruct (k =c BN); [cbn [bind] in Hm; rewrite lset_nth | apply override_bind_inv in Hm]; injection Hm as <-; reflexivity. }
  rewrite Hr. clear r Hm Hr. change (range 1 1) with (@nil nat). cbn [copy_units bind].
  apply bind_ok_elim. intros li Hli. apply get_ok in Hli. pose proof (nth_error_lt _ _ _ Hli) as Hi.
  rewrite lset_length in Hi. rewrite nth_error_lset_eq in Hli by exact Hi. injection Hli as <-.
  intros st' H. exists k. split; [exact Hk|]. split; [exact Hi|].
  unfold ex_next, ctl_of. cbn [ex_stack ex_oi ex_oe ex_vi ex_levels ex_pc ex_run_level ex_run_start ex_runs seq lset_all].
  destruct (i =? 0); [|destruct (negb (removed_by_x9 k) && _)]; injection H as <-; reflexivity.
Qed.

Lemma status_of_iso k : is_isolate_init k = true -> status_of k = OIsolate.
Proof. destruct k; cbn; congruence. Qed.
Lemma status_of_not_iso k : is_isolate_init k = false -> ostatus_is_isolate (status_of k) = false.
Proof. destruct k; cbn; congruence. Qed.

Lemma ex_ctl_shape s k :
  stack_shape (ct_vi s) (ct_stack s) -> stack_shape (ct_vi (ex_ctl s k)) (ct_stack (ex_ctl s k)).
Proof.
  destruct s as [stack oi oe vi]. cbn [ct_vi ct_stack]. intros H. unfold ex_ctl.
  destruct (arm_of k); cbn [ct_stack ct_oi ct_oe ct_vi]; try exact H.
  - destruct (if class_is_rtl k then _ else _) as [nl|];
      [destruct ((oi =? 0) && (oe =? 0))|]; try (destruct (is_isolate_init k), (oi =? 0); exact H).
    cbn [ct_stack ct_vi]. destruct (is_isolate_init k) eqn:Ei.
    + rewrite (status_of_iso k Ei). apply ss_iso, H.
    + apply ss_non; [apply status_of_not_iso, Ei | exact H].
  - destruct (0 <? oi); [exact H|]. destruct (Nat.ltb_spec 0 vi) as [Hv|Hv]; [|exact H].
    cbn [ct_stack ct_vi]. apply stack_shape_pop. replace (S (vi - 1)) with vi by lia. exact H.
  - destruct (0 <? oi); [exact H|]. destruct (0 <? oe); [exact H|].
    destruct (stack_shape_top _ _ H) as (l & s & r & ->). cbn [top ct_stack hd snd].
    destruct (negb (ostatus_is_isolate s) && (2 <=? length ((l, s) :: r))) eqn:E; [|exact H].
    apply andb_true_iff in E as [E1 E2]. apply negb_true_iff in E1. apply Nat.leb_le in E2.
    exact (stack_shape_tl _ _ _ _ H E1 E2).
Qed.

Definition ex_wf (n : nat) (st : ex_state) : Prop :=
  stack_shape (ex_vi st) (ex_stack st) /\ length (ex_levels st) = n /\ length (ex_pc st) = n.

Lemma ex_next_wf n st i len k : ex_wf n st -> ex_wf n (ex_next st i len k).
Proof.
  intros (Hs & Hl & Hp). unfold ex_next.
  destruct (if i =? 0 then _ else _) as [[rl rs] runs]. unfold ex_wf.
  cbn [ex_stack ex_vi ex_levels ex_pc]. rewrite !lset_all_length.
  split; [exact (ex_ctl_shape (ctl_of st) k Hs) | split; assumption].
Qed.

Lemma ex_fold_frame oc : forall m pos st stf,
  ex_fold oc st (map (fun i => (i, 1)) (seq pos m)) = Ok stf ->
  forall u, u < pos ->
    nth_error (ex_levels stf) u = nth_error (ex_levels st) u /\ nth_error (ex_pc stf) u = nth_error (ex_pc st) u.
Proof.
  induction m as [|m IH]; intros pos st stf H u Hu; cbn [seq map ex_fold] in H.
  - injection H as <-. auto.
  - apply bind_ok in H as (st1 & H1 & H). apply ex_step_inv in H1 as (k & _ & _ & ->).
    destruct (IH _ _ _ H u ltac:(lia)) as [-> ->]. rewrite ex_next_levels, ex_next_pc. cbn [seq lset_all].
    rewrite !nth_error_lset_neq by lia. auto.
Qed.
