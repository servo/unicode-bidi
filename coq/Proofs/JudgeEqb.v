(* Proofs/JudgeEqb.v — the boolean comparisons the judges (Judge.v) are written with hold of equal
   arguments; [list_eqb2] compares two lists of different types position by position. *)
From BidiVerif Require Import Base Obs Judge Stmts2.
From BidiVerif.Proofs Require Import ListLib.

Lemma nat_list_eqb_refl l : nat_list_eqb l l = true.
Proof. apply list_eqb_refl, Nat.eqb_refl. Qed.
Lemma N_list_eqb_refl l : N_list_eqb l l = true.
Proof. apply list_eqb_refl, N.eqb_refl. Qed.
Lemma cls_list_eqb_refl l : cls_list_eqb l l = true.
Proof. apply list_eqb_refl, ceq_refl. Qed.
Lemma run_eqb_refl r : run_eqb r r = true.
Proof. unfold run_eqb. rewrite !Nat.eqb_refl. reflexivity. Qed.
Lemma dir_eqb_refl x : dir_eqb x x = true.
Proof. destruct x; reflexivity. Qed.
Lemma opt_eqb_refl {A} (eqb : A -> A -> bool) (H : forall x, eqb x x = true) o : opt_eqb eqb o o = true.
Proof. destruct o; [apply H | reflexivity]. Qed.

(* [res_eqb] is [res_rel] with both sides of one type *)
Lemma res_rel_refl {A} (rel : A -> A -> bool) (H : forall a, rel a a = true) x : res_rel rel x x = true.
Proof. destruct x; [apply H | reflexivity]. Qed.
Lemma res_eqb_refl {A} (eqb : A -> A -> bool) (H : forall a, eqb a a = true) x : res_eqb eqb x x = true.
Proof. exact (res_rel_refl eqb H x). Qed.

Lemma list_eqb2_map {A B C} (R : B -> C -> bool) (f : A -> B) (g : A -> C) l :
  (forall x, In x l -> R (f x) (g x) = true) -> list_eqb2 R (map f l) (map g l) = true.
Proof.
  induction l as [|x l IH]; intros H; [reflexivity|]. cbn [map list_eqb2].
  rewrite (H x (or_introl eq_refl)), IH; [reflexivity|]. intros y Hy. apply H. right. exact Hy.
Qed.

Lemma list_eqb2_length {A B} (eqb : A -> B -> bool) : forall l1 l2,
  list_eqb2 eqb l1 l2 = true -> length l1 = length l2.
Proof.
  induction l1 as [|x t IH]; intros [|y u] H; cbn [list_eqb2] in H; try discriminate; [reflexivity|].
  apply andb_true_iff in H as [_ H]. cbn [length]. f_equal. exact (IH _ H).
Qed.

Lemma opt_eqb2_Some (l : list nat) : list_eqb2 opt_nat_eqb (map Some l) l = true.
Proof.
  rewrite <- (map_id l) at 2. apply list_eqb2_map. intros x _. apply Nat.eqb_refl.
Qed.

Lemma opt_eqb2_Some_inv : forall (v w : list nat), list_eqb2 opt_nat_eqb (map Some v) w = true -> v = w.
Proof.
  induction v as [|x v IH]; intros [|y w] H; cbn in H; try discriminate; [reflexivity|].
  apply andb_true_iff in H as [H1 H2]. apply Nat.eqb_eq in H1. rewrite H1, (IH w H2). reflexivity.
Qed.

Lemma case_chars_view c : case_chars c = view_of (tc_enc c) (tc_text c).
Proof. unfold case_chars, view_of. destruct (tc_enc c); reflexivity. Qed.
