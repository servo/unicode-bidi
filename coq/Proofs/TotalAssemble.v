(* Proofs/TotalAssemble.v — totality of the two constructors.
   T_levels outright: resolve_levels and assign_levels_to_removed_chars never panic, keep the length
   and keep the levels within bounds.  At character level (ghost encoding U32): the scanner
   compute_initial_info never panics because the isolate stack only holds positions already scanned
   ([Inv]); with the totality statements of the stages, every paragraph and so both constructors are
   total, with one level per character between the paragraph level and 126 (t_constructors_char_from).
   With length independence the same holds for every encoding, per code unit and uniformly inside
   each character (c07_c08_from). *)
From BidiVerif Require Import Base ConstsGen ModelText ModelResolve Spec Judge Stmts Stmts2 Stmts3 Stmts4.
From BidiVerif.Proofs Require Import ListLib Units.
From BidiVerif.Proofs Require Import LevelOps TextView ExplicitInv Pipeline.

Lemma rl1_total c l : l <= 125 -> exists o, rl1 c l = Ok o /\ l <= o <= 126.
Proof.
  intros Hl.
  assert (H2 : is_rtl l = false -> l + 2 <= 126).
  { intros E. assert (l <> 125) by (intros ->; discriminate E). lia. }
  unfold rl1. rewrite !raise_spec.
  destruct (Nat.leb_spec (l + 1) 126) as [_|]; [|lia].
  destruct (is_rtl l).
  - destruct c; eexists; (split; [reflexivity | lia]).
  - destruct (Nat.leb_spec (l + 2) 126) as [_|X]; [|specialize (H2 eq_refl); lia].
    destruct c; eexists; (split; [reflexivity | lia]).
Qed.

Lemma resolve_levels_total : forall pc lv,
  length pc = length lv -> Forall (fun l => l <= 125) lv ->
  exists out, resolve_levels pc lv = Ok out /\ length out = length lv /\
              Forall2 (fun l o => l <= o /\ o <= 126) lv out.
Proof.
  induction pc as [|c pcs IH]; intros [|l ls] Hlen HF; cbn [length] in Hlen; try discriminate.
  - exists []. split; [reflexivity|]. split; [reflexivity|constructor].
  - inversion HF as [|? ? Hl HF']; subst.
    destruct (IH ls ltac:(lia) HF') as (rest & Hr & Hlr & Hfr).
    destruct (rl1_total c l Hl) as (o & Ho & Hb).
    rewrite resolve_levels_cons, Ho, Hr. cbn [bind].
    eexists. split; [reflexivity|]. split; [cbn [length]; lia | constructor; [lia | exact Hfr]].
Qed.

Lemma assign_removed_total : forall oc lv prev,
  length oc = length lv ->
  exists out, assign_removed_from prev oc lv = Ok out /\ length out = length lv /\
    (forall lo hi, lo <= prev <= hi -> Forall (fun l => lo <= l <= hi) lv ->
                   Forall (fun l => lo <= l <= hi) out).
Proof.
  induction oc as [|c cs IH]; intros [|l ls] prev Hlen; cbn [length] in Hlen; try discriminate.
  - exists []. split; [reflexivity|]. split; [reflexivity|]. intros; constructor.
  - cbn [assign_removed_from].
    destruct (IH ls (if removed_by_x9 c then prev else l) ltac:(lia)) as (rest & Hr & Hlr & Hb).
    rewrite Hr. cbn [bind].
    eexists. split; [reflexivity|]. split; [cbn [length]; lia|].
    intros lo hi Hp HF. inversion HF as [|? ? Hl HF']; subst.
    assert (Hx : lo <= (if removed_by_x9 c then prev else l) <= hi)
      by (destruct (removed_by_x9 c); assumption).
    constructor; [exact Hx|]. apply Hb; assumption.
Qed.

Lemma t_levels_proof : T_levels.
Proof.
  split.
  - exact resolve_levels_total.
  - intros pl oc lv Hlen. unfold assign_levels_to_removed_chars.
    apply assign_removed_total. exact Hlen.
Qed.

Lemma expand_ones {A} (t : list N) : forall (v : list A), length v = length t ->
  expand (map snd (v32 t)) v = v.
Proof.
  induction t as [|c t IH]; intros [|x v] H; cbn [length] in H; try discriminate; [reflexivity|].
  cbn [v32 map snd]. rewrite expand_cons. cbn [repeat app]. f_equal. apply IH. lia.
Qed.

Lemma total_v32 (t : list N) : total (map snd (v32 t)) = length t.
Proof. rewrite total_slen. apply slen_v32. Qed.

Lemma uniform_expand_refl {A} (eqb : A -> A -> bool) (Hrefl : forall x, eqb x x = true) lens :
  forall v, length v = length lens -> Forall (fun n => 0 < n) lens ->
  uniform eqb lens (expand lens v) = true.
Proof. intros v H _. apply uniform_expanded; assumption. Qed.

Definition bounded_prop (paras : list para_info) (levels : list nat) : Prop :=
  Forall (fun p => forall i, p_start p <= i < p_end p ->
                   exists l, nth_error levels i = Some l /\ p_level p <= l /\ l <= 126) paras.

Lemma levels_bounded_iff paras levels : levels_bounded paras levels = true <-> bounded_prop paras levels.
Proof.
  unfold levels_bounded, bounded_prop. rewrite forallb_forall, Forall_forall.
  split; intros H p Hp; specialize (H p Hp).
  - rewrite forallb_forall in H. intros i Hi.
    assert (Hin : In i (range (p_start p) (p_end p))) by (unfold range; apply in_seq; lia).
    specialize (H i Hin). destruct (nth_error levels i) as [l|]; [|discriminate].
    exists l. apply andb_true_iff in H as [H1 H2]. apply Nat.leb_le in H1, H2. auto.
  - rewrite forallb_forall. intros i Hin. unfold range in Hin. apply in_seq in Hin.
    destruct (H i ltac:(lia)) as (l & -> & H1 & H2).
    apply andb_true_iff. split; apply Nat.leb_le; assumption.
Qed.

Fixpoint ptile (pos fin : nat) (ps : list para_info) : Prop :=
  match ps with
  | [] => pos = fin
  | p :: r => p_start p = pos /\ p_start p <= p_end p /\ ptile (p_end p) fin r
  end.

Lemma ptile_le ps : forall a b, ptile a b ps -> a <= b.
Proof.
  induction ps as [|p r IH]; intros a b H; cbn [ptile] in H; [lia|].
  destruct H as (H1 & H2 & H3). apply IH in H3. lia.
Qed.

Lemma ptile_snoc ps : forall a b c lvl, ptile a b ps -> b <= c ->
  ptile a c (ps ++ [{| p_start := b; p_end := c; p_level := lvl |}]).
Proof.
  induction ps as [|p r IH]; intros a b c lvl H Hbc; cbn [ptile app] in *.
  - subst. cbn [p_start p_end]. auto.
  - destruct H as (H1 & H2 & H3). repeat split; auto.
Qed.

Lemma dir3_le o : dir3 o -> opt_or o 0 <= 1.
Proof. intros [->|[->| ->]]; cbn [opt_or]; lia. Qed.

Section Init32.
Variable ds : datasource.
Variable split : bool.
Variable d : option nat.
Hypothesis Hd : dir3 d.

Record Inv (i : nat) (st : ii_state) : Prop := {
  iv_len : length (ii_classes st) = i;
  iv_stk : Forall (fun s => s < i) (ii_stack st);
  iv_ps : ii_para_start st <= i;
  iv_tile : ptile 0 (ii_para_start st) (ii_paras st);
  iv_lvl : Forall (fun p => p_level p <= 1) (ii_paras st);
  iv_pl : dir3 (ii_para_level st);
  iv_fl : length (ii_flags st) = length (ii_paras st) }.

Lemma Forall_lt_S (l : list nat) i : Forall (fun s => s < i) l -> Forall (fun s => s < S i) l.
Proof. intros H. eapply Forall_impl; [|exact H]. intros s Hs. cbn beta in *. lia. Qed.

(* a strong character rewrites the innermost open isolate initiator in place when that is an FSI *)
Lemma fsi_write_total (cl : list bclass) s k : s < length cl ->
  exists k0 cl', get 383 cl s = Ok k0 /\
    (if k0 =c FSI then write_fsi cl s (range 0 (char_len U32 fc_FSI)) k else Ok cl) = Ok cl' /\
    length cl' = length cl.
Proof.
  intros Hs. destruct (get_total 383 cl s Hs) as (k0 & Hg). exists k0.
  destruct (k0 =c FSI); [|exists cl; auto].
  exists (lset cl (s + 0) k). split; [exact Hg|]. split; [|apply lset_length].
  cbn [char_len]. change (range 0 1) with [0]. cbn [write_fsi]. rewrite upd_lset by lia. reflexivity.
Qed.

Lemma strong_ok st i c : Inv i st -> is_strong (ds_class ds c) = true ->
  exists st', ii_step U32 ds split d st (i, c) = Ok st' /\ Inv (S i) st'.
Proof.
  intros [I1 I2 I3 I4 I5 I6 I7] Hk. unfold ii_step. cbv zeta. change (char_len U32 c) with 1.
  remember (ii_classes st ++ repeat (ds_class ds c) 1) as cl0 eqn:Ecl0.
  assert (Hlen : length cl0 = S i) by (subst cl0; rewrite app_length, repeat_length; lia).
  clear Ecl0.
  destruct (ds_class ds c); try discriminate Hk;
    cbn [ii_classes ii_stack ii_para_start ii_para_level ii_pure ii_iso ii_paras ii_flags];
    (destruct (ii_stack st) as [|s stk];
     [ eexists; split; [reflexivity|];
       constructor; cbn [ii_classes ii_stack ii_para_start ii_para_level ii_paras ii_flags]; auto;
       destruct I6 as [E|[E|E]]; rewrite E; unfold dir3; cbn; auto
     | inversion I2 as [|? ? Hs Hstk]; subst;
       match goal with |- context [write_fsi _ _ _ ?k] =>
         destruct (fsi_write_total cl0 s k ltac:(lia)) as (k0 & cl & Hg & Hw & Hcl) end;
       rewrite Hg; cbn [bind]; rewrite Hw; cbn [bind];
       eexists; split; [reflexivity|];
       constructor; cbn [ii_classes ii_stack ii_para_start ii_para_level ii_paras ii_flags]; auto;
       [ lia | constructor; [lia | apply Forall_lt_S; exact Hstk] ] ]).
Qed.

Lemma ii_step_ok st i c : Inv i st ->
  exists st', ii_step U32 ds split d st (i, c) = Ok st' /\ Inv (S i) st'.
Proof.
  intros I. destruct (is_strong (ds_class ds c)) eqn:Hs; [exact (strong_ok st i c I Hs)|].
  pose proof I as [I1 I2 I3 I4 I5 I6 I7].
  assert (Hlen : forall k, length (ii_classes st ++ repeat k 1) = S i)
    by (intros k; rewrite app_length, repeat_length; lia).
  unfold ii_step. cbv zeta. cbn [char_len].
  destruct (ds_class ds c) eqn:Hk; try discriminate Hs;
    cbn [ii_classes ii_stack ii_para_start ii_para_level ii_pure ii_iso ii_paras ii_flags].
  all: try (lazymatch type of Hk with _ = B => idtac end;
      destruct split;
      (eexists; split; [reflexivity|];
       constructor; cbn [ii_classes ii_stack ii_para_start ii_para_level ii_paras ii_flags]; auto)).
  all: try (eexists; split; [reflexivity|];
      constructor; cbn [ii_classes ii_stack ii_para_start ii_para_level ii_paras ii_flags]; auto;
      first [ apply Forall_lt_S; exact I2
            | constructor; [lia | apply Forall_lt_S; exact I2]
            | apply Forall_lt_S; destruct (ii_stack st); [constructor | inversion I2; assumption] ]).
  - lia.
  - apply ptile_snoc; [exact I4 | lia].
  - apply Forall_app; split; [exact I5|].
    constructor; [cbn [p_level]; apply dir3_le; exact I6 | constructor].
  - rewrite !app_length, I7. reflexivity.
  - apply Forall_lt_S; exact I2.
Qed.

Lemma ii_fold_ok t : forall i st, Inv i st ->
  exists st', ii_fold U32 ds split d st (combine (seq i (length t)) t) = Ok st' /\ Inv (i + length t) st'.
Proof.
  induction t as [|c t IH]; intros i st I.
  - exists st. split; [reflexivity|]. cbn [length]. rewrite Nat.add_0_r. exact I.
  - cbn [length seq combine ii_fold].
    destruct (ii_step_ok st i c I) as (st1 & E1 & I1). rewrite E1. cbn [bind].
    destruct (IH (S i) st1 I1) as (st' & E' & I'). exists st'. split; [exact E'|].
    replace (i + S (length t)) with (S i + length t) by lia. exact I'.
Qed.

Lemma initial_info_32 t :
  exists ii, compute_initial_info U32 ds t d split = Ok ii /\
    length (in_classes ii) = length t /\ in_level ii <= 1 /\
    (split = true -> ptile 0 (length t) (in_paras ii)) /\
    Forall (fun p => p_level p <= 1) (in_paras ii) /\
    length (in_flags ii) = length (in_paras ii).
Proof.
  set (st0 := {| ii_classes := []; ii_stack := []; ii_para_start := 0; ii_para_level := d;
                 ii_pure := true; ii_iso := false; ii_paras := []; ii_flags := [] |}).
  assert (I0 : Inv 0 st0).
  { constructor; cbn [st0 ii_classes ii_stack ii_para_start ii_para_level ii_paras ii_flags]; auto.
    reflexivity. }
  destruct (ii_fold_ok t 0 st0 I0) as (st & E & I). cbn [Nat.add] in I.
  destruct I as [I1 I2 I3 I4 I5 I6 I7].
  unfold compute_initial_info. fold st0. cbn [t_char_indices t_len]. rewrite E. cbn [bind].
  destruct (split && (ii_para_start st <? length t)) eqn:Eb.
  - eexists. split; [reflexivity|]. cbn [in_classes in_level in_paras in_flags].
    apply andb_true_iff in Eb as [Es Elt]. apply Nat.ltb_lt in Elt.
    split; [exact I1|]. split; [apply dir3_le; exact I6|].
    split; [intros _; apply ptile_snoc; [exact I4 | lia]|].
    split; [apply Forall_app; split; [exact I5|];
            constructor; [cbn [p_level]; apply dir3_le; exact I6 | constructor]|].
    rewrite !app_length, I7. reflexivity.
  - eexists. split; [reflexivity|]. cbn [in_classes in_level in_paras in_flags].
    split; [exact I1|]. split; [apply dir3_le; exact I6|].
    split; [|split; [exact I5 | exact I7]].
    intros ->. cbn [andb] in Eb. apply Nat.ltb_ge in Eb.
    replace (length t) with (ii_para_start st) by lia. exact I4.
Qed.
End Init32.

Lemma resolve_sequences_total (HW : T_weak) (HN : T_neutral) ds cps lv oc :
  length oc = length cps -> length lv = length cps ->
  forall seqs pc, length pc = length cps -> Forall (seq_wf (length cps)) seqs ->
  exists out, resolve_sequences U32 ds false cps lv oc pc seqs = Ok out /\ length out = length cps.
Proof.
  intros Hoc Hlv. induction seqs as [|sq rest IH]; intros pc Hpc HF.
  - exists pc. split; [reflexivity | exact Hpc].
  - inversion HF as [|? ? Hsq HF']; subst.
    cbn [resolve_sequences].
    destruct (HW cps sq pc Hpc Hsq) as (pc1 & E1 & L1 & _). rewrite E1. cbn [bind].
    assert (Hpc1 : length pc1 = length cps) by lia.
    destruct (HN ds cps sq lv oc pc1 Hpc1 Hoc Hlv Hsq) as (pc2 & E2 & L2 & _).
    unfold resolve_neutral in E2. rewrite E2. cbn [bind].
    apply IH; [lia | exact HF'].
Qed.

Lemma Forall2_bounds pl lv out :
  Forall (fun l => pl <= l /\ l <= 125) lv ->
  Forall2 (fun l o => l <= o /\ o <= 126) lv out ->
  Forall (fun l => pl <= l <= 126) out.
Proof.
  intros HF H2. induction H2 as [|l o lv out [H1 H3] H2 IH]; [constructor|].
  inversion HF as [|? ? [Ha Hb] HF']; subst. constructor; [lia | apply IH; exact HF'].
Qed.

Lemma para_total (HS : T_sequences) (HW : T_weak) (HN : T_neutral) (HL : T_levels)
      ds pl pure iso cps oc :
  pl <= 1 -> length oc = length cps ->
  exists out, compute_bidi_info_for_para_gen U32 ds false pl pure iso cps oc = Ok out /\
     length out = length cps /\ Forall (fun l => pl <= l /\ l <= 126) out.
Proof.
  intros Hpl Hoc. destruct ((pl =? 0) && pure) eqn:Ef.
  { rewrite para_fast, Hoc by exact Ef.
    eexists. split; [reflexivity|]. split; [apply repeat_length|].
    apply Forall_forall. intros l Hl. apply repeat_spec in Hl. lia. }
  destruct (explicit_chars cps pl oc Hoc) as (levels & pc & runs & Hex & Hl1 & Hl2 & Ht & He & HF).
  specialize (HF ltac:(lia)).
  rewrite <- Hoc in Hex at 1. destruct HL as [HL1 HL2].
  (* T_sequences speaks of non-empty paragraphs only *)
  assert (Hsq : exists seqs, isolating_run_sequences pl oc levels runs iso = Ok seqs /\
                             Forall (seq_wf (length cps)) seqs).
  { destruct (Nat.eq_dec (length cps) 0) as [Hz|Hnz].
    - rewrite (He Hz). exists []. split; [destruct iso; reflexivity | constructor].
    - destruct (HS pl oc levels runs iso (length cps) Hoc Hl1 ltac:(lia) (Ht ltac:(lia))) as (seqs & Es & Hwf & _).
      exists seqs. auto. }
  destruct Hsq as (seqs & Es & Hwf).
  destruct (resolve_sequences_total HW HN ds cps levels oc Hoc Hl1 seqs pc Hl2 Hwf) as (pc' & Er & Lr).
  assert (H125 : Forall (fun l => l <= 125) levels)
    by (eapply Forall_impl; [|exact HF]; intros a [_ Ha]; exact Ha).
  destruct (HL1 pc' levels ltac:(lia) H125) as (lv2 & E2 & L2 & B2).
  rewrite (para_slow U32 ds false pl pure iso cps oc _ _ _ _ _ _ Ef Hex Es Er E2).
  destruct (HL2 pl oc lv2 ltac:(lia)) as (out & E3 & L3 & B3).
  exists out. split; [exact E3|]. split; [lia|].
  apply (B3 pl 126); [lia|]. apply (Forall2_bounds pl levels lv2 HF B2).
Qed.

Lemma bidi_paras_total (HS : T_sequences) (HW : T_weak) (HN : T_neutral) (HL : T_levels)
      ds text classes fin :
  length classes = length text -> fin <= length text ->
  forall paras flags acc,
    length flags = length paras ->
    ptile (length acc) fin paras ->
    Forall (fun p => p_level p <= 1) paras ->
    exists rest, bidi_paras U32 ds false text classes paras flags acc = Ok (acc ++ rest) /\
      length (acc ++ rest) = fin /\ bounded_prop paras (acc ++ rest).
Proof.
  intros Hcl Hfin. induction paras as [|p ps IH]; intros flags acc Hfl Ht Hlv.
  - exists []. destruct flags; cbn [bidi_paras]; rewrite app_nil_r;
      (split; [reflexivity|]; split; [exact Ht | constructor]).
  - destruct flags as [|f fs]; [discriminate Hfl|]. cbn [length] in Hfl.
    cbn [ptile] in Ht. destruct Ht as (Hs & Hse & Ht).
    inversion Hlv as [|? ? Hp Hlv']; subst.
    pose proof (ptile_le _ _ _ Ht) as Hpe.
    pose proof (slice_ok 509 text (p_start p) (p_end p) Hse ltac:(lia)) as E1.
    pose proof (slice_ok 510 classes (p_start p) (p_end p) Hse ltac:(lia)) as E2.
    destruct (para_total HS HW HN HL ds (p_level p) (f_pure_ltr f) (f_has_isolate f) _ _ Hp
                (eq_trans (proj1 (slice_length _ _ _ _ _ E2)) (eq_sym (proj1 (slice_length _ _ _ _ _ E1)))))
      as (pl & E3 & L3 & B3).
    rewrite (proj1 (slice_length _ _ _ _ _ E1)) in L3.
    rewrite (bidi_paras_step U32 ds false text classes p ps f fs acc _ _ pl (eq_sym Hs) E1 E2 E3).
    destruct (IH fs (acc ++ pl) ltac:(lia)) as (rest & E4 & L4 & B4).
    { rewrite app_length, L3. replace (length acc + (p_end p - p_start p)) with (p_end p) by lia. exact Ht. }
    { exact Hlv'. }
    exists (pl ++ rest). rewrite app_assoc. split; [exact E4|]. split; [exact L4|].
    constructor; [|exact B4].
    intros i Hi.
    rewrite nth_error_app1 by (rewrite app_length, L3; lia).
    rewrite nth_error_app2 by lia.
    destruct (nth_error pl (i - length acc)) as [l|] eqn:En.
    + exists l. split; [reflexivity|]. apply nth_error_In in En.
      rewrite Forall_forall in B3. exact (B3 l En).
    + apply nth_error_None in En. lia.
Qed.

Lemma t_constructors_char_from :
  T_sequences -> T_weak -> T_neutral -> T_levels -> T_constructors_char.
Proof.
  intros HS HW HN HL ds cps d Hd. split.
  - destruct (initial_info_32 ds true d Hd cps) as (ii & Ei & Lc & _ & Ht & Hlv & Hfl).
    destruct (bidi_paras_total HS HW HN HL ds cps (in_classes ii) (length cps) Lc (le_n _)
                               (in_paras ii) (in_flags ii) [] Hfl (Ht eq_refl) Hlv)
      as (rest & Eb & Lb & Bb).
    cbn [app] in Eb, Lb, Bb.
    eexists. split; [exact (bidi_info_new_intro U32 ds false cps d ii rest Ei Eb)|].
    cbn [bi_levels bi_classes bi_paras].
    split; [exact Lb|]. split; [exact Lc|]. apply levels_bounded_iff. exact Bb.
  - destruct (initial_info_32 ds false d Hd cps) as (ii & Ei & Lc & Hl & _).
    destruct (para_total HS HW HN HL ds (in_level ii) (in_pure ii) (in_iso ii) cps (in_classes ii) Hl Lc)
      as (out & Eo & Lo & Bo).
    eexists. split; [exact (para_bidi_info_new_intro U32 ds false cps d ii out Ei Eo)|].
    cbn [pb_levels pb_classes pb_level].
    split; [exact Lo|]. split; [exact Lc | exact Bo].
Qed.

Lemma view_lens_pos e text : valid_text e text -> Forall (fun n => 0 < n) (map snd (view_of e text)).
Proof. apply TextView.view_lens_pos. Qed.

Lemma bounded_expand lens paras lv :
  length lv = length lens ->
  bounded_prop paras lv -> bounded_prop (map (upara lens) paras) (expand lens lv).
Proof.
  intros Hl HB. unfold bounded_prop in *. rewrite Forall_map. revert HB. apply Forall_impl. intros p HB.
  cbn [upara p_start p_end p_level]. intros u Hu.
  destruct (coord_exists lens u) as (j & t & Ht & ->).
  { pose proof (ustart_le_total lens (p_end p)). lia. }
  rewrite (expand_nth lens lv j t Hl Ht). apply HB.
  pose proof (ustart_S lens j) as HS. split.
  - destruct (Nat.le_gt_cases (p_start p) j) as [H|H]; [exact H|].
    pose proof (ustart_mono lens (S j) (p_start p) H). lia.
  - destruct (Nat.lt_ge_cases j (p_end p)) as [H|H]; [exact H|].
    pose proof (ustart_mono lens (p_end p) j H). lia.
Qed.

Lemma c07_c08_from :
  T_constructors_char -> LI_bidi_info -> LI_para_bidi_info -> C07_C08_constructors.
Proof.
  intros HT HB HP e ds text d Hv Hf Hd lens.
  set (cps := map fst (view_of e text)).
  assert (Hlen : length cps = length lens) by (unfold cps, lens; rewrite !map_length; reflexivity).
  assert (Hpos : Forall (fun n => 0 < n) lens) by (apply view_lens_pos; exact Hv).
  destruct (HT ds cps d Hd) as [(b & Eb & Ll & Lc & Bb) (p & Ep & Pl & Pc & Pb)].
  split.
  - pose proof (HB e text Hv ds d b Hf Eb) as E. fold lens in E.
    eexists. split; [exact E|]. cbn [bi_levels bi_classes bi_paras].
    split; [apply expand_length; lia|]. split; [apply expand_length; lia|].
    split; [apply uniform_expand_refl; [exact ceq_refl | lia | exact Hpos]|].
    split; [apply uniform_expand_refl; [exact Nat.eqb_refl | lia | exact Hpos]|].
    apply levels_bounded_iff. apply bounded_expand; [lia|]. apply levels_bounded_iff. exact Bb.
  - pose proof (HP e text Hv ds d p Hf Ep) as E. fold lens in E.
    eexists. split; [exact E|]. cbn [pb_levels pb_classes pb_level].
    split; [apply expand_length; lia|]. split; [apply expand_length; lia|].
    split; [apply uniform_expand_refl; [exact ceq_refl | lia | exact Hpos]|].
    split; [apply uniform_expand_refl; [exact Nat.eqb_refl | lia | exact Hpos]|].
    apply Forall_forall. intros l Hl. apply In_expand in Hl.
    rewrite Forall_forall in Pb. exact (Pb l Hl).
Qed.
