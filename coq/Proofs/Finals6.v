(* Proofs/Finals6.v — final-form theorems C07 (nothing panics) and C10 (paragraph independence, agreement
   of the single-paragraph type), for every valid case; both through C10_statement (Stmts6.v). *)
From BidiVerif Require Import Base ModelText ModelResolve Spec Obs Judge Stmts2 Stmts3 Stmts5 Stmts6.
From BidiVerif.Proofs Require Import ListLib JudgeEqb.
From BidiVerif.Proofs Require Import TotalAssemble CharAnalysis ObsValid Finals3.

Lemma c07_line e ds text (Hvalid : valid_text e text) cls lv pl i j :
  line_ctx e ds text cls lv pl i j -> line_no_panic (the_lo e text cls lv pl i j) = true.
Proof.
  intros C. unfold line_no_panic.
  rewrite (fl_rl e ds text Hvalid _ _ _ _ _ C), (fl_rlc e ds text Hvalid _ _ _ _ _ C).
  destruct (fl_vr e ds text Hvalid _ _ _ _ _ C) as (V & D & _).
  destruct (fl_rv e ds text Hvalid _ _ _ _ _ C) as [R _].
  destruct (fl_ro e ds text Hvalid _ _ _ _ _ C) as (out & Eo & _).
  rewrite V, D, R, Eo. reflexivity.
Qed.

Lemma c07_final_from_proof : C10_statement -> C07_final.
Proof.
  intros HC10 c Hvc. pose proof Hvc as (_ & Hv & Hf & Hd & _). rewrite case_chars_view in Hf.
  destruct (case_lines_forall c (fun _ _ => line_no_panic) Hvc) as (_ & _ & _ & _ & H1 & H2).
  { intros. apply (c07_line _ (tc_ds c)); assumption. }
  assert (H1' : forallb line_no_panic (to_bi_lines (model_obs false c)) = true) by exact H1.
  assert (H2' : forallb line_no_panic (to_pi_lines (model_obs false c)) = true) by exact H2.
  unfold C07_judge. rewrite H1', H2'.
  destruct (valid_obs c Hvc) as (b & p & cl & _ & _ & E). pose proof (obs_bi c) as Ebi. rewrite E in *.
  cbn [lift_obs to_bi] in Ebi. symmetry in Ebi.
  unfold lift_obs. cbn [to_ii to_bi to_bi_has_rtl to_bi_dirs to_bi_level_at to_pi to_pi_has_rtl to_pi_dir
                        to_bd to_bdf to_sub is_ok andb].
  destruct (HC10 _ _ _ _ _ Hv Hf Hd Ebi) as (HS & _). cbn [xbi bi_paras] in HS.
  apply forallb_forall. intros r Hr. apply in_map_iff in Hr as (q & <- & Hq).
  rewrite Forall_forall in HS. destruct (HS q Hq) as (s & sb & Es & Eb & _).
  rewrite Es. cbn [bind]. rewrite Eb. reflexivity.
Qed.

Lemma line_obs_eqb_refl lo : line_obs_eqb lo lo = true.
Proof.
  unfold line_obs_eqb.
  rewrite !(res_eqb_refl nat_list_eqb nat_list_eqb_refl), (res_eqb_refl N_list_eqb N_list_eqb_refl).
  rewrite res_eqb_refl; [reflexivity|]. intros [a b]. cbn [fst snd].
  rewrite nat_list_eqb_refl. apply list_eqb_refl, run_eqb_refl.
Qed.

Lemma view_nil e t : (e = U8 \/ e = U16) -> view_of e t = [] -> t = [].
Proof.
  intros [->| ->] H; cbn [view_of] in H.
  - destruct t; [reflexivity | discriminate].
  - destruct t as [|u r]; [reflexivity|]. cbn [decode16] in H.
    destruct (is_hi u); [destruct r as [|d r']; [discriminate|]; destruct (is_lo d); discriminate|].
    destruct (is_lo u); discriminate.
Qed.

Lemma c10_final_from_proof : C10_statement -> C10_final.
Proof.
  intros HC10 c Hvc. pose proof Hvc as (Henc & Hv & Hf & Hd & _). rewrite case_chars_view in Hf.
  destruct (case_c02 c Hvc) as (cs & ps & Eii & _ & Hps).
  destruct (valid_obs c Hvc) as (b & p & cl & CA & Hcl & E).
  pose proof (obs_bi c) as Ebi. pose proof (obs_pi c) as Epi. rewrite E in *.
  cbn [lift_obs to_ii to_bi to_pi] in Eii, Ebi, Epi. injection Eii as _ <-. symmetry in Ebi, Epi.
  set (lens := map snd (view_of (tc_enc c) (tc_text c))) in *.
  destruct (HC10 _ _ _ _ _ Hv Hf Hd Ebi) as (H1 & H2).
  unfold C10_judge, lift_obs. fold lens. cbn [to_bi to_pi to_sub to_bi_lines to_pi_lines okb].
  rewrite map_length, Nat.eqb_refl. cbn [andb].
  change (bi_paras (xbi lens b)) with (map (upara lens) (bi_paras b)) at 1.
  rewrite map_map, forallb_combine_maps.
  apply andb_true_iff. split.
  - apply forallb_forall. intros q Hq. rewrite Forall_forall in H1.
    destruct (H1 _ (in_map _ _ _ Hq)) as (s & sb & Es & Eb & Ec & El & Eq).
    cbn [fst snd]. rewrite Es. cbn [bind]. rewrite Eb. cbn [okb]. rewrite Ec, El, Eq.
    rewrite cls_list_eqb_refl, nat_list_eqb_refl. cbn [p_start p_end p_level andb].
    rewrite !Nat.eqb_refl. reflexivity.
  - destruct (is_single_paragraph c) eqn:Es; [|reflexivity].
    assert (Hlen : length (bi_paras (xbi lens b)) <= 1).
    { cbn [xbi bi_paras]. rewrite (list_eqb2_length _ _ _ Hps). apply Nat.leb_le. exact Es. }
    destruct (H2 Hlen) as (pb & Epb & Pc & Pl & Pq).
    rewrite Epi in Epb. injection Epb as <-.
    rewrite Pc, Pl, cls_list_eqb_refl, nat_list_eqb_refl. cbn [andb].
    cbn [xbi xpi bi_classes bi_levels bi_paras pb_classes pb_levels pb_level] in *.
    pose proof (ca_tile _ _ _ _ _ CA) as Ht. rewrite map_length in Ht, Hlen.
    apply andb_true_iff. split.
    + destruct (bi_paras b) as [|q [|q2 qs]]; cbn [map length] in *; [| |lia].
      * cbn [ptile] in Ht. symmetry in Ht. apply length_zero_iff_nil in Ht.
        rewrite (view_nil _ _ Henc Ht). reflexivity.
      * rewrite Pq. apply Nat.eqb_refl.
    + (* the line queries: the same functions on the same arguments *)
      replace (map (fun r => the_lo _ _ (bi_classes b) (bi_levels b) (level_of_line (bi_paras b) r) (fst r) (snd r)) cl)
        with (map (fun r => the_lo (tc_enc c) (tc_text c) (pb_classes p) (pb_levels p) (pb_level p) (fst r) (snd r)) cl);
        [apply list_eqb_refl, line_obs_eqb_refl|].
      apply map_ext_in. intros r Hr. rewrite Forall_forall in Hcl. destruct (Hcl r Hr) as [Hr1 Hr2].
      unfold the_lo. fold lens. rewrite Pc, Pl. do 2 f_equal.
      destruct (find_para_tile (tc_enc c) (tc_text c) (bi_paras b) r) as (q & Hq & Ef);
        [exact Ht | lia |].
      unfold level_of_line. rewrite Ef.
      destruct (bi_paras b) as [|q' [|q2 qs]]; cbn [map length] in *; [contradiction| |lia].
      destruct Hq as [<-|[]]. exact Pq.
Qed.
