(* Proofs/LISequences.v — length independence of prepare::isolating_run_sequences.
   The stage never looks at the text: what it returns is written in SeqModel.v in terms of the first / last
   live position of index intervals and of the classes and levels found there.  On per-unit expansions of
   per-character vectors the live units of an interval are the units of its live characters, the first
   (last) of them is the first (last) unit of the first (last) live character, and a vector read there
   gives the character's entry: so the unit-level result is the character-level one mapped by [ustart]. *)
From BidiVerif Require Import Base ModelResolve Judge StageRel Stmts2 Stmts3.
From BidiVerif.Proofs Require Import ListLib Units CSSequencesFast SeqModel TextView.

Lemma total_nil : total [] = 0.
Proof. reflexivity. Qed.

Lemma expand_nil_l {A} (v : list A) : expand [] v = [].
Proof. reflexivity. Qed.

Lemma position_lt {A} (p : A -> bool) l : forall i, position p l = Some i -> i < length l.
Proof. exact (ListLib.position_lt p l). Qed.

Lemma hd_map {A B} (f : A -> B) l d : hd (f d) (map f l) = f (hd d l).
Proof. destruct l; reflexivity. Qed.

Lemma last_map {A B} (f : A -> B) l d : last (map f l) (f d) = f (last l d).
Proof. induction l as [|x [|y t] IH]; [reflexivity|reflexivity|exact IH]. Qed.

Section Stage.
Variable lens : list nat.
Hypothesis P : Forall (fun n => 0 < n) lens.
Let k := length lens.
Notation us := (ustart lens).
Notation ul := (fun j => ustart lens (S j) - 1).

Lemma hd_units l : Forall (fun j => j < k) l ->
  hd_error (flat_map (units lens) l) = option_map us (hd_error l).
Proof.
  destruct l as [|j l]; [reflexivity|]. intros H. cbn [flat_map hd_error option_map].
  rewrite units_cons by (apply lens_pos_nth; [exact P|exact (Forall_inv H)]). reflexivity.
Qed.

Lemma olast_units l : Forall (fun j => j < k) l ->
  olast (flat_map (units lens) l) = option_map ul (olast l).
Proof.
  destruct l as [|j l _] using rev_ind; [reflexivity|]. intros H. apply Forall_app in H as [_ H].
  rewrite flat_map_app, olast_snoc. cbn [flat_map option_map]. rewrite app_nil_r.
  rewrite units_snoc by (apply lens_pos_nth; [exact P|exact (Forall_inv H)]).
  rewrite app_assoc. apply olast_snoc.
Qed.

Lemma run_in_urun r : run_in k r -> run_in (total lens) (urun lens r).
Proof.
  intros [H1 H2]. split; cbn [urun fst snd]; [apply ustart_lt; assumption|apply ustart_le_total].
Qed.

Section Vector.
Context {A : Type} (v : list A) (d : A).
Hypothesis Hv : length v = k.

Lemma nth_us j : j < k -> nth (us j) (expand lens v) d = nth j v d.
Proof. intros H. rewrite !nth_nth_error, expand_nth_first; [reflexivity|exact Hv|apply lens_pos_nth; assumption]. Qed.

Lemma nth_ul j : j < k -> nth (ul j) (expand lens v) d = nth j v d.
Proof. intros H. rewrite !nth_nth_error, expand_nth_last; [reflexivity|exact Hv|apply lens_pos_nth; assumption]. Qed.

Lemma nth_hd_units l a : Forall (fun j => j < k) l -> a < k ->
  nth (opt_or (hd_error (flat_map (units lens) l)) (us a)) (expand lens v) d = nth (opt_or (hd_error l) a) v d.
Proof.
  intros Hl Ha. rewrite (hd_units l Hl). destruct l as [|j l]; cbn [hd_error option_map opt_or]; apply nth_us;
    [exact Ha|exact (Forall_inv Hl)].
Qed.

Lemma nth_olast_units l b : Forall (fun j => j < k) l -> 0 < b <= k ->
  nth (opt_or (olast (flat_map (units lens) l)) (us b - 1)) (expand lens v) d = nth (opt_or (olast l) (b - 1)) v d.
Proof.
  intros Hl Hb. rewrite (olast_units l Hl). destruct (olast l) as [j|] eqn:Ej; cbn [option_map opt_or].
  - apply nth_ul. rewrite Forall_forall in Hl. apply Hl, olast_in, Ej.
  - replace b with (S (b - 1)) at 1 by lia. apply nth_ul. lia.
Qed.

End Vector.

Variable cls : list bclass.
Variable lv : list nat.
Variable pl : nat.
Hypothesis Ec : length cls = k.
Hypothesis El : length lv = k.
Let ucls := expand lens cls.
Let ulv := expand lens lv.

Lemma ucls_length : length ucls = total lens.
Proof. apply expand_length, Ec. Qed.

Lemma ulv_length : length ulv = total lens.
Proof. apply expand_length, El. Qed.

Lemma filter_live_units l : Forall (fun j => j < k) l ->
  filter (live ucls) (flat_map (units lens) l) = flat_map (units lens) (filter (live cls) l).
Proof.
  induction 1 as [|j l Hj _ IH]; [reflexivity|]. cbn [flat_map filter]. rewrite filter_app, IH.
  assert (E : forall u, In u (units lens j) -> live ucls u = live cls j).
  { intros u Hu. apply in_units in Hu as (t & Ht & ->). unfold live, ucls.
    rewrite !nth_nth_error, expand_nth; [reflexivity|exact Ec|exact Ht]. }
  destruct (live cls j) eqn:Lj; [rewrite filter_all|rewrite filter_none]; auto.
Qed.

Lemma lives_lt a b : b <= k -> Forall (fun j => j < k) (lives cls a b).
Proof. intros H. apply Forall_forall. intros j Hj. apply in_lives in Hj. lia. Qed.

Lemma lives_expand a b : b <= k -> lives ucls (us a) (us b) = flat_map (units lens) (lives cls a b).
Proof.
  intros H. unfold lives. rewrite range_units. apply filter_live_units.
  apply Forall_forall. intros j Hj. apply in_range in Hj. lia.
Qed.

Lemma lvl_or_olast a b : b <= k ->
  lvl_or ulv pl (olast (lives ucls (us a) (us b))) = lvl_or lv pl (olast (lives cls a b)).
Proof.
  intros H. rewrite (lives_expand a b H), (olast_units _ (lives_lt a b H)).
  destruct (olast (lives cls a b)) as [j|] eqn:Ej; [|reflexivity]. apply (nth_ul lv 0 El).
  apply olast_in, in_lives in Ej. lia.
Qed.

Lemma lvl_or_hd a b : b <= k ->
  lvl_or ulv pl (hd_error (lives ucls (us a) (us b))) = lvl_or lv pl (hd_error (lives cls a b)).
Proof.
  intros H. rewrite (lives_expand a b H), (hd_units _ (lives_lt a b H)).
  destruct (hd_error (lives cls a b)) as [j|] eqn:Ej; [|reflexivity]. apply (nth_us lv 0 El).
  apply hd_error_in, in_lives in Ej. lia.
Qed.

Lemma cls_or_olast a b c : b <= k ->
  cls_or ucls (olast (lives ucls (us a) (us b))) c = cls_or cls (olast (lives cls a b)) c.
Proof.
  intros H. rewrite (lives_expand a b H), (olast_units _ (lives_lt a b H)).
  destruct (olast (lives cls a b)) as [j|] eqn:Ej; [|reflexivity]. apply (nth_ul cls BN Ec).
  apply olast_in, in_lives in Ej. lia.
Qed.

Lemma fast_seq_expand r : run_in k r ->
  fast_seq pl ucls ulv (total lens) (urun lens r) = useq lens (fast_seq pl cls lv k r).
Proof.
  destruct r as [s en]. intros [H1 H2]. cbn [fst snd] in H1, H2. unfold fast_seq, useq, urun.
  cbn [fst snd irs_runs irs_sos irs_eos map]. rewrite <- (ustart_all lens k (le_n _)).
  change (lives ucls 0 (us s)) with (lives ucls (us 0) (us s)).
  rewrite (lvl_or_olast 0 s), (lvl_or_hd en k), (lives_expand s en) by lia.
  rewrite (nth_hd_units lv 0 El), (nth_olast_units lv 0 El) by (try apply lives_lt; lia).
  reflexivity.
Qed.

Lemma general_seq_expand sg : sg <> [] -> Forall (run_in k) sg ->
  general_seq pl ucls ulv (total lens) (map (urun lens) sg) = useq lens (general_seq pl cls lv k sg).
Proof.
  intros Hne Hin. pose proof (runs_range_lt k sg Hin) as Hlt.
  assert (Hli : Forall (fun j => j < k) (filter (live cls) (flat_map run_range sg))).
  { rewrite Forall_forall in *. intros j Hj. apply filter_In in Hj. apply Hlt, Hj. }
  assert (Hs : fst (hd (0, 0) sg) < k).
  { destruct sg as [|r0 t]; [congruence|]. destruct (Forall_inv Hin). cbn [hd]. lia. }
  assert (Hen : 0 < snd (last sg (0, 0)) <= k).
  { destruct (exists_last Hne) as [t [r E]]. rewrite E, last_last. rewrite Forall_forall in Hin.
    destruct (Hin r) as [? ?]; [rewrite E; apply in_or_app; right; left; reflexivity|]. lia. }
  assert (Ehd : fst (hd (0, 0) (map (urun lens) sg)) = us (fst (hd (0, 0) sg))) by apply (f_equal fst (hd_map (urun lens) sg (0, 0))).
  assert (Elast : snd (last (map (urun lens) sg) (0, 0)) = us (snd (last sg (0, 0)))) by apply (f_equal snd (last_map (urun lens) sg (0, 0))).
  unfold general_seq, useq. cbn [irs_runs irs_sos irs_eos].
  rewrite !Ehd, !Elast, <- (ustart_all lens k (le_n _)).
  change (lives ucls 0) with (lives ucls (us 0)).
  rewrite runs_units, (filter_live_units _ Hlt).
  rewrite (lvl_or_olast 0), (lvl_or_hd _ k), (cls_or_olast 0) by lia.
  rewrite (nth_hd_units lv 0 El), (nth_olast_units lv 0 El) by assumption.
  reflexivity.
Qed.

Lemma filter_map_len {A B} (f : A -> B) (l : list (list A)) :
  filter (fun s => negb (length s =? 0)) (map (map f) l)
    = map (map f) (filter (fun s => negb (length s =? 0)) l).
Proof.
  induction l as [|x l IH]; [reflexivity|]. cbn [map filter]. rewrite map_length.
  destruct (negb (length x =? 0)); cbn [map]; rewrite IH; reflexivity.
Qed.

Lemma bd13_expand runs : forall stack seqs out,
  Forall (run_in k) runs ->
  bd13_fold cls runs stack seqs = Ok out ->
  bd13_fold ucls (map (urun lens) runs) (map (map (urun lens)) stack) (map (map (urun lens)) seqs)
    = Ok (map (map (urun lens)) out).
Proof.
  induction runs as [|[s en] rest IH]; intros stack seqs out F H.
  - cbn [bd13_fold map] in *. injection H as <-. rewrite map_app, filter_map_len. reflexivity.
  - apply Forall_cons_iff in F as [[H1 H2] Fr]. cbn [fst snd] in H1, H2.
    destruct stack as [|top below]; [cbn in H; destruct (en <=? s); discriminate|].
    rewrite (bd13_step_eq cls k Ec) in H by (assumption || discriminate). cbn [map hd tl] in H |- *. unfold urun at 1. cbn [fst snd].
    rewrite (bd13_step_eq ucls (total lens) ucls_length)
      by (try apply ustart_lt; try apply ustart_le_total; assumption || discriminate). cbn [hd tl].
    rewrite (cls_or_olast s en) by exact H2. rewrite (nth_us cls BN Ec) by lia.
    cbn [length] in H |- *. rewrite map_length.
    destruct ((nth s cls BN =c PDI) && (1 <? S (length below)));
      destruct (is_isolate_init _);
      rewrite <- (IH _ _ _ Fr H); f_equal;
      repeat (progress (cbn [map]; rewrite ?map_app)); reflexivity.
Qed.

Lemma sequences_expand runs has_iso seqs' :
  Forall (run_in k) runs ->
  isolating_run_sequences pl cls lv runs has_iso = Ok seqs' ->
  isolating_run_sequences pl ucls ulv (map (urun lens) runs) has_iso = Ok (map (useq lens) seqs').
Proof.
  intros F H. assert (F' : Forall (run_in (total lens)) (map (urun lens) runs)).
  { apply Forall_map. revert F. apply Forall_impl, run_in_urun. }
  destruct has_iso.
  - pose proof H as H'. unfold isolating_run_sequences in H'. cbn [negb] in H'. apply bind_ok in H' as (out & Hout & _).
    assert (Fo : Forall (fun sg => sg <> [] /\ Forall (run_in k) sg) out).
    { apply (bd13_fold_Forall cls (run_in k) runs [[]] [] out F); [repeat constructor|constructor|exact Hout]. }
    rewrite (sequences_general_eq pl cls lv k Ec El runs out Hout Fo) in H. injection H as <-.
    pose proof (bd13_expand runs [[]] [] out F Hout) as Hout'. cbn [map] in Hout'.
    rewrite (sequences_general_eq pl ucls ulv (total lens) ucls_length ulv_length _ _ Hout').
    + rewrite !map_map. f_equal. apply map_ext_in. intros sg Hsg. rewrite Forall_forall in Fo.
      destruct (Fo sg Hsg). apply general_seq_expand; assumption.
    + apply Forall_map. revert Fo. apply Forall_impl. intros sg [Hne Hin].
      split; [destruct sg; [congruence|discriminate]|]. apply Forall_map. revert Hin. apply Forall_impl, run_in_urun.
  - rewrite (sequences_fast_eq pl cls lv k Ec El runs F) in H. injection H as <-.
    rewrite (sequences_fast_eq pl ucls ulv (total lens) ucls_length ulv_length _ F').
    rewrite !map_map. f_equal. apply map_ext_in. intros r Hr. rewrite Forall_forall in F.
    apply fast_seq_expand, F, Hr.
Qed.

End Stage.

Lemma li_sequences_main : LI_sequences.
Proof.
  intros e text Hv pl cls lv runs has_iso seqs' Ec El F H.
  rewrite <- (map_length snd (view_of e text)) in Ec, El, F.
  apply sequences_expand; try assumption. apply view_lens_pos, Hv.
Qed.
