(* Proofs/CSNeutralN12.v — N1/N2: n12_loop (one shared iterator, X9-removed positions inside) against
   Spec.neutral on the live classes. *)
From BidiVerif Require Import Base ModelResolve Spec StageRel Stmts4.
From BidiVerif.Proofs Require Import ListLib CSNeutralBase NeutralLoops NeutralPair CSNeutralN0.

Definition norm (c : bclass) : bclass := match strong_dir c with Some d => d | None => c end.

Definition nd (eos : bclass) (r : list bclass) : bclass :=
  match r with [] => eos | x :: _ => if is_ni x then hd eos (next_dirs eos r) else norm x end.

Lemma next_dirs_cons eos c r : next_dirs eos (c :: r) = nd eos r :: next_dirs eos r.
Proof. destruct r; reflexivity. Qed.

Lemma nd_ni eos c r : is_ni c = true -> nd eos (c :: r) = nd eos r.
Proof. intros H. unfold nd at 1. rewrite H, next_dirs_cons. reflexivity. Qed.

Lemma nd_run eos nis r : Forall (fun c => is_ni c = true) nis -> nd eos (nis ++ r) = nd eos r.
Proof.
  induction nis as [|c nis IH]; intros H; [reflexivity|]. inversion H; subst. cbn [app].
  rewrite nd_ni by assumption. apply IH. assumption.
Qed.

Lemma n12_cons_ni ls e eos c r : is_ni c = true ->
  n12 ls e (c :: r) (next_dirs eos (c :: r)) = (if ls =c nd eos r then ls else e) :: n12 ls e r (next_dirs eos r).
Proof. intros H. rewrite next_dirs_cons. cbn [n12]. rewrite H. reflexivity. Qed.

Lemma n12_cons_strong ls e eos c r : is_ni c = false ->
  n12 ls e (c :: r) (next_dirs eos (c :: r)) = c :: n12 (norm c) e r (next_dirs eos r).
Proof. intros H. rewrite next_dirs_cons. cbn [n12]. rewrite H. reflexivity. Qed.

Lemma n12_run ls e eos nis r : Forall (fun c => is_ni c = true) nis ->
  n12 ls e (nis ++ r) (next_dirs eos (nis ++ r)) =
  map (fun _ => if ls =c nd eos r then ls else e) nis ++ n12 ls e r (next_dirs eos r).
Proof.
  induction nis as [|c nis IH]; intros H; [reflexivity|]. inversion H; subst. cbn [app map].
  rewrite n12_cons_ni by assumption. rewrite nd_run by assumption. rewrite IH by assumption. reflexivity.
Qed.

Fixpoint lead_after (lead : bclass) (t : list bclass) : bclass :=
  match t with [] => lead | c :: r => lead_after (if is_ni c then lead else norm c) r end.

Lemma lead_after_app lead t1 t2 : lead_after lead (t1 ++ t2) = lead_after (lead_after lead t1) t2.
Proof. revert lead; induction t1 as [|c t1 IH]; intros lead; [reflexivity|]. cbn [app lead_after]. apply IH. Qed.

Lemma lead_after_ni lead t : Forall (fun c => is_ni c = true) t -> lead_after lead t = lead.
Proof.
  induction t as [|c t IH]; intros H; [reflexivity|]. inversion H as [|c' t' Hc Ht]; subst.
  cbn [lead_after]. rewrite Hc. apply IH. exact Ht.
Qed.

Lemma n12_class_norm pm nx e : hasdir nx = true ->
  n12_class pm nx e = if norm pm =c norm nx then norm pm else e.
Proof. destruct nx; try discriminate; intros _; destruct pm; reflexivity. Qed.

Lemma norm_LR c : c = L \/ c = R -> norm c = c.
Proof. intros [-> | ->]; reflexivity. Qed.

Lemma hasdir_LR c : c = L \/ c = R -> hasdir c = true.
Proof. intros [-> | ->]; reflexivity. Qed.

Lemma nibn_live_ni c : nibn c = true -> alphab c = true -> is_ni c = true.
Proof. destruct c; cbn; congruence. Qed.

Lemma not_nibn_ni c : nibn c = false -> is_ni c = false.
Proof. unfold nibn. intros H. apply orb_false_iff in H as [H _]. exact H. Qed.

Lemma alpha_strong c : alphab c = true -> is_ni c = false -> hasdir c = true.
Proof. unfold alphab. intros H1 H2. rewrite H2 in H1. exact H1. Qed.

Lemma find_app_none {A} (f : A -> bool) l1 l2 : (forall y, In y l1 -> f y = false) -> find f (l1 ++ l2) = find f l2.
Proof.
  induction l1 as [|x l1 IH]; intros H; [reflexivity|]. cbn [app find].
  rewrite (H x (or_introl eq_refl)). apply IH. intros y Hy. apply H. right; exact Hy.
Qed.

Lemma find_app_some {A} (f : A -> bool) l1 l2 : filter f l1 <> [] ->
  exists y, find f (l1 ++ l2) = Some y /\ In y l1 /\ f y = true.
Proof.
  induction l1 as [|x l1 IH]; intros H; [contradiction|]. cbn [app find]. cbn [filter] in H.
  destruct (f x) eqn:E.
  - exists x. split; [reflexivity|]. split; [left; reflexivity | exact E].
  - destruct (IH H) as (y & Hy & Hin & Hf). exists y. split; [exact Hy|]. split; [right; exact Hin | exact Hf].
Qed.

Lemma find_filter_hd {A} (f : A -> bool) l q : find f l = Some q -> exists tl, filter f l = q :: tl.
Proof.
  induction l as [|x l IH]; cbn [find filter]; [discriminate|]. destruct (f x).
  - intros [= ->]. eauto.
  - exact IH.
Qed.

Lemma map_const_eq {A B} (u v : B) (l : list A) : (l <> [] -> u = v) -> map (fun _ => u) l = map (fun _ => v) l.
Proof. destruct l as [|x l]; [reflexivity|]. intros H. rewrite H by discriminate. reflexivity. Qed.

Lemma at_const (out : list bclass) nc l : (forall y, In y l -> nth y out BN = nc) -> at_ BN out l = map (fun _ => nc) l.
Proof. intros H. unfold at_. apply map_ext_in. exact H. Qed.

Section N12.
Variable sq : irs.
Variable oc : list bclass.
Variable k : nat.
Hypothesis Hwf : seq_wf k sq.
Variable e : bclass.
Variable pc0 : list bclass.
Hypothesis Halpha0 : forall x, In x (live_idx oc sq) -> alphab (nth x pc0 BN) = true.
Hypothesis HP0 : okP sq oc pc0.
Let Sq := seq_idx sq.
Let sos := irs_sos sq.
Let eos := irs_eos sq.

Lemma eos_LR : eos = L \/ eos = R.
Proof. destruct Hwf as (_ & _ & _ & _ & H). exact H. Qed.

Lemma Hsos' : sos = L \/ sos = R.
Proof. destruct Hwf as (_ & _ & _ & H & _). exact H. Qed.

Definition lvcls (l : list nat) : list bclass := at_ BN pc0 (filter (live oc) l).
Definition lead_of (dn : list nat) : bclass := lead_after sos (lvcls dn).
Definition relpm (dn idxs : list nat) (pm : bclass) : Prop :=
  norm pm = lead_of dn \/
  match find (live oc) idxs with Some q => is_ni (nth q pc0 BN) = false | None => True end.

Lemma lvcls_app l1 l2 : lvcls (l1 ++ l2) = lvcls l1 ++ lvcls l2.
Proof. unfold lvcls. rewrite filter_app, at_app. reflexivity. Qed.

Lemma map_const_lvcls {B} (v : B) l : map (fun _ : bclass => v) (lvcls l) = map (fun _ : nat => v) (filter (live oc) l).
Proof. unfold lvcls, at_. apply map_map. Qed.

Lemma lvcls_single j : lvcls [j] = if live oc j then [nth j pc0 BN] else [].
Proof. unfold lvcls. cbn [filter]. destruct (live oc j); reflexivity. Qed.

Lemma live_alpha y : In y Sq -> live oc y = true -> alphab (nth y pc0 BN) = true.
Proof. intros H1 H2. apply Halpha0. apply (in_li sq oc). auto. Qed.

Lemma lvcls_ni mid : (forall y, In y mid -> In y Sq) -> (forall y, In y mid -> nibn (nth y pc0 BN) = true) ->
  Forall (fun c => is_ni c = true) (lvcls mid).
Proof.
  intros HS Hn. unfold lvcls, at_. apply Forall_map. apply Forall_forall. intros y Hy.
  apply filter_In in Hy as [Hy Hl]. apply nibn_live_ni; [apply Hn; exact Hy | apply live_alpha; auto].
Qed.

Lemma nextlive_find d j r q : Sq = d ++ j :: r -> nextlive sq oc j q -> find (live oc) r = Some q.
Proof.
  intros E (H1 & H2 & H3 & H4). pose proof (seq_asc sq k Hwf) as Ha. fold Sq in Ha, H1. rewrite E in Ha, H1.
  assert (Hq : In q r) by (eapply asc_in_after; eauto).
  destruct (in_split _ _ Hq) as (r1 & r2 & ->).
  rewrite find_app_none.
  - cbn [find]. rewrite H2. reflexivity.
  - intros y Hy. apply H4.
    + fold Sq. rewrite E. apply in_or_app. right. right. apply in_or_app. left. exact Hy.
    + destruct (asc_split _ _ _ Ha) as (_ & Har & _ & Hjr & _).
      destruct (asc_split _ _ _ Har) as (_ & _ & Hr1 & _). split; [|apply Hr1; exact Hy].
      apply Hjr. apply in_or_app. left. exact Hy.
Qed.

Lemma removed_strong d j r : Sq = d ++ j :: r -> live oc j = false -> nibn (nth j pc0 BN) = false ->
  hasdir (nth j pc0 BN) = true /\
  ((exists q, find (live oc) r = Some q /\ nth q pc0 BN = nth j pc0 BN) \/
   (exists L1 p, filter (live oc) d = L1 ++ [p] /\ nth p pc0 BN = nth j pc0 BN)).
Proof.
  intros E Hlj Hn.
  assert (HjS : In j (seq_idx sq)) by (fold Sq; rewrite E; apply in_or_app; right; left; reflexivity).
  destruct (HP0 j HjS Hlj) as [Hc|[(q & Hq & Eq)|(p & Hp & Ep)]]; [congruence| |].
  - pose proof Hq as (Hq1 & Hq2 & _). split.
    + rewrite Eq. apply alpha_strong; [apply live_alpha; assumption|]. rewrite <- Eq. apply not_nibn_ni. exact Hn.
    + left. exists q. split; [eapply nextlive_find; eauto | congruence].
  - pose proof Hp as (Hp1 & Hp2 & _). split.
    + rewrite Ep. apply alpha_strong; [apply live_alpha; assumption|]. rewrite <- Ep. apply not_nibn_ni. exact Hn.
    + right. destruct (prevlive_last sq oc k Hwf _ _ _ _ E Hp) as (pre1 & gap & -> & Hg).
      exists (filter (live oc) pre1), p. rewrite filter_app. cbn [filter]. rewrite Hp2.
      rewrite (filter_none _ gap) by exact Hg. split; [reflexivity | congruence].
Qed.

(* the state after a (possibly empty) run of neutral/BN positions [mid] ended by position j *)
Lemma rel_next dn0 mid j r : Sq = dn0 ++ mid ++ j :: r ->
  (forall y, In y mid -> nibn (nth y pc0 BN) = true) -> nibn (nth j pc0 BN) = false ->
  relpm ((dn0 ++ mid) ++ [j]) r (nth j pc0 BN) /\ hasdir (nth j pc0 BN) = true /\
  lead_of ((dn0 ++ mid) ++ [j]) = (if live oc j then norm (nth j pc0 BN) else lead_of dn0) /\
  (filter (live oc) mid <> [] -> live oc j = false -> nd eos (lvcls r) = norm (nth j pc0 BN)).
Proof.
  intros E Hmid Hn. set (c := nth j pc0 BN) in *.
  assert (HmS : forall y, In y mid -> In y Sq).
  { intros y Hy. rewrite E. apply in_or_app. right. apply in_or_app. left. exact Hy. }
  assert (HjS : In j Sq).
  { rewrite E. apply in_or_app. right. apply in_or_app. right. left. reflexivity. }
  pose proof (lvcls_ni mid HmS Hmid) as Hni.
  assert (HLSmid : lead_of (dn0 ++ mid) = lead_of dn0).
  { unfold lead_of. rewrite lvcls_app, lead_after_app. apply lead_after_ni. exact Hni. }
  destruct (live oc j) eqn:Elj.
  - assert (Hc : is_ni c = false) by (apply not_nibn_ni; exact Hn).
    assert (HLS : lead_of ((dn0 ++ mid) ++ [j]) = norm c).
    { unfold lead_of. rewrite lvcls_app, lead_after_app. unfold lvcls at 2. cbn [filter]. rewrite Elj.
      cbn [at_ map lead_after]. fold c. rewrite Hc. reflexivity. }
    split; [left; symmetry; exact HLS|]. split; [apply alpha_strong; [apply live_alpha; assumption | exact Hc]|].
    split; [exact HLS | discriminate].
  - assert (HLS : lead_of ((dn0 ++ mid) ++ [j]) = lead_of dn0).
    { unfold lead_of. rewrite lvcls_app. unfold lvcls at 2. cbn [filter]. rewrite Elj. cbn [at_ map]. rewrite app_nil_r.
      exact HLSmid. }
    rewrite app_assoc in E.
    destruct (removed_strong _ _ _ E Elj Hn) as [Hhd [(q & Hq & Eq)|(L1 & p & EL & Ep)]]; fold c in Hhd.
    + split; [right; rewrite Hq, Eq; apply not_nibn_ni; exact Hn|]. split; [exact Hhd|]. split; [exact HLS|].
      intros _ _. unfold lvcls. destruct (find_filter_hd _ _ _ Hq) as (tl & ->). cbn [at_ map nd].
      rewrite Eq. fold c. rewrite (not_nibn_ni _ Hn). reflexivity.
    + rewrite filter_app in EL. destruct (filter (live oc) mid) as [|m0 ml] eqn:Em.
      * rewrite app_nil_r in EL. split; [|split; [exact Hhd|]; split; [exact HLS | congruence]].
        left. rewrite HLS. unfold lead_of, lvcls. rewrite EL, at_app, lead_after_app. cbn [at_ map lead_after].
        rewrite Ep. fold c. rewrite (not_nibn_ni _ Hn). reflexivity.
      * exfalso. assert (Hne : m0 :: ml <> []) by discriminate.
        destruct (exists_last Hne) as (L2 & p' & EL2). rewrite EL2, app_assoc in EL.
        apply app_inj_tail in EL as [_ <-].
        assert (Hp : In p' (filter (live oc) mid)) by (rewrite Em, EL2; apply in_or_app; right; left; reflexivity).
        apply filter_In in Hp as [Hp _]. apply Hmid in Hp. rewrite Ep in Hp. fold c in Hp. congruence.
Qed.

(* a neutral run that contains a live position: the model's prev_class is the specification's lead *)
Lemma rel_live dn mid r' pm : (forall y, In y mid -> In y Sq) ->
  relpm dn (mid ++ r') pm -> (forall y, In y mid -> nibn (nth y pc0 BN) = true) ->
  filter (live oc) mid <> [] -> norm pm = lead_of dn.
Proof.
  intros HmS [H|H] Hmid Hne; [exact H|]. exfalso.
  destruct (find_app_some (live oc) mid r' Hne) as (y & Hy & Hin & Hl). rewrite Hy in H.
  assert (is_ni (nth y pc0 BN) = true); [|congruence].
  apply nibn_live_ni; [apply Hmid; exact Hin | apply live_alpha; auto].
Qed.

Lemma n12_sim : forall fuel idxs dn pc pm out,
  Sq = dn ++ idxs -> length idxs < fuel -> length pc = k ->
  (forall j, In j idxs -> nth j pc BN = nth j pc0 BN) ->
  relpm dn idxs pm ->
  n12_loop fuel sq e pc idxs pm = Ok out ->
  at_ BN out (filter (live oc) idxs) = n12 (lead_of dn) e (lvcls idxs) (next_dirs eos (lvcls idxs)) /\
  forall j, ~ In j idxs -> nth j out BN = nth j pc BN.
Proof.
  induction fuel as [|f IH]; intros idxs dn pc pm out E Hlen Hk Hagree Hrel H; [lia|].
  destruct idxs as [|i rest]; [injection H as <-; split; [reflexivity | auto]|].
  pose proof (seq_asc sq k Hwf) as Ha. fold Sq in Ha. rewrite E in Ha. apply asc_app in Ha as (_ & Ha & _).
  assert (HS : forall y, In y (i :: rest) -> In y Sq /\ y < length pc).
  { intros y Hy. assert (In y Sq) by (rewrite E; apply in_or_app; right; exact Hy).
    split; [assumption | rewrite Hk; eapply HSk; eauto]. }
  apply n12_loop_inv in H as (c & Hc & H). apply (nth_error_nth _ _ BN) in Hc.
  assert (Ec0 : nth i pc0 BN = c) by (rewrite <- Hagree; [exact Hc | left; reflexivity]).
  destruct (nibn c) eqn:En.
  - destruct H as (l1 & Hl1 & H).
    assert (Hrun0 : forall y, In y (i :: l1) -> In y (i :: rest) -> nibn (nth y pc0 BN) = true).
    { intros y [<-|Hy] Hin; [rewrite Ec0; exact En|]. destruct (Hl1 y Hy) as (c2 & H2 & H3).
      rewrite <- Hagree by exact Hin. rewrite (nth_error_nth _ _ BN H2). exact H3. }
    destruct H as [(-> & ->)|(j & rest' & c' & -> & Hj & Hn' & _ & H)].
    + (* the iterator is exhausted *)
      assert (Hrun : forall y, In y (i :: l1) -> nibn (nth y pc0 BN) = true) by (intros y Hy; apply Hrun0; exact Hy).
      assert (HmS : forall y, In y (i :: l1) -> In y Sq) by (intros y Hy; apply HS, Hy).
      split; [|intros y Hy; apply nth_lset_all_notin, Hy].
      rewrite <- (app_nil_r (lvcls (i :: l1))), n12_run by (apply lvcls_ni; assumption).
      cbn [n12 next_dirs nd]. rewrite app_nil_r, map_const_lvcls.
      rewrite (at_const _ (n12_class pm eos e))
        by (intros y Hy; apply filter_In in Hy as [Hy _]; apply nth_lset_all_in; [exact Hy | apply HS, Hy]).
      apply map_const_eq. intros Hne.
      rewrite n12_class_norm by (apply hasdir_LR; exact eos_LR). rewrite (norm_LR _ eos_LR).
      rewrite <- (app_nil_r (i :: l1)) in Hrel.
      rewrite (rel_live dn (i :: l1) [] pm HmS Hrel Hrun Hne). reflexivity.
    + (* the run ends at position j *)
      change (i :: l1 ++ j :: rest') with ((i :: l1) ++ j :: rest') in *.
      apply asc_app in Ha as (_ & [Hjr' _] & Hrunlt).
      assert (Hin1 : forall y, In y (i :: l1) -> In y ((i :: l1) ++ j :: rest')) by (intros y Hy; apply in_or_app; left; exact Hy).
      assert (HjS : In j ((i :: l1) ++ j :: rest')) by (apply in_or_app; right; left; reflexivity).
      assert (HmS : forall y, In y (i :: l1) -> In y Sq) by (intros y Hy; apply HS, Hin1, Hy).
      assert (Hrun : forall y, In y (i :: l1) -> nibn (nth y pc0 BN) = true) by (intros y Hy; apply Hrun0; auto).
      assert (Hj0 : nth j pc0 BN = c') by (rewrite <- (Hagree j HjS); apply nth_error_nth, Hj).
      assert (Hout : forall y, In y (j :: rest') -> ~ In y (i :: l1)).
      { intros y Hy Hin. specialize (Hrunlt y y Hin Hy). lia. }
      destruct (rel_next dn (i :: l1) j rest' E Hrun ltac:(rewrite Hj0; exact Hn')) as (Hrel' & Hhd & HLS & Hnd).
      rewrite Hj0 in Hrel', Hhd, HLS, Hnd.
      set (pc' := lset_all pc (i :: l1) (n12_class pm c' e)) in *.
      destruct (IH rest' ((dn ++ i :: l1) ++ [j]) pc' c' out) as [IH1 IH2];
        [rewrite E, <- !app_assoc; reflexivity | rewrite app_length in Hlen; cbn [length] in Hlen; lia
        | unfold pc'; rewrite lset_all_length; exact Hk | | exact Hrel' | exact H |].
      { intros y Hy. unfold pc'. rewrite nth_lset_all_notin by (apply Hout; right; exact Hy).
        apply Hagree. apply in_or_app. right. right. exact Hy. }
      assert (Hnr : forall y, In y ((i :: l1) ++ [j]) -> ~ In y rest').
      { intros y Hy Hin. apply in_app_or in Hy as [Hy|[<-|[]]]; [apply (Hout y (or_intror Hin) Hy)|].
        apply Hjr' in Hin. lia. }
      assert (Eoj : nth j out BN = c').
      { rewrite IH2 by (apply Hnr; apply in_or_app; right; left; reflexivity). unfold pc'.
        rewrite nth_lset_all_notin by (apply Hout; left; reflexivity). rewrite (Hagree j HjS). exact Hj0. }
      split.
      * change ((i :: l1) ++ j :: rest') with ((i :: l1) ++ [j] ++ rest').
        rewrite !filter_app, !at_app, IH1, HLS, !lvcls_app. rewrite n12_run by (apply lvcls_ni; assumption).
        rewrite (at_const out (n12_class pm c' e)).
        2:{ intros y Hy. apply filter_In in Hy as [Hy _].
            rewrite IH2 by (apply Hnr; apply in_or_app; left; exact Hy).
            apply nth_lset_all_in; [exact Hy | apply HS, Hin1, Hy]. }
        rewrite map_const_lvcls. f_equal.
        -- apply map_const_eq. intros Hne. rewrite n12_class_norm by exact Hhd.
           rewrite (rel_live dn (i :: l1) (j :: rest') pm HmS Hrel Hrun Hne).
           rewrite lvcls_single. destruct (live oc j) eqn:Elj.
           ++ cbn [app nd]. rewrite Hj0, (not_nibn_ni _ Hn'). reflexivity.
           ++ cbn [app]. rewrite (Hnd Hne eq_refl). reflexivity.
        -- rewrite lvcls_single. cbn [filter]. destruct (live oc j) eqn:Elj.
           ++ cbn [at_ map app]. rewrite Hj0, Eoj. rewrite n12_cons_strong by (apply not_nibn_ni; exact Hn').
              reflexivity.
           ++ reflexivity.
      * intros y Hy. rewrite IH2 by (intros Hin; apply Hy; apply in_or_app; right; right; exact Hin).
        apply nth_lset_all_notin. intros Hin. apply Hy, Hin1, Hin.
  - destruct (rel_next dn [] i rest E ltac:(intros y []) ltac:(rewrite Ec0; exact En)) as (Hrel' & Hhd & HLS & _).
    rewrite app_nil_r in Hrel', HLS. rewrite Ec0 in Hrel', HLS.
    assert (E' : Sq = (dn ++ [i]) ++ rest) by (rewrite E, <- app_assoc; reflexivity).
    assert (Hagree' : forall y, In y rest -> nth y pc BN = nth y pc0 BN) by (intros y Hy; apply Hagree; right; exact Hy).
    cbn [length] in Hlen.
    destruct (IH rest _ pc c out E' ltac:(lia) Hk Hagree' Hrel' H) as [IH1 IH2].
    assert (Hni : ~ In i rest) by (intros Hin; apply Ha in Hin; lia).
    split.
    + cbn [filter]. unfold lvcls. cbn [filter]. destruct (live oc i) eqn:Eli.
      * cbn [at_ map]. fold (at_ BN out (filter (live oc) rest)). fold (at_ BN pc0 (filter (live oc) rest)).
        fold (lvcls rest). rewrite Ec0. rewrite n12_cons_strong by (apply not_nibn_ni; exact En).
        rewrite IH1, HLS, (IH2 i Hni), Hc. reflexivity.
      * fold (lvcls rest). rewrite IH1, HLS. reflexivity.
    + intros y Hy. apply IH2. intros Hin. apply Hy. right. exact Hin.
Qed.

End N12.
